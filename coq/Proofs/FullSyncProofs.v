(* FullSyncProofs.v -- property C05: a node joining with an empty disk is brought up to date.
   Cluster.full_sync_lines = what a primary answers to `replicate-since <node> 0`:
   coverage (no key silently skipped), block structure, exactness, the token line,
   and the joiner processing one database's block. *)
From NunDB Require Import Proofs.AssocLemmas Proofs.StrLemmas Proofs.NodeLemmas.
From NunDB Require Import Proofs.ArbiterClusterProofs Proofs.SnapshotReplProofs.
From NunDB Require Import Model.Base Model.Pending Model.Parse Model.Node Model.Oplog Model.Cluster.
From NunDB Require Import Proofs.DbProofs Proofs.ClusterProofs Proofs.ConvergeProofs.
Local Open Scope Z_scope.


(* Cluster.full_sync_lines written out piece by piece ([full_sync_lines_eq]): per database other than "$admin"
   the create-db line, one [sync_line] per entry but the token and the connection counter, the snapshot
   request.  [snapshot_line] here is the request sent to the joiner, not SnapshotReplProofs.snapshot_line
   (the client's command), which it shadows. *)
Definition sync_line (dbn k val : str) : str := "replicate " +++ dbn +++ " " +++ k +++ " " +++ val.

Definition skipped_key (k : str) : bool := String.eqb k "$$token" || String.eqb k "$connections".

Definition entry_lines (dbn : str) (m : list (str * value)) : list str :=
  flat_map (fun e => if skipped_key (fst e) then [] else [sync_line dbn (fst e) (v_val (snd e))]) m.

Definition snapshot_line (dbn : str) : str := "replicate-snapshot " +++ dbn.

Definition db_block (n : node) (dbn : str) (d : db) : list str :=
  [create_db_line n dbn] ++ entry_lines dbn (d_map d) ++ [snapshot_line dbn].

Definition dbs_lines (n : node) (l : list (str * db)) : list str :=
  flat_map (fun kv => if String.eqb (fst kv) "$admin" then [] else db_block n (fst kv) (snd kv)) l.

Lemma full_sync_lines_eq n : full_sync_lines n = dbs_lines n (n_dbs n).
Proof.
  unfold full_sync_lines, dbs_lines. apply flat_map_ext. intros [dbn d]. cbn [fst snd].
  destruct (String.eqb dbn "$admin"); [reflexivity|].
  unfold db_block, entry_lines, snapshot_line. do 2 f_equal.
  apply flat_map_ext. intros [k v]. reflexivity.
Qed.

Lemma skipped_key_false k : k <> "$$token" -> k <> "$connections" -> skipped_key k = false.
Proof.
  intros H1 H2. unfold skipped_key.
  destruct (String.eqb_spec k "$$token"); [contradiction|].
  destruct (String.eqb_spec k "$connections"); [contradiction|reflexivity].
Qed.

Lemma skipped_key_true k : skipped_key k = true -> k = "$$token" \/ k = "$connections".
Proof.
  unfold skipped_key. destruct (String.eqb_spec k "$$token"); auto.
  destruct (String.eqb_spec k "$connections"); auto. discriminate.
Qed.

Lemma in_entry_lines dbn m l :
  In l (entry_lines dbn m) <->
  exists k v, In (k, v) m /\ k <> "$$token" /\ k <> "$connections" /\ l = sync_line dbn k (v_val v).
Proof.
  unfold entry_lines. rewrite in_flat_map. split.
  - intros ([k v] & Hin & Hl). cbn [fst snd] in Hl.
    destruct (skipped_key k) eqn:E; [destruct Hl|].
    destruct Hl as [<-|[]]. exists k, v. repeat split; auto.
    + intros ->. discriminate E.
    + intros ->. discriminate E.
  - intros (k & v & Hin & H1 & H2 & ->). exists (k, v). split; auto. cbn [fst snd].
    rewrite skipped_key_false by assumption. now left.
Qed.


Theorem full_sync_covers n dbn d k v :
  In (dbn, d) (n_dbs n) -> dbn <> "$admin" -> In (k, v) (d_map d) ->
  k <> "$$token" -> k <> "$connections" ->
  In ("replicate " +++ dbn +++ " " +++ k +++ " " +++ v_val v) (full_sync_lines n).
Proof.
  intros Hd Hadm Hk H1 H2. rewrite full_sync_lines_eq. unfold dbs_lines.
  apply in_flat_map. exists (dbn, d). split; auto. cbn [fst snd].
  destruct (String.eqb_spec dbn "$admin"); [contradiction|].
  unfold db_block. apply in_or_app. right. apply in_or_app. left.
  apply in_entry_lines. exists k, v. auto.
Qed.

(* keys of the security name space ("$$...") other than the token are sent *)
Corollary full_sync_covers_secure_keys n dbn d k v :
  In (dbn, d) (n_dbs n) -> dbn <> "$admin" -> In (k, v) (d_map d) ->
  starts_with k "$$" = true -> k <> "$$token" ->
  In ("replicate " +++ dbn +++ " " +++ k +++ " " +++ v_val v) (full_sync_lines n).
Proof.
  intros Hd Hadm Hk Hs Ht. apply full_sync_covers with (d := d); auto.
  intros ->. discriminate Hs.
Qed.

Corollary full_sync_covers_user n dbn d u v :
  In (dbn, d) (n_dbs n) -> dbn <> "$admin" -> In ("$$user_" +++ u, v) (d_map d) ->
  In ("replicate " +++ dbn +++ " " +++ ("$$user_" +++ u) +++ " " +++ v_val v) (full_sync_lines n).
Proof.
  intros Hd Hadm Hk. apply full_sync_covers_secure_keys with (d := d); auto. discriminate.
Qed.

Corollary full_sync_covers_permission n dbn d u v :
  In (dbn, d) (n_dbs n) -> dbn <> "$admin" -> In ("$$permission_$" +++ u, v) (d_map d) ->
  In ("replicate " +++ dbn +++ " " +++ ("$$permission_$" +++ u) +++ " " +++ v_val v) (full_sync_lines n).
Proof.
  intros Hd Hadm Hk. apply full_sync_covers_secure_keys with (d := d); auto. discriminate.
Qed.


Lemma dbs_lines_app n l1 l2 : dbs_lines n (l1 ++ l2) = dbs_lines n l1 ++ dbs_lines n l2.
Proof. unfold dbs_lines. apply flat_map_app. Qed.

(* positional form: the lines before are those of the databases before, etc. *)
Theorem full_sync_db_block_pos n dbn d l1 l2 :
  n_dbs n = l1 ++ (dbn, d) :: l2 -> dbn <> "$admin" ->
  full_sync_lines n =
    dbs_lines n l1 ++
    [create_db_line n dbn] ++ entry_lines dbn (d_map d) ++ ["replicate-snapshot " +++ dbn] ++
    dbs_lines n l2.
Proof.
  intros Hs Hadm. rewrite full_sync_lines_eq, Hs, dbs_lines_app. f_equal.
  change ((dbn, d) :: l2) with ([(dbn, d)] ++ l2). rewrite dbs_lines_app.
  unfold dbs_lines at 1. cbn [flat_map fst snd].
  destruct (String.eqb_spec dbn "$admin"); [contradiction|].
  rewrite app_nil_r. unfold db_block, snapshot_line. rewrite <- !app_assoc. reflexivity.
Qed.

Theorem full_sync_db_block n dbn d :
  In (dbn, d) (n_dbs n) -> dbn <> "$admin" ->
  exists pre post,
    full_sync_lines n =
      pre ++ [create_db_line n dbn] ++ entry_lines dbn (d_map d) ++ ["replicate-snapshot " +++ dbn] ++ post.
Proof.
  intros Hin Hadm. destruct (in_split _ _ Hin) as (l1 & l2 & Hs).
  exists (dbs_lines n l1), (dbs_lines n l2). now apply full_sync_db_block_pos.
Qed.

(* the entries that are sent; the right-hand side of [entry_lines_map] is [map .. (sent_entries m)] *)
Definition sent_entries (m : list (str * value)) : list (str * value) := filter (fun e => negb (skipped_key (fst e))) m.

Lemma in_sent_entries k v m : In (k, v) (sent_entries m) <-> In (k, v) m /\ k <> "$$token" /\ k <> "$connections".
Proof.
  unfold sent_entries. rewrite filter_In. cbn [fst]. split; intros (Hin & H); split; auto.
  - apply negb_true_iff in H. split; intros ->; discriminate H.
  - destruct H. now rewrite skipped_key_false.
Qed.

Lemma entry_lines_map dbn m :
  entry_lines dbn m =
  map (fun e => sync_line dbn (fst e) (v_val (snd e))) (filter (fun e => negb (skipped_key (fst e))) m).
Proof.
  unfold entry_lines. induction m as [|[k v] r IH]; [reflexivity|].
  cbn [flat_map filter fst snd]. destruct (skipped_key k); cbn [negb app map]; now rewrite IH.
Qed.


Theorem full_sync_only n l :
  In l (full_sync_lines n) ->
  exists dbn d, In (dbn, d) (n_dbs n) /\ dbn <> "$admin" /\
    (l = create_db_line n dbn \/
     (exists k v, In (k, v) (d_map d) /\ k <> "$$token" /\ k <> "$connections" /\
                  l = "replicate " +++ dbn +++ " " +++ k +++ " " +++ v_val v) \/
     l = "replicate-snapshot " +++ dbn).
Proof.
  rewrite full_sync_lines_eq. unfold dbs_lines. rewrite in_flat_map.
  intros ([dbn d] & Hin & Hl). cbn [fst snd] in Hl.
  destruct (String.eqb_spec dbn "$admin") as [|Hadm]; [destruct Hl|].
  exists dbn, d. split; auto. split; auto.
  unfold db_block in Hl. apply in_app_or in Hl as [Hl|Hl].
  - destruct Hl as [<-|[]]. now left.
  - apply in_app_or in Hl as [Hl|Hl].
    + right. left. apply in_entry_lines in Hl. exact Hl.
    + destruct Hl as [<-|[]]. right. right. reflexivity.
Qed.

(* the databases other than "$admin" *)
Definition non_admin (l : list (str * db)) : list (str * db) :=
  filter (fun kv => negb (String.eqb (fst kv) "$admin")) l.

Lemma assoc_get_non_admin x (l : list (str * db)) : x <> "$admin" ->
  assoc_get String.eqb x (non_admin l) = assoc_get String.eqb x l.
Proof.
  intros Hx. apply (get_filter _ String.eqb_spec (fun k => negb (String.eqb k "$admin"))).
  now destruct (String.eqb_spec x "$admin").
Qed.

Lemma dbs_lines_ext n n' l :
  (forall x, x <> "$admin" -> get_db n x = get_db n' x) -> dbs_lines n l = dbs_lines n' l.
Proof.
  intros H. unfold dbs_lines. apply flat_map_ext. intros [dbn d]. cbn [fst snd].
  destruct (String.eqb_spec dbn "$admin"); [reflexivity|].
  unfold db_block, create_db_line. now rewrite H.
Qed.

Lemma dbs_lines_non_admin n l : dbs_lines n (non_admin l) = dbs_lines n l.
Proof.
  induction l as [|[k v] r IH]; [reflexivity|].
  cbn [non_admin filter fst]. fold (non_admin r).
  change ((k, v) :: r) with ([(k, v)] ++ r). rewrite dbs_lines_app, <- IH.
  destruct (String.eqb_spec k "$admin") as [->|Hk]; cbn [negb].
  - reflexivity.
  - change ((k, v) :: non_admin r) with ([(k, v)] ++ non_admin r). now rewrite dbs_lines_app.
Qed.

(* nothing of "$admin" is sent: the answer does not depend on the "$admin" database at all
   (nor on anything of the node but its other databases) *)
Theorem full_sync_no_admin n n' :
  non_admin (n_dbs n) = non_admin (n_dbs n') -> full_sync_lines n = full_sync_lines n'.
Proof.
  intros H. rewrite !full_sync_lines_eq.
  rewrite <- (dbs_lines_non_admin n), <- (dbs_lines_non_admin n'), H.
  apply dbs_lines_ext. intros x Hx. unfold get_db.
  rewrite <- (assoc_get_non_admin x (n_dbs n)), <- (assoc_get_non_admin x (n_dbs n')) by assumption.
  now rewrite H.
Qed.

(* and no line belongs to a database called "$admin" *)
Corollary full_sync_no_admin_line n l :
  In l (full_sync_lines n) ->
  exists dbn, dbn <> "$admin" /\
    (l = create_db_line n dbn \/ (exists k val, l = sync_line dbn k val) \/ l = snapshot_line dbn).
Proof.
  intros H. destruct (full_sync_only n l H) as (dbn & d & _ & Hadm & [->|[(k & v & _ & _ & _ & ->)| ->]]);
    exists dbn; split; auto.
  right. left. exists k, (v_val v). reflexivity.
Qed.


Theorem full_sync_token_line n dbn d v :
  get_db n dbn = Some d -> get_value d "$$token" = Some v ->
  create_db_line n dbn = "create-db " +++ dbn +++ " " +++ v_val v.
Proof.
  intros Hd Hv. unfold create_db_line, get_key_value_new. now rewrite Hd, Hv.
Qed.

(* with unique database names the entry of the list is the one looked up *)
Corollary full_sync_token_line_in n dbn d v :
  NoDup (map fst (n_dbs n)) -> In (dbn, d) (n_dbs n) -> get_value d "$$token" = Some v ->
  create_db_line n dbn = "create-db " +++ dbn +++ " " +++ v_val v.
Proof.
  intros Hnd Hin Hv. apply full_sync_token_line with (d := d); auto.
  unfold get_db. apply str_in_get; auto.
Qed.

(* a database without token entry is announced with the text "<Empty>" *)
Lemma create_db_line_no_token n dbn d :
  get_db n dbn = Some d -> get_value d "$$token" = None ->
  create_db_line n dbn = "create-db " +++ dbn +++ " <Empty>".
Proof. intros Hd Hv. unfold create_db_line, get_key_value_new. now rewrite Hd, Hv. Qed.


(* the lines executed in order on session [c] (the fold of SnapshotReplProofs.run_lines; it shadows
   ConvergeProofs.run) *)
Definition run (n : node) (c : nat) (ls : list str) : node := fold_left (fun n l => fst (step n c l)) ls n.

Definition example_primary : node :=
  let '(n0, c) := connect (init_node "u" "p" "127.0.0.1:3016" 1 Primary 100) in
  run n0 c ["auth u p"; "create-db d1 tok1"; "use-db d1 tok1"; "set a 1";
            "create-user bob pw"; "set-permissions bob rw a"].

Example full_sync_example :
  map (fun kv => (fst kv, map fst (d_map (snd kv)))) (n_dbs example_primary) =
    [("$admin", ["$$token"; "$admin"; "d1"]);
     ("d1", ["$$token"; "$connections"; "a"; "$$user_bob"; "$$permission_$bob"])] /\
  full_sync_lines example_primary =
    ["create-db d1 tok1";
     "replicate d1 a 1";
     "replicate d1 $$user_bob pw";
     "replicate d1 $$permission_$bob rw a";
     "replicate-snapshot d1"].
Proof. vm_compute. split; reflexivity. Qed.


Lemma trim_end_keep c P v : last_char P <> Some c -> P <> "" ->
  exists v', trim_end_char c (P +++ v) = P +++ v'.
Proof.
  intros Hl Hne. unfold trim_end_char. rewrite str_rev_app.
  rewrite last_char_rev in Hl. destruct (str_rev P) as [|x b] eqn:E.
  - exfalso. apply Hne. rewrite <- (str_rev_invol P), E. reflexivity.
  - assert (Hx : Ascii.eqb x c = false).
    { destruct (Ascii.eqb_spec x c); auto. subst. congruence. }
    destruct (drop_leading_app_keep c (str_rev v) x b Hx) as (a' & ->).
    rewrite str_rev_app, <- E, str_rev_invol. eauto.
Qed.

(* the key of a catch-up line survives whatever the value is *)
Lemma parse_sync_line_key dbn k val : no_sp dbn -> no_sp k -> no_nl k ->
  exists value ver,
    parse_request (trim_char nl (sync_line dbn k val)) = POk (RqReplicateSet dbn k value ver).
Proof.
  intros Hd Hk Hkn. unfold sync_line.
  set (P := "replicate " +++ dbn +++ " " +++ k +++ " ").
  replace ("replicate " +++ dbn +++ " " +++ k +++ " " +++ val) with (P +++ val)
    by (unfold P; now rewrite !app_assoc_s).
  assert (HPl : last_char P = Some " "%char).
  { unfold P. replace ("replicate " +++ dbn +++ " " +++ k +++ " ") with (("replicate " +++ dbn +++ " " +++ k) +++ " ")
      by (now rewrite !app_assoc_s).
    rewrite last_char_app_ne by discriminate. reflexivity. }
  assert (HPne : P <> "") by (unfold P; discriminate).
  unfold trim_char.
  assert (Hdl : forall w, drop_leading nl (P +++ w) = P +++ w) by (intros w; unfold P; reflexivity).
  rewrite Hdl.
  destruct (trim_end_keep nl P val) as (v1 & ->); [rewrite HPl; discriminate|assumption|].
  unfold parse_request.
  destruct (trim_end_keep ";"%char P v1) as (v2 & ->); [rewrite HPl; discriminate|assumption|].
  replace (P +++ v2) with ("replicate" +++ " " +++ dbn +++ " " +++ (k +++ " " +++ v2))
    by (unfold P; rewrite !app_assoc_s; reflexivity).
  rewrite splitn_sp_cons, splitn_sp_cons, splitn_sp_last by (assumption || reflexivity).
  change (String.eqb "replicate" "") with false. cbv iota.
  rewrite parse_cmd_replicate. cbn [hd_opt tl or_empty]. cbv zeta.
  rewrite splitn_sp_cons by assumption. cbn [hd_opt tl or_empty].
  rewrite (strip_nl_noop k) by assumption. eauto.
Qed.

Lemma set_value_key_present d ch : get_value (fst (fst (set_value d ch))) (c_key ch) <> None.
Proof.
  unfold set_value. destruct (get_value d (c_key ch)) eqn:E; [destruct (_ && _)|]; cbn [fst];
    rewrite ?gv_put_same; congruence.
Qed.

Lemma joiner_replicate_step j cs dbn dj line k value ver :
  s_auth (get_sess j cs) = true -> get_db j dbn = Some dj -> d_strat dj = SNone ->
  parse_request (trim_char nl line) = POk (RqReplicateSet dbn k value ver) ->
  s_auth (get_sess (fst (step j cs line)) cs) = true /\
  get_db (fst (step j cs line)) dbn = Some (db_set dj (mkCh k value ver (n_clock j) false)).
Proof.
  intros Ha Hdb Hs Hp. rewrite (step_eq _ _ _ _ Hp) by discriminate.
  rewrite (handle_op_local j cs dbn (DSet k value ver 0) dj Ha Hdb : handle j cs (RqReplicateSet dbn k value ver) = _).
  destruct (local_apply_spec j dbn dj (DSet k value ver 0) Hdb) as (Hfr & _ & _ & Hupd & _); [intros; exact Hs|].
  destruct (local_apply j dbn dj _) as [n1 r]. cbn [fst snd] in *. cbv iota beta.
  destruct (rr_frame n1 (RqReplicateSet dbn k value ver) (s_db (get_sess j cs)) r) as (Hd' & Hs' & _).
  split.
  - unfold get_sess at 1. rewrite Hs'. exact (eq_trans (proj2 (sattr_sdb _ _ (fr_sess _ _ Hfr cs))) Ha).
  - unfold get_db. rewrite Hd'. apply (dbs_updated_get _ _ _ _ Hupd).
Qed.

Lemma parse_create_line dbn t : simple_tok dbn -> simple_tok t ->
  parse_request (trim_char nl ("create-db " +++ dbn +++ " " +++ t)) = POk (RqCreateDb t dbn SNone).
Proof.
  intros Hd Ht. rewrite trim_nl_id by auto with nonl.
  change ("create-db " +++ dbn +++ " " +++ t) with ("create-db" +++ " " +++ dbn +++ " " +++ t).
  rewrite parse_request_3; try reflexivity; try discriminate; try (now apply tok_no_sp).
  2:{ repeat (rewrite <- app_assoc_s); rewrite app_assoc_s. apply no_semi_end_sep. now apply tok_semi. }
  rewrite parse_cmd_create_db. cbn [hd_opt tl or_empty]. cbv zeta.
  rewrite splitn_sp_end by (now apply tok_no_sp). cbn [hd_opt tl or_empty].
  rewrite strip_nl_noop by (now apply tok_no_nl). reflexivity.
Qed.

Lemma add_database_new n name d : get_db n name = None -> name <> "$admin" ->
  get_db (fst (add_database n name d)) name = Some d /\
  forall c, sattr (get_sess (fst (add_database n name d)) c) = sattr (get_sess n c).
Proof.
  intros Hn Hadm. unfold add_database. rewrite Hn. unfold tick.
  set (n2 := put_db (n_set_idmap n (assoc_set N.eqb (d_id d) name (n_idmap n))) name d).
  assert (Hg2 : get_db n2 name = Some d) by apply get_db_put_same.
  assert (Hs2 : forall c, get_sess n2 c = get_sess n c) by reflexivity.
  set (n3 := n_set_clock n2 (n_clock n2 + 1)%N).
  assert (Hg3 : get_db n3 name = Some d) by exact Hg2.
  assert (Hs3 : forall c, get_sess n3 c = get_sess n c) by exact Hs2.
  destruct (get_db n3 "$admin") as [adm|]; [|cbn [fst]; split; [exact Hg3|intros c; now rewrite Hs3]].
  destruct (set_value adm _) as [[adm' r] msgs]. cbn [fst]. split.
  - rewrite get_db_sends, get_db_put_other by exact Hadm. exact Hg3.
  - intros c. rewrite <- Hs3.
    apply (fr_sess _ _ (frame_trans _ _ _ (frame_put_db n3 "$admin" adm') (frame_sends msgs _))).
Qed.

(* what `create-db` stores: [set_value] of the token with version -1 on the empty database, where the key
   is absent (hence [sat_succ (-1)], [VNew] and no disk addresses) *)
Definition fresh_db (id : N) (st : strat) (clk : N) (t : str) : db :=
  put_value (empty_db id st) "$$token" (mkV t (sat_succ (-1)) clk VNew 0 0).

(* the [handle] branch of `create-db` from an authenticated session of a primary or of its link *)
Lemma handle_create_db n c t name st :
  s_auth (get_sess n c) = true -> is_primary n || sess_is_primary (get_sess n c) = true ->
  handle n c (RqCreateDb t name st) =
  let '(n2, r) := add_database (n_set_clock n (n_clock n + 1)%N) name (fresh_db (next_db_id n) st (n_clock n) t) in
  match r with
  | ROk => (send n2 c ("create-db success" +++ nlS), ROk)
  | _ => (n2, r)
  end.
Proof. intros Ha Hp. cbn [handle]. rewrite Ha, Hp. reflexivity. Qed.

Lemma joiner_create_step j cs dbn t :
  s_auth (get_sess j cs) = true -> is_primary j || sess_is_primary (get_sess j cs) = true ->
  get_db j dbn = None -> dbn <> "$admin" -> simple_tok dbn -> simple_tok t ->
  let j' := fst (step j cs ("create-db " +++ dbn +++ " " +++ t)) in
  s_auth (get_sess j' cs) = true /\ get_db j' dbn = Some (fresh_db (next_db_id j) SNone (n_clock j) t).
Proof.
  intros Ha Hpr Hn Hadm Hd Ht. cbv zeta.
  rewrite (step_eq _ _ _ _ (parse_create_line dbn t Hd Ht)) by discriminate.
  rewrite (handle_create_db j cs t dbn SNone Ha Hpr).
  set (d0 := fresh_db (next_db_id j) SNone (n_clock j) t).
  destruct (add_database_new (n_set_clock j (n_clock j + 1)%N) dbn d0 Hn Hadm) as (Hg & Hs).
  destruct (add_database _ dbn d0) as [n2 r]. cbn [fst] in Hg, Hs.
  assert (Ha2 : s_auth (get_sess n2 cs) = true) by (rewrite (proj2 (sattr_sdb _ _ (Hs cs))); exact Ha).
  (* whether or not the success line is sent to the session *)
  assert (Hres : forall m, get_db (send n2 cs m) dbn = Some d0 /\ s_auth (get_sess (send n2 cs m) cs) = true).
  { intros m. split; [now rewrite get_db_send|].
    rewrite (proj2 (sattr_sdb _ _ (fr_sess _ _ (frame_send n2 cs m) cs))). exact Ha2. }
  set (res := match r with ROk => _ | _ => _ end).
  assert (Hn3 : get_db (fst res) dbn = Some d0 /\ s_auth (get_sess (fst res) cs) = true)
    by (destruct r; subst res; cbn [fst]; auto).
  destruct res as [n3 r3]. cbn [fst] in Hn3.
  destruct (rr_frame n3 (RqCreateDb t dbn SNone) (s_db (get_sess j cs)) r3) as (Hd' & Hs' & _).
  split; [unfold get_sess at 1; rewrite Hs'|unfold get_db; rewrite Hd']; apply Hn3.
Qed.

Lemma handle_rsnap_keeps n c rc names :
  n_dbs (fst (handle n c (RqReplicateSnapshot rc names))) = n_dbs n /\
  forall c', get_sess (fst (handle n c (RqReplicateSnapshot rc names))) c' = get_sess n c'.
Proof.
  rewrite handle_replicate_snapshot_eq. destruct (negb _); [split; reflexivity|].
  destruct (rsnap_fold rc names n ROk) as (added & r & -> & _). split; reflexivity.
Qed.

Lemma parse_snapshot_line dbn : simple_tok dbn ->
  exists rc names, parse_request (trim_char nl (snapshot_line dbn)) = POk (RqReplicateSnapshot rc names).
Proof.
  intros Hd. unfold snapshot_line. rewrite trim_nl_id by auto with nonl.
  change ("replicate-snapshot " +++ dbn) with ("replicate-snapshot" +++ " " +++ dbn).
  rewrite parse_request_2; try reflexivity; try discriminate; try (now apply tok_no_sp).
  2:{ apply no_semi_end_sep. now apply tok_semi. }
  eexists; eexists. reflexivity.
Qed.

Lemma joiner_snapshot_step j cs dbn : simple_tok dbn ->
  n_dbs (fst (step j cs (snapshot_line dbn))) = n_dbs j /\
  forall c, get_sess (fst (step j cs (snapshot_line dbn))) c = get_sess j c.
Proof.
  intros Hd. destruct (parse_snapshot_line dbn Hd) as (rc & names & Hp).
  rewrite (step_eq _ _ _ _ Hp) by discriminate.
  destruct (handle_rsnap_keeps j cs rc names) as (H1 & H2).
  destruct (handle j cs (RqReplicateSnapshot rc names)) as [n1 r]. cbn [fst] in H1, H2.
  destruct (rr_frame n1 (RqReplicateSnapshot rc names) (s_db (get_sess j cs)) r) as (Hd' & Hs' & _).
  split; [now rewrite Hd', H1|]. intros c. unfold get_sess at 1. rewrite Hs'. apply H2.
Qed.

Lemma run_app j cs l1 l2 : run j cs (l1 ++ l2) = run (run j cs l1) cs l2.
Proof. unfold run. apply fold_left_app. Qed.

Lemma run_one j cs l : run j cs [l] = fst (step j cs l).
Proof. reflexivity. Qed.

(* [ch] is the change that the line of entry [e] sets, whatever the stamp *)
Definition line_sets (dbn : str) (e : str * value) (ch : change) : Prop :=
  c_key ch = fst e /\
  parse_request (trim_char nl (sync_line dbn (fst e) (v_val (snd e)))) = POk (RqReplicateSet dbn (fst e) (c_val ch) (c_ver ch)).

Lemma joiner_entries cs dbn l : no_sp dbn -> (forall e, In e l -> no_sp (fst e) /\ no_nl (fst e)) ->
  forall j dj, s_auth (get_sess j cs) = true -> get_db j dbn = Some dj -> d_strat dj = SNone ->
  let j' := run j cs (map (fun e => sync_line dbn (fst e) (v_val (snd e))) l) in
  exists chs, Forall2 (line_sets dbn) l chs /\
    s_auth (get_sess j' cs) = true /\ get_db j' dbn = Some (fold_left db_set chs dj).
Proof.
  intros Hd. induction l as [|e l IH]; intros Hl j dj Ha Hdb Hs; cbv zeta; [exists []; auto|].
  destruct (Hl e (or_introl eq_refl)) as (Hk & Hkn).
  destruct (parse_sync_line_key dbn _ (v_val (snd e)) Hd Hk Hkn) as (value & ver & Hp).
  destruct (joiner_replicate_step j cs dbn dj _ _ value ver Ha Hdb Hs Hp) as (Ha1 & Hdb1).
  destruct (IH (fun x H => Hl x (or_intror H)) _ _ Ha1 Hdb1) as (chs & HF & Hres).
  { exact (eq_trans (proj1 (db_set_strat dj _)) Hs). }
  exists (mkCh (fst e) value ver (n_clock j) false :: chs). split; [|exact Hres].
  constructor; [split; [reflexivity|exact Hp]|exact HF].
Qed.

(* the joiner's database after the block of [dbn]: the fresh database, then the entries *)
Lemma joiner_block p j cs dbn d :
  get_db p dbn = Some d -> dbn <> "$admin" -> simple_tok dbn ->
  simple_tok (fst (get_key_value_new d "$$token")) ->
  (forall k v, In (k, v) (d_map d) -> k <> "$$token" -> k <> "$connections" -> no_sp k /\ no_nl k) ->
  s_auth (get_sess j cs) = true ->
  is_primary j || sess_is_primary (get_sess j cs) = true ->
  has_db j dbn = false ->
  let j' := run j cs (db_block p dbn d) in
  exists chs, Forall2 (line_sets dbn) (sent_entries (d_map d)) chs /\ s_auth (get_sess j' cs) = true /\
    get_db j' dbn =
    Some (fold_left db_set chs (fresh_db (next_db_id j) SNone (n_clock j) (fst (get_key_value_new d "$$token")))).
Proof.
  intros Hp Hadm Hd Ht Hkeys Ha Hpr Hno. cbv zeta.
  assert (Hn : get_db j dbn = None).
  { unfold has_db in Hno. destruct (get_db j dbn); [discriminate|reflexivity]. }
  unfold db_block, create_db_line. rewrite Hp, entry_lines_map, !run_app, !run_one. fold (sent_entries (d_map d)).
  destruct (joiner_create_step j cs dbn _ Ha Hpr Hn Hadm Hd Ht) as (Ha1 & Hdb1).
  assert (Hl : forall e, In e (sent_entries (d_map d)) -> no_sp (fst e) /\ no_nl (fst e))
    by (intros [k v] Hin; apply in_sent_entries in Hin as (Hin & H1 & H2); eauto).
  destruct (joiner_entries cs dbn _ (tok_no_sp _ Hd) Hl _ _ Ha1 Hdb1 eq_refl) as (chs & HF & Ha2 & Hdb2).
  set (j2 := run _ cs (map _ _)) in *. destruct (joiner_snapshot_step j2 cs dbn Hd) as (D & S).
  exists chs. split; [exact HF|]. split; [now rewrite S|]. unfold get_db in *. now rewrite D.
Qed.

(* what holds of the fresh database and is kept by each [db_set] holds after the block *)
Lemma db_sets_inv dbn (P : db -> Prop) l chs : Forall2 (line_sets dbn) l chs ->
  (forall e ch d, In e l -> line_sets dbn e ch -> P d -> P (db_set d ch)) ->
  forall d, P d -> P (fold_left db_set chs d).
Proof.
  induction 1 as [|e ch l chs He HF IH]; intros Hstep d Hd; [exact Hd|].
  cbn [fold_left]. apply IH; [intros x c d0 Hx; apply Hstep; now right|]. apply (Hstep e); auto. now left.
Qed.

Lemma db_set_present d ch k : get_value d k <> None \/ k = c_key ch -> get_value (db_set d ch) k <> None.
Proof.
  intros H. destruct (string_dec k (c_key ch)) as [->|Hne]; [apply set_value_key_present|].
  rewrite db_set_other by exact Hne. now destruct H.
Qed.

Lemma db_sets_present dbn l chs : Forall2 (line_sets dbn) l chs ->
  forall e d, In e l -> get_value (fold_left db_set chs d) (fst e) <> None.
Proof.
  induction 1 as [|x ch l chs (Hk & _) HF IH]; intros e d Hin; [destruct Hin|].
  destruct Hin as [<-|Hin]; cbn [fold_left]; [|now apply IH].
  apply (db_sets_inv dbn (fun d => get_value d (fst x) <> None) _ _ HF).
  - intros _ c d0 _ _ H0. apply db_set_present. now left.
  - apply db_set_present. now right.
Qed.

Theorem full_sync_joiner_has_keys p j cs dbn d :
  get_db p dbn = Some d -> dbn <> "$admin" -> simple_tok dbn ->
  simple_tok (fst (get_key_value_new d "$$token")) ->
  (forall k v, In (k, v) (d_map d) -> k <> "$$token" -> k <> "$connections" -> no_sp k /\ no_nl k) ->
  s_auth (get_sess j cs) = true ->
  is_primary j || sess_is_primary (get_sess j cs) = true ->
  has_db j dbn = false ->
  let j' := run j cs (db_block p dbn d) in
  has_db j' dbn = true /\
  s_auth (get_sess j' cs) = true /\
  exists dj, get_db j' dbn = Some dj /\
    fst (get_key_value_new dj "$$token") = fst (get_key_value_new d "$$token") /\
    forall k v, In (k, v) (d_map d) -> k <> "$$token" -> k <> "$connections" ->
                get_value dj k <> None.
Proof.
  intros Hp Hadm Hd Ht Hkeys Ha Hpr Hno.
  destruct (joiner_block p j cs dbn d Hp Hadm Hd Ht Hkeys Ha Hpr Hno) as (chs & HF & Ha' & Hdb'). cbv zeta in *.
  set (d0 := fresh_db _ _ _ _) in Hdb'.
  split; [unfold has_db; now rewrite Hdb'|]. split; [exact Ha'|]. eexists. split; [exact Hdb'|]. split.
  - unfold get_key_value_new at 1.
    rewrite (db_sets_inv dbn (fun dj => get_value dj "$$token" = get_value d0 "$$token") _ _ HF);
      [unfold d0, fresh_db; now rewrite gv_put_same| |reflexivity].
    intros [k v] ch dj Hin (Hk & _) <-. apply in_sent_entries in Hin as (_ & H1 & _).
    apply db_set_other. rewrite Hk. exact (not_eq_sym H1).
  - intros k v Hin H1 H2. apply (db_sets_present dbn _ _ HF (k, v)). apply in_sent_entries. auto.
Qed.

(* what the joiner stores: the VALUE is not preserved (recorded known finding, see
   SyncProofs.sync_line_roundtrip_refuted).  A one-word value is taken for the version field: the key
   arrives with the empty value *)
Lemma sync_line_one_word_value_lost dbn k val :
  simple_tok dbn -> simple_tok k -> simple_tok val ->
  parse_request (trim_char nl (sync_line dbn k val)) =
  POk (RqReplicateSet dbn k "" (i32_or (-1) (Some val))).
Proof.
  intros Hd Hk Hv. unfold sync_line. rewrite trim_nl_id by auto 8 with nonl.
  change ("replicate " +++ dbn +++ " " +++ k +++ " " +++ val)
    with ("replicate" +++ " " +++ dbn +++ " " +++ (k +++ " " +++ val)).
  rewrite parse_request_3; try reflexivity; try discriminate; try (now apply tok_no_sp).
  2:{ repeat (rewrite <- app_assoc_s); rewrite app_assoc_s. apply no_semi_end_sep. now apply tok_semi. }
  rewrite parse_cmd_replicate. cbn [hd_opt tl or_empty]. cbv zeta.
  rewrite splitn_sp_cons by (now apply tok_no_sp).
  rewrite splitn_sp_end by (now apply tok_no_sp).
  cbn [hd_opt tl or_empty]. rewrite strip_nl_noop by (now apply tok_no_nl). reflexivity.
Qed.

(* every key but the token holds the empty value *)
Definition blank_db (dj : db) : Prop :=
  forall k v, get_value dj k = Some v -> k <> "$$token" -> v_val v = "".

Lemma blank_fresh id st clk t : blank_db (fresh_db id st clk t).
Proof.
  intros k v Hg Hk. unfold fresh_db in Hg. rewrite gv_put_other in Hg by exact Hk. discriminate Hg.
Qed.

Lemma blank_db_set dj ch : blank_db dj -> c_key ch <> "$$token" -> c_val ch = "" -> blank_db (db_set dj ch).
Proof.
  intros Hb Hk Hv. destruct (db_set_cases dj ch) as [->|(v & -> & Hvv & _)]; [exact Hb|].
  intros k0 v0 Hg Hk0. destruct (string_dec k0 (c_key ch)) as [->|Hne].
  - rewrite gv_put_same in Hg. injection Hg as <-. congruence.
  - rewrite gv_put_other in Hg by exact Hne. now apply (Hb k0).
Qed.

(* consequently: when every value sent is a single word, the joiner holds every key of the
   block with the EMPTY value (whatever the primary's value was) *)
Theorem full_sync_joiner_one_word_values_lost p j cs dbn d :
  get_db p dbn = Some d -> dbn <> "$admin" -> simple_tok dbn ->
  simple_tok (fst (get_key_value_new d "$$token")) ->
  (forall k v, In (k, v) (d_map d) -> k <> "$$token" -> k <> "$connections" ->
               simple_tok k /\ simple_tok (v_val v)) ->
  s_auth (get_sess j cs) = true ->
  is_primary j || sess_is_primary (get_sess j cs) = true ->
  has_db j dbn = false ->
  exists dj, get_db (run j cs (db_block p dbn d)) dbn = Some dj /\
    forall k v, In (k, v) (d_map d) -> k <> "$$token" -> k <> "$connections" ->
                exists v', get_value dj k = Some v' /\ v_val v' = "".
Proof.
  intros Hp Hadm Hd Ht Hkv Ha Hpr Hno.
  assert (Hkeys : forall k v, In (k, v) (d_map d) -> k <> "$$token" -> k <> "$connections" -> no_sp k /\ no_nl k).
  { intros k v Hin H1 H2. destruct (Hkv k v Hin H1 H2) as (Hk & _). split; [now apply tok_no_sp|now apply tok_no_nl]. }
  destruct (joiner_block p j cs dbn d Hp Hadm Hd Ht Hkeys Ha Hpr Hno) as (chs & HF & _ & Hdb'). cbv zeta in *.
  set (d0 := fresh_db _ _ _ _) in Hdb'. eexists. split; [exact Hdb'|].
  assert (Hblank : blank_db (fold_left db_set chs d0)).
  { apply (db_sets_inv dbn blank_db _ _ HF); [|apply blank_fresh].
    intros [k v] ch dj Hin (Hk & Hpar) Hb. apply in_sent_entries in Hin as (Hin & H1 & H2). cbn [fst snd] in *.
    destruct (Hkv k v Hin H1 H2) as (Hkt & Hvt).
    rewrite (sync_line_one_word_value_lost dbn k (v_val v) Hd Hkt Hvt) in Hpar. injection Hpar as Hval _.
    apply blank_db_set; [exact Hb|now rewrite Hk|now symmetry]. }
  intros k v Hin H1 H2. pose proof (db_sets_present dbn _ _ HF (k, v) d0) as Hex. cbn [fst] in Hex.
  destruct (get_value (fold_left db_set chs d0) k) as [v'|] eqn:E.
  - exists v'. split; auto. now apply (Hblank k).
  - exfalso. apply Hex; [apply in_sent_entries; auto|reflexivity].
Qed.

(* the link must be the primary's (or the joiner itself a primary): otherwise `create-db`
   is refused and nothing of the block is applied *)
Example full_sync_joiner_needs_primary_link :
  let '(n0, c) := connect (init_node "u" "p" "127.0.0.1:3017" 2 Secondary 500) in
  let j := run n0 c ["auth u p"] in
  s_auth (get_sess j c) = true /\
  has_db (run j c (full_sync_lines example_primary)) "d1" = false.
Proof. vm_compute. split; reflexivity. Qed.

(* a joiner (secondary, replication session 0 authenticated and marked as the primary's link)
   reading the block of the example primary: every key arrives, the token is the primary's,
   and the values are mangled ("1" and "pw" are lost; of "rw a" only "a" is left) *)
Definition example_joiner : node :=
  let '(n0, c) := connect (init_node "u" "p" "127.0.0.1:3017" 2 Secondary 500) in
  run n0 c ["auth u p"; "set-primary 127.0.0.1:3016"].

Example full_sync_joiner_example :
  let j' := run example_joiner 0 (full_sync_lines example_primary) in
  match get_db j' "d1" with
  | Some dj => map (fun e => (fst e, v_val (snd e))) (d_map dj)
  | None => []
  end = [("$$token", "tok1"); ("a", ""); ("$$user_bob", ""); ("$$permission_$bob", "a")].
Proof. vm_compute. reflexivity. Qed.

Check full_sync_covers. Print Assumptions full_sync_covers.
Check full_sync_covers_secure_keys. Print Assumptions full_sync_covers_secure_keys.
Check full_sync_covers_user. Check full_sync_covers_permission.
Check full_sync_db_block_pos. Print Assumptions full_sync_db_block_pos.
Check full_sync_db_block. Print Assumptions full_sync_db_block.
Check entry_lines_map.
Check full_sync_only. Print Assumptions full_sync_only.
Check full_sync_no_admin. Print Assumptions full_sync_no_admin.
Check full_sync_no_admin_line. Print Assumptions full_sync_no_admin_line.
Check full_sync_token_line. Print Assumptions full_sync_token_line.
Check full_sync_token_line_in.
Check parse_sync_line_key. Print Assumptions parse_sync_line_key.
Check joiner_replicate_step.
Check joiner_create_step.
Check joiner_snapshot_step.
Check full_sync_joiner_has_keys. Print Assumptions full_sync_joiner_has_keys.
Check sync_line_one_word_value_lost. Print Assumptions sync_line_one_word_value_lost.
Check full_sync_joiner_one_word_values_lost. Print Assumptions full_sync_joiner_one_word_values_lost.
Check full_sync_joiner_needs_primary_link.
Check full_sync_example. Print Assumptions full_sync_example.
Check full_sync_joiner_example. Print Assumptions full_sync_joiner_example.
