(* C16: crash safety of the operation-log metadata protocol for KEY ids (Model/Meta.v). *)
From NunDB Require Import Model.Base Model.Pending Model.Oplog Model.Parse Model.Node Model.Disk Model.Cluster Model.Meta Proofs.ListLemmas.
From NunDB Require Import Proofs.AssocLemmas Proofs.StorageLemmas Proofs.ClusterProofs.
Require Import String List NArith ZArith Bool Ascii Lia Permutation. Import ListNotations.
Open Scope string_scope.
Open Scope list_scope.
Open Scope N_scope.

Lemma mtake_before_is_gen s ops : forall i, mtake_before s i ops = take_before_gen (is_msc s) i ops.
Proof.
  induction ops as [|o r IH]; intros i; cbn [mtake_before take_before_gen]; [reflexivity|].
  destruct (is_msc s o); [destruct i as [|[|k]]|]; now rewrite ?IH.
Qed.

Lemma mtake_before_prefix : forall s ops i, exists rest, ops = mtake_before s i ops ++ rest.
Proof. intros s ops i. rewrite mtake_before_is_gen. apply take_before_gen_prefix. Qed.

Lemma mtake_before_complete : forall s ops i, (mcount s ops < i)%nat -> mtake_before s i ops = ops.
Proof. intros s ops i H. rewrite mtake_before_is_gen. now apply take_before_gen_complete. Qed.

Lemma mtake_before_stops : forall s ops i, (1 <= i)%nat -> (i <= mcount s ops)%nat ->
  exists o rest, ops = mtake_before s i ops ++ o :: rest /\ is_msc s o = true /\
                 mcount s (mtake_before s i ops) = (i - 1)%nat.
Proof. intros s ops i H1 Hc. rewrite mtake_before_is_gen. exact (take_before_gen_stops (is_msc s) ops i H1 Hc). Qed.

Definition sconcat (l : list str) : str := fold_right String.append "" l.

Lemma fold_append : forall l a, fold_left (fun a p => a +++ p) l a = a +++ sconcat l.
Proof.
  induction l as [|p l IH]; intros a; cbn [fold_left sconcat fold_right].
  - now rewrite app_nil_r_s.
  - rewrite IH. apply app_assoc_s.
Qed.

Fixpoint enc_entries (order : list (str * N)) : str :=
  match order with
  | [] => ""
  | kv :: r => le_bytes 8 (slen (fst kv)) +++ fst kv +++ le_bytes 8 (snd kv) +++ enc_entries r
  end.

Lemma keymap_bytes_eq : forall order,
  keymap_bytes order = le_bytes 8 (N.of_nat (List.length order)) +++ enc_entries order.
Proof.
  intros order. unfold keymap_bytes, keymap_pieces. cbn [fold_left]. rewrite fold_append.
  cbn [String.append]. f_equal.
  induction order as [|kv r IH]; cbn [flat_map sconcat fold_right enc_entries app]; [reflexivity|].
  fold (sconcat (flat_map (fun kv => [le_bytes 8 (slen (fst kv)); fst kv; le_bytes 8 (snd kv)]) r)).
  now rewrite IH.
Qed.

Definition entry_ok (kv : str * N) : Prop :=
  utf8_valid (fst kv) = true /\ slen (fst kv) < 2 ^ 64 /\ snd kv < 2 ^ 64.

Lemma enc_entries_length : forall order,
  (16 * List.length order <= String.length (enc_entries order))%nat.
Proof.
  induction order as [|kv r IH]; cbn [enc_entries List.length]; [lia|].
  rewrite !str_length_app, !len_le_bytes. lia.
Qed.

Lemma decode_entries_enc : forall order, Forall entry_ok order ->
  decode_entries (List.length order) (enc_entries order) = Some order.
Proof.
  induction order as [|[k id] r IH]; intros Hok; [reflexivity|].
  inversion Hok as [|? ? [Hu [Hl Hi]] Hr]; subst. cbn [fst snd] in *.
  cbn [List.length enc_entries decode_entries fst snd].
  set (rest := enc_entries r) in *.
  assert (L8 : forall n, String.length (le_bytes 8 n) = 8%nat) by (intros; apply len_le_bytes).
  destruct (Nat.ltb _ 8) eqn:E1.
  { apply Nat.ltb_lt in E1. rewrite str_length_app, L8 in E1. lia. }
  rewrite !(take_app_eq 8 (le_bytes 8 (slen k))), !(drop_app_eq 8 (le_bytes 8 (slen k))) by apply L8.
  rewrite le_decode_8 by exact Hl.
  unfold slen. rewrite Nat2N.id.
  destruct (Nat.ltb _ (String.length k + 8)) eqn:E2.
  { apply Nat.ltb_lt in E2. rewrite !str_length_app, L8 in E2. lia. }
  rewrite take_app_exact, Hu. cbn [negb].
  rewrite drop_add, !drop_app_exact.
  rewrite (take_app_eq 8 (le_bytes 8 id)), (drop_app_eq 8 (le_bytes 8 id)) by apply L8.
  rewrite le_decode_8 by exact Hi.
  rewrite (IH Hr). reflexivity.
Qed.

Theorem keymap_roundtrip : forall order : list (str * N),
  Forall entry_ok order -> N.of_nat (List.length order) < 2 ^ 64 ->
  decode_keymap (keymap_bytes order) = Some order.
Proof.
  intros order Hok Hlen. rewrite keymap_bytes_eq. unfold decode_keymap.
  assert (L8 : forall n, String.length (le_bytes 8 n) = 8%nat) by (intros; apply len_le_bytes).
  destruct (Nat.ltb _ 8) eqn:E1.
  { apply Nat.ltb_lt in E1. rewrite str_length_app, L8 in E1. lia. }
  rewrite (take_app_eq 8 (le_bytes 8 _)), (drop_app_eq 8 (le_bytes 8 _)) by apply L8.
  rewrite le_decode_8 by exact Hlen.
  destruct (N.ltb _ _) eqn:E2.
  { apply N.ltb_lt in E2. rewrite str_length_app, L8 in E2.
    pose proof (enc_entries_length order). lia. }
  rewrite Nat2N.id. apply decode_entries_enc; exact Hok.
Qed.

Lemma apply_mops_app : forall f a b, apply_mops f (a ++ b) = apply_mops (apply_mops f a) b.
Proof. intros. unfold apply_mops. apply fold_left_app. Qed.

Lemma apply_mops_cons : forall f o r, apply_mops f (o :: r) = apply_mops (apply_mop f o) r.
Proof. reflexivity. Qed.

Definition snapshot_keys_ops (order : list (str * N)) : list mop :=
  [MTmpCreate] ++ map MTmpWrite (keymap_pieces order) ++ [MTmpRename; MFlagCreate; MFlagWrite (String one "")].

Lemma flag_valid_write_one : forall s, flag_valid (Some (write_at s 0 (String one ""))) = true.
Proof. intros s. unfold write_at. cbn. reflexivity. Qed.

Lemma flag_valid_write_zero : forall s, flag_valid (Some (write_at s 0 (String zero ""))) = false.
Proof. intros s. unfold write_at. cbn. reflexivity. Qed.

Lemma flag_valid_create : forall fl,
  flag_valid (match fl with Some s => Some s | None => Some "" end) = flag_valid fl.
Proof. intros [s|]; reflexivity. Qed.

(* the operations in front of the rename: they change the temporary file only *)
Definition tmp_op (o : mop) : Prop := match o with MTmpCreate | MTmpWrite _ => True | _ => False end.

Lemma tmp_ops_frame : forall f tr, Forall tmp_op tr ->
  all_prefixes apply_mop f tr
    (fun g => mf_keys g = mf_keys f /\ mf_flag g = mf_flag f /\ mf_log g = mf_log f /\ mf_db g = mf_db f).
Proof.
  intros f tr H. apply (all_prefixes_stable apply_mop tmp_op); auto.
  intros g o Ho Hg. destruct o; try contradiction; exact Hg.
Qed.

Lemma tmp_writes : forall ps g t, mf_tmp g = Some t ->
  mf_tmp (apply_mops g (map MTmpWrite ps)) = Some (t +++ sconcat ps).
Proof.
  induction ps as [|a ps IH]; intros g t Ht; cbn [map sconcat fold_right].
  - cbn. now rewrite app_nil_r_s.
  - rewrite apply_mops_cons, (IH _ (t +++ a)); [now rewrite app_assoc_s|].
    cbn [apply_mop mf_tmp]. now rewrite Ht.
Qed.

Theorem keys_file_atomic : forall f order p rest,
  snapshot_keys_ops order = p ++ rest ->
  let f' := apply_mops f p in
  (mf_keys f' = mf_keys f \/ mf_keys f' = Some (keymap_bytes order)) /\
  (mf_flag f' <> mf_flag f -> mf_keys f' = Some (keymap_bytes order)) /\
  (flag_valid (mf_flag f') <> flag_valid (mf_flag f) -> rest = []) /\
  (rest = [] -> mf_keys f' = Some (keymap_bytes order) /\ flag_valid (mf_flag f') = true) /\
  mf_log f' = mf_log f /\ mf_db f' = mf_db f.
Proof.
  intros f order p rest Heq f'; subst f'. unfold snapshot_keys_ops in Heq. rewrite app_assoc in Heq.
  set (A := [MTmpCreate] ++ map MTmpWrite (keymap_pieces order)) in *.
  assert (HA : Forall tmp_op A).
  { constructor; [exact I|]. apply Forall_forall. intros o Hin. apply in_map_iff in Hin. now destruct Hin as (d & <- & _). }
  pose proof (tmp_ops_frame f A HA) as Hfr.
  symmetry in Heq. apply app_eq_app in Heq. destruct Heq as [l [[-> E]|[E ->]]].
  - (* the cut is behind the writes: the temporary file is complete *)
    rewrite apply_mops_app. destruct (all_prefixes_whole _ _ _ _ Hfr) as (Hk & Hf & Hl & Hd). fold (apply_mops f A) in *.
    assert (Ht : mf_tmp (apply_mops f A) = Some (keymap_bytes order)).
    { unfold A, keymap_bytes. rewrite apply_mops_app, fold_append. now apply tmp_writes. }
    set (g := apply_mops f A) in *. rewrite <- Hk, <- Hf, <- Hl, <- Hd.
    destruct l as [|o1 [|o2 [|o3 [|]]]]; cbn [app] in E; inversion E; subst;
      cbn [apply_mops fold_left apply_mop mf_keys mf_flag mf_log mf_db]; rewrite ?Ht, ?flag_valid_create;
      repeat split; auto; try (intros Hne; now destruct Hne); try discriminate.
  - (* the cut is inside them *)
    destruct (Hfr p l E) as (Hk & Hf & Hl & Hd). unfold apply_mops. rewrite Hk, Hf.
    split; [now left|]. split; [intros Hne; now destruct Hne|]. split; [intros Hne; now destruct Hne|].
    split; [intros E0; destruct l; discriminate|]. now split.
Qed.

Definition disk_entries (f : mfiles) : option (list (str * N)) :=
  match mf_keys f with None => Some [] | Some b => decode_keymap b end.
Definition flog (f : mfiles) : ofile := match mf_log f with Some l => l | None => [] end.

(* a key map as the code builds it from nothing: names unique, ids = a bijection onto 0..n-1 *)
Definition WFkm (km : list (str * N)) : Prop :=
  NoDup (map fst km) /\ NoDup (map snd km) /\
  forall k id, In (k, id) km -> id < N.of_nat (List.length km).

(* The key map file is decodable (and well formed) whatever the flag says, because the start-up
   decodes it before it looks at the flag.  With a valid flag the start-up keeps the log: then every
   set / remove record in it carries a key id that the file decodes as the writer's map [km] does,
   and that [km] knows. *)
Definition KInv (f : mfiles) (km : list (str * N)) : Prop :=
  exists dk, disk_entries f = Some dk /\ WFkm (keymap_of_entries dk) /\
    (flag_valid (mf_flag f) = true ->
     forall r, In r (flog f) -> r_op r <= 1 ->
       key_of_id (keymap_of_entries dk) (r_key r) = key_of_id km (r_key r) /\
       key_of_id km (r_key r) <> None).

Lemma KInv_brief_form : forall f km, KInv f km ->
  flag_valid (mf_flag f) = true ->
  exists dk, (match mf_keys f with None => Some [] | Some b => decode_keymap b end) = Some dk /\
    forall r, In r (match mf_log f with Some l => l | None => [] end) -> r_op r <= 1 ->
      key_of_id (keymap_of_entries dk) (r_key r) = key_of_id km (r_key r) /\
      exists k, key_of_id km (r_key r) = Some k.
Proof.
  intros f km [dk [Hdk [_ H]]] Hv. exists dk. split; [exact Hdk|].
  intros r Hin Hop. destruct (H Hv r Hin Hop) as [H1 H2]. split; [exact H1|].
  destruct (key_of_id km (r_key r)) as [k|]; [now exists k|now destruct H2].
Qed.

Lemma key_of_id_perm : forall ko km id,
  NoDup (map snd km) -> Permutation ko km -> key_of_id ko id = key_of_id km id.
Proof.
  intros ko km id Hnd Hp.
  assert (Hnd' : NoDup (map snd ko)).
  { apply (Permutation_NoDup (l:=map snd km)); [|exact Hnd]. apply Permutation_map. now apply Permutation_sym. }
  destruct (key_of_id km id) as [k|] eqn:E.
  - apply key_of_id_unique; [exact Hnd'|]. apply key_of_id_in in E.
    apply (Permutation_in (l:=km)); [now apply Permutation_sym|exact E].
  - destruct (key_of_id ko id) as [k|] eqn:E2; [|reflexivity].
    apply key_of_id_in in E2. exfalso. apply (key_of_id_none km id k E).
    apply (Permutation_in (l:=ko)); assumption.
Qed.

Lemma WFkm_nil : WFkm [].
Proof. split; [constructor|]. split; [constructor|]. intros k id []. Qed.

Lemma WFkm_perm : forall ko km, Permutation ko km -> WFkm km -> WFkm ko.
Proof.
  intros ko km Hp [H1 [H2 H3]]. split; [|split].
  - apply (Permutation_NoDup (l:=map fst km)); [|exact H1]. apply Permutation_map. now apply Permutation_sym.
  - apply (Permutation_NoDup (l:=map snd km)); [|exact H2]. apply Permutation_map. now apply Permutation_sym.
  - intros k id Hin. rewrite (Permutation_length Hp). apply (H3 k).
    apply (Permutation_in (l:=ko)); assumption.
Qed.

Lemma WFkm_snoc : snoc_closed WFkm.
Proof.
  intros km key [H1 [H2 H3]] Hni. split; [|split].
  - rewrite map_app. cbn [map fst]. now apply nodup_snoc.
  - rewrite map_app. cbn [map snd]. apply nodup_snoc; [exact H2|].
    intros Hin. apply in_map_iff in Hin. destruct Hin as [[k i] [E Hin]]. cbn in E. subst i.
    specialize (H3 k _ Hin). lia.
  - intros k id Hin. rewrite app_length. cbn [List.length]. apply in_app_or in Hin.
    destruct Hin as [Hin|[E|[]]].
    + specialize (H3 k id Hin). lia.
    + injection E as <- <-. lia.
Qed.

Lemma keymap_of_entries_nodup : forall l, NoDup (map fst l) -> keymap_of_entries l = l.
Proof.
  intros l. unfold keymap_of_entries.
  enough (H : forall l acc, NoDup (map fst (acc ++ l)) ->
            fold_left (fun m (kv : str * N) => assoc_set String.eqb (fst kv) (snd kv) m) l acc = acc ++ l).
  { intros Hnd. exact (H l [] Hnd). }
  clear l. induction l as [|[k v] r IH]; intros acc Hnd; cbn [fold_left fst snd].
  - now rewrite app_nil_r.
  - rewrite (set_notin String.eqb String.eqb_spec).
    + rewrite IH; [now rewrite <- app_assoc|]. now rewrite <- app_assoc.
    + rewrite map_app in Hnd. cbn [map fst] in Hnd. apply NoDup_remove_2 in Hnd.
      intros Hin. apply Hnd. apply in_or_app. now left.
Qed.

(* [StorageLemmas.all_prefixes apply_mop], written out; the lemmas below are that section's, stated over
   [apply_mops] so that goals keep that form ([AllPre_head] has no counterpart there) *)
Definition AllPre (f : mfiles) (tr : list mop) (P : mfiles -> Prop) : Prop :=
  forall p rest, tr = p ++ rest -> P (apply_mops f p).

Lemma AllPre_nil : forall f (P : mfiles -> Prop), P f -> AllPre f [] P.
Proof. exact (all_prefixes_nil apply_mop). Qed.

Lemma AllPre_cons : forall f o tr (P : mfiles -> Prop),
  P f -> AllPre (apply_mop f o) tr P -> AllPre f (o :: tr) P.
Proof. exact (all_prefixes_cons apply_mop). Qed.

Lemma AllPre_head : forall f tr (P : mfiles -> Prop), AllPre f tr P -> P f.
Proof. intros f tr P H. apply (H [] tr). reflexivity. Qed.

Lemma AllPre_whole : forall f tr (P : mfiles -> Prop), AllPre f tr P -> P (apply_mops f tr).
Proof. exact (all_prefixes_whole apply_mop). Qed.

Lemma AllPre_app : forall f a b (P : mfiles -> Prop),
  AllPre f a P -> AllPre (apply_mops f a) b P -> AllPre f (a ++ b) P.
Proof. exact (all_prefixes_app apply_mop). Qed.

Lemma AllPre_impl : forall f tr (P Q : mfiles -> Prop),
  (forall g, P g -> Q g) -> AllPre f tr P -> AllPre f tr Q.
Proof. exact (all_prefixes_impl apply_mop). Qed.

Lemma KInv_weaken : forall f g km, KInv f km -> mf_keys g = mf_keys f ->
  (flag_valid (mf_flag g) = true -> forall r, In r (flog g) ->
     flag_valid (mf_flag f) = true /\ In r (flog f)) ->
  KInv g km.
Proof.
  intros f g km [dk [Hdk [Hwf H]]] Hk Hfl. exists dk. split; [|split; [exact Hwf|]].
  - unfold disk_entries in *. now rewrite Hk.
  - intros Hv r Hin Hop. destruct (Hfl Hv r Hin) as [Hv' Hin']. now apply H.
Qed.

Lemma KInv_ext : forall f km ext, KInv f km -> KInv f (km ++ ext).
Proof.
  intros f km ext [dk [Hdk [Hwf H]]]. exists dk. split; [exact Hdk|]. split; [exact Hwf|].
  intros Hv r Hin Hop. destruct (H Hv r Hin Hop) as [H1 H2].
  rewrite key_of_id_app_some by exact H2. now split.
Qed.

Lemma KInv_self : forall f km dk, KInv f km -> disk_entries f = Some dk -> KInv f (keymap_of_entries dk).
Proof.
  intros f km dk [dk' [Hdk [Hwf H]]] Hdk2. rewrite Hdk in Hdk2. injection Hdk2 as ->.
  exists dk. split; [exact Hdk|]. split; [exact Hwf|].
  intros Hv r Hin Hop. destruct (H Hv r Hin Hop) as [H1 H2]. split; [reflexivity|]. now rewrite H1.
Qed.

Lemma KInv_fresh : forall f km, mf_keys f = None -> flog f = [] -> KInv f km.
Proof.
  intros f km Hk Hl. exists []. unfold disk_entries. rewrite Hk, Hl.
  split; [reflexivity|]. split; [exact WFkm_nil|]. intros _ r [].
Qed.

Lemma KInv_empty : KInv mf_empty [].
Proof. now apply KInv_fresh. Qed.

(* g has the key map file, the validity of the flag and the log of f: all that [KInv] and [MemInv] read;
   the [benign] operations (database files, creating the flag or the log) keep it *)
Definition meq (f g : mfiles) : Prop :=
  mf_keys g = mf_keys f /\ flag_valid (mf_flag g) = flag_valid (mf_flag f) /\ flog g = flog f.

Definition benign (o : mop) : Prop :=
  match o with MDb _ _ | MFlagCreate | MLogCreate => True | _ => False end.

Lemma benign_meq : forall f o, benign o -> meq f (apply_mop f o).
Proof.
  intros f o Hb. destruct o; try (now destruct Hb); unfold meq, flog; cbn [apply_mop mf_keys mf_flag mf_log].
  - split; [reflexivity|]. split; [apply flag_valid_create|reflexivity].
  - split; [reflexivity|]. split; [reflexivity|]. now destruct (mf_log f).
Qed.

Lemma meq_trans : forall f g h, meq f g -> meq g h -> meq f h.
Proof. intros f g h [A1 [A2 A3]] [B1 [B2 B3]]. unfold meq. repeat split; congruence. Qed.

Lemma benign_AllPre : forall tr f, Forall benign tr -> AllPre f tr (meq f).
Proof.
  intros tr f Hb. apply (all_prefixes_stable apply_mop benign (meq f)); [|exact Hb|unfold meq; repeat split].
  intros g o Ho Hg. apply (meq_trans f g); [exact Hg|now apply benign_meq].
Qed.

Lemma KInv_meq : forall f g km, meq f g -> KInv f km -> KInv g km.
Proof.
  intros f g km [H1 [H2 H3]] HK. apply (KInv_weaken f g km HK H1).
  intros Hv r Hin. rewrite <- H2, <- H3. now split.
Qed.

Theorem kinv_mdb : forall f km dbn ops, KInv f km ->
  AllPre f (map (MDb dbn) ops) (fun g => KInv g km /\ meq f g).
Proof.
  intros f km dbn ops HK.
  apply (AllPre_impl _ _ (meq f)).
  - intros g Hg. split; [now apply (KInv_meq f g)|exact Hg].
  - apply benign_AllPre. apply Forall_forall. intros o Hin. apply in_map_iff in Hin.
    destruct Hin as [op [<- _]]. exact I.
Qed.

(* what the replication thread does to the in-memory key map and log *)
Definition cn_ext (c0 c1 : cnode) : Prop :=
  exists ext recs, cn_keymap c1 = cn_keymap c0 ++ ext /\ cn_log c1 = cn_log c0 ++ recs /\
    (WFkm (cn_keymap c0) -> WFkm (cn_keymap c1)) /\
    (forall r, In r recs -> r_op r <= 1 -> key_of_id (cn_keymap c1) (r_key r) <> None).

Lemma cn_ext_same : forall c0 c1, cn_keymap c1 = cn_keymap c0 -> cn_log c1 = cn_log c0 -> cn_ext c0 c1.
Proof.
  intros c0 c1 Hk Hl. exists [], []. rewrite !app_nil_r. split; [exact Hk|]. split; [exact Hl|].
  split; [now rewrite Hk|]. intros r [].
Qed.

Lemma cn_ext_refl : forall c, cn_ext c c.
Proof. intros c. now apply cn_ext_same. Qed.

Lemma cn_ext_trans : forall a b c, cn_ext a b -> cn_ext b c -> cn_ext a c.
Proof.
  intros a b c [e1 [r1 [K1 [L1 [W1 R1]]]]] [e2 [r2 [K2 [L2 [W2 R2]]]]].
  exists (e1 ++ e2), (r1 ++ r2). split; [rewrite K2, K1; now rewrite app_assoc|].
  split; [rewrite L2, L1; now rewrite app_assoc|]. split; [auto|].
  intros r Hin Hop. apply in_app_or in Hin. destruct Hin as [Hin|Hin].
  - rewrite K2. rewrite key_of_id_app_some; now apply R1.
  - now apply R2.
Qed.

Lemma repl_oplog_ext : forall x rq id, cn_ext x (fst (repl_oplog x rq id)).
Proof.
  intros x rq id. destruct (repl_oplog x rq id) as [x' o] eqn:H.
  destruct (repl_oplog_extends _ _ _ _ _ H) as ((_ & _ & _ & (ext & Hk) & HW & recs & Hl & Hr) & _).
  exists ext, recs. split; [exact Hk|]. split; [exact Hl|]. split; [apply HW; exact WFkm_snoc|].
  intros r Hin Hop Hn. rewrite Forall_forall in Hr. destruct (Hr r Hin) as (_ & _ & Hkey & _).
  destruct (Hkey Hop) as (k & Hin'). exact (key_of_id_none _ _ _ Hn Hin').
Qed.

Lemma repl_one_ext : forall x msg, cn_ext x (repl_one x msg).
Proof.
  intros x msg. destruct (repl_one_cases x msg) as [->|(rq & id & [->|(_ & i & req & all & ->)])];
    [apply cn_ext_refl|apply repl_oplog_ext|].
  apply (cn_ext_trans _ _ _ (repl_oplog_ext x rq id)). now apply cn_ext_same.
Qed.

(* what a running process knows beyond KInv: its map is well formed, agrees with the file while the
   process holds the flag valid, the flag on disk is invalid otherwise, and knows every logged key id *)
Definition MemInv (x : mnode) : Prop :=
  let km := cn_keymap (mn_cn x) in let f := mn_files x in
  WFkm km /\
  (mn_valid x = true -> exists dk, disk_entries f = Some dk /\
                         forall id, key_of_id (keymap_of_entries dk) id = key_of_id km id) /\
  (mn_valid x = false -> flag_valid (mf_flag f) = false) /\
  (forall r, In r (flog f) -> r_op r <= 1 -> key_of_id km (r_key r) <> None).

Lemma apply_logappends : forall rs g,
  mf_flag (apply_mops g (map MLogAppend rs)) = mf_flag g /\
  mf_keys (apply_mops g (map MLogAppend rs)) = mf_keys g /\
  flog (apply_mops g (map MLogAppend rs)) = flog g ++ rs.
Proof.
  induction rs as [|a rs IH]; intros g; cbn [map].
  - cbn. now rewrite app_nil_r.
  - rewrite apply_mops_cons. destruct (IH (apply_mop g (MLogAppend a))) as [H1 [H2 H3]].
    rewrite H1, H2, H3. cbn [apply_mop mf_flag mf_keys]. split; [reflexivity|]. split; [reflexivity|].
    unfold flog at 1. cbn [apply_mop mf_log]. fold (flog g). now rewrite <- app_assoc.
Qed.

(* [MemInv x] is [Mem (mn_files x) (cn_keymap (mn_cn x)) (mn_valid x)]: the two file steps of the replication
   thread, the flag write and the appends, are stated over the three components *)
Definition Mem (f : mfiles) (km : list (str * N)) (v : bool) : Prop :=
  WFkm km /\
  (v = true -> exists dk, disk_entries f = Some dk /\
                 forall id, key_of_id (keymap_of_entries dk) id = key_of_id km id) /\
  (v = false -> flag_valid (mf_flag f) = false) /\
  (forall r, In r (flog f) -> r_op r <= 1 -> key_of_id km (r_key r) <> None).

(* the map grows by [ext]: a process that holds the flag valid writes 0 first *)
Lemma invalidate_step : forall f km v ext, KInv f km -> Mem f km v -> WFkm (km ++ ext) ->
  let same := Nat.eqb (List.length ext) 0 in
  let pre := if negb same && v then [MFlagWrite (String zero "")] else [] in
  AllPre f pre (fun g => KInv g (km ++ ext)) /\ Mem (apply_mops f pre) (km ++ ext) (v && same) /\
  flog (apply_mops f pre) = flog f.
Proof.
  intros f km v ext HK [Hwf [Hval [Hinv Hknown]]] Hwf'. destruct ext as [|e ext]; cbn [List.length Nat.eqb negb andb].
  - rewrite app_nil_r, andb_true_r. split; [now apply AllPre_nil|]. now split.
  - rewrite andb_false_r.
    assert (Hk' : forall r, In r (flog f) -> r_op r <= 1 -> key_of_id (km ++ e :: ext) (r_key r) <> None).
    { intros r Hin Hop. rewrite key_of_id_app_some; now apply Hknown. }
    pose proof (KInv_ext f km (e :: ext) HK) as HK'. destruct v.
    + (* behind the write the flag is invalid: nothing is claimed of the log *)
      assert (Hv : flag_valid (mf_flag (apply_mop f (MFlagWrite (String zero "")))) = false) by apply flag_valid_write_zero.
      split; [|split; [|reflexivity]].
      * apply AllPre_cons; [exact HK'|apply AllPre_nil]. destruct HK' as [dk [Hdk [Hwfd _]]].
        exists dk. split; [exact Hdk|]. split; [exact Hwfd|]. rewrite Hv. discriminate.
      * split; [exact Hwf'|]. split; [discriminate|]. split; [intros _; exact Hv|exact Hk'].
    + split; [now apply AllPre_nil|split; [|reflexivity]].
      split; [exact Hwf'|]. split; [discriminate|]. split; [exact Hinv|exact Hk'].
Qed.

(* records whose key ids [km] knows are appended *)
Lemma append_step : forall f km v recs, KInv f km -> Mem f km v ->
  (forall r, In r recs -> r_op r <= 1 -> key_of_id km (r_key r) <> None) ->
  AllPre f (map MLogAppend recs) (fun g => KInv g km) /\ Mem (apply_mops f (map MLogAppend recs)) km v.
Proof.
  intros f km v recs [dk [Hdk [Hwfd HKr]]] [Hwf [Hval [Hinv Hknown]]] Hrecs.
  assert (Hk' : forall rs r, In r (flog f ++ rs) -> incl rs recs -> r_op r <= 1 -> key_of_id km (r_key r) <> None).
  { intros rs r Hin Hrs Hop. apply in_app_or in Hin. destruct Hin as [Hin|Hin]; [now apply Hknown|apply Hrecs; auto]. }
  split.
  - (* a cut leaves the flag and the key map file alone and a prefix [r1] of the records in the log *)
    intros p rest E. apply map_eq_app in E. destruct E as [r1 [r2 [-> [<- _]]]].
    destruct (apply_logappends r1 f) as [H1 [H2 H3]].
    exists dk. split; [unfold disk_entries in *; now rewrite H2|]. split; [exact Hwfd|].
    rewrite H1, H3. intros Hv r Hin Hop. split; [|apply (Hk' r1 r Hin); [apply incl_appl, incl_refl|exact Hop]].
    apply in_app_or in Hin. destruct Hin as [Hin|Hin]; [now apply HKr|].
    destruct v; [|rewrite Hinv in Hv by reflexivity; discriminate].
    destruct (Hval eq_refl) as [dk1 [Hdk1 Heq]]. rewrite Hdk in Hdk1. injection Hdk1 as <-. apply Heq.
  - destruct (apply_logappends recs f) as [H1 [H2 H3]]. split; [exact Hwf|]. split; [|split].
    + intros Hv. destruct (Hval Hv) as [dk1 [Hdk1 Heq]]. exists dk1. split; [unfold disk_entries in *; now rewrite H2|exact Heq].
    + rewrite H1. exact Hinv.
    + rewrite H3. intros r Hin. apply (Hk' recs r Hin), incl_refl.
Qed.

Definition mrepl_ops (x : mnode) (msg : str) : list mop :=
  let c0 := mn_cn x in
  let c1 := repl_one c0 msg in
  let newkey := Nat.ltb (List.length (cn_keymap c0)) (List.length (cn_keymap c1)) in
  let recs := skipn (List.length (cn_log c0)) (cn_log c1) in
  (if newkey && mn_valid x then [MFlagWrite (String zero "")] else []) ++ map MLogAppend recs.

Lemma mrepl_one_trace : forall x msg,
  mn_trace (mrepl_one x msg) = mn_trace x ++ mrepl_ops x msg /\
  mn_files (mrepl_one x msg) = apply_mops (mn_files x) (mrepl_ops x msg).
Proof. intros x msg. split; reflexivity. Qed.

Lemma repl_core : forall x msg,
  KInv (mn_files x) (cn_keymap (mn_cn x)) -> MemInv x ->
  let x' := mrepl_one x msg in
  AllPre (mn_files x) (mrepl_ops x msg) (fun g => KInv g (cn_keymap (mn_cn x'))) /\
  MemInv x' /\
  exists ext, cn_keymap (mn_cn x') = cn_keymap (mn_cn x) ++ ext.
Proof.
  (* the step's trace is [pre ++ map MLogAppend recs], with [pre] the flag write 0 exactly when the map grew
     under a valid flag: [invalidate_step], then [append_step] from the files behind [pre] *)
  intros x msg HK HM x'.
  destruct (repl_one_ext (mn_cn x) msg) as [ext [recs [Ekm [Elog [Hwf' Hrecs]]]]].
  assert (Ekm' : cn_keymap (mn_cn x') = cn_keymap (mn_cn x) ++ ext) by exact Ekm.
  set (km := cn_keymap (mn_cn x)) in *. set (F := mn_files x) in *.
  set (pre := if negb (Nat.eqb (List.length ext) 0) && mn_valid x then [MFlagWrite (String zero "")] else []).
  assert (Hops : mrepl_ops x msg = pre ++ map MLogAppend recs).
  { unfold mrepl_ops. cbn zeta. fold km. now rewrite Elog, skipn_length_app, Ekm, ltb_length_app. }
  assert (Hvalid' : mn_valid x' = mn_valid x && Nat.eqb (List.length ext) 0).
  { unfold x', mrepl_one. cbn [mn_valid]. fold km. now rewrite Ekm, ltb_length_app, negb_involutive. }
  assert (Hfiles' : mn_files x' = apply_mops (apply_mops F pre) (map MLogAppend recs)).
  { change (mn_files x') with (apply_mops F (mrepl_ops x msg)). rewrite Hops. apply apply_mops_app. }
  rewrite Ekm in Hwf', Hrecs.
  destruct (invalidate_step F km (mn_valid x) ext HK HM (Hwf' (proj1 HM))) as [A1 [A2 A3]]. fold pre in A1, A2, A3.
  destruct (append_step _ _ _ recs (AllPre_whole _ _ _ A1) A2 Hrecs) as [B1 B2].
  split; [|split; [|now exists ext]].
  - rewrite Hops, Ekm'. now apply AllPre_app.
  - unfold MemInv. cbn zeta. rewrite Hfiles', Hvalid', Ekm'. exact B2.
Qed.

(* [repl_core] in terms of the trace the step adds, as Props/C16 states it *)
Theorem kinv_repl : forall x msg,
  KInv (mn_files x) (cn_keymap (mn_cn x)) -> MemInv x ->
  let x' := mrepl_one x msg in
  (forall p rest, skipn (List.length (mn_trace x)) (mn_trace x') = p ++ rest ->
     KInv (apply_mops (mn_files x) p) (cn_keymap (mn_cn x'))) /\
  mn_files x' = apply_mops (mn_files x) (skipn (List.length (mn_trace x)) (mn_trace x')) /\
  MemInv x'.
Proof.
  intros x msg HK HM x'. destruct (repl_core x msg HK HM) as [H1 [H2 _]].
  destruct (mrepl_one_trace x msg) as [T1 T2]. fold x' in T1, T2.
  rewrite T1, skipn_length_app. split; [|split; assumption].
  intros p rest E. now apply (H1 p rest).
Qed.

Definition good_order (ko km : list (str * N)) : Prop :=
  Permutation ko km /\ Forall entry_ok ko /\ N.of_nat (List.length ko) < 2 ^ 64.

Lemma good_order_disk : forall ko km f, WFkm km -> good_order ko km ->
  mf_keys f = Some (keymap_bytes ko) ->
  disk_entries f = Some ko /\ keymap_of_entries ko = ko /\ WFkm ko /\
  forall id, key_of_id ko id = key_of_id km id.
Proof.
  intros ko km f Hwf [Hp [Hok Hlen]] Hk.
  pose proof (WFkm_perm _ _ Hp Hwf) as Hwfo.
  split; [unfold disk_entries; rewrite Hk; now apply keymap_roundtrip|].
  split; [apply keymap_of_entries_nodup; apply Hwfo|]. split; [exact Hwfo|].
  intros id. apply key_of_id_perm; [apply Hwf|exact Hp].
Qed.

Definition msnap_ops (x : mnode) (order : list (str * N)) : list mop :=
  if mn_valid x then [] else snapshot_keys_ops order.

Lemma msnapshot_keys_trace : forall x order,
  mn_trace (msnapshot_keys x order) = mn_trace x ++ msnap_ops x order /\
  mn_files (msnapshot_keys x order) = apply_mops (mn_files x) (msnap_ops x order) /\
  mn_cn (msnapshot_keys x order) = mn_cn x /\
  mn_valid (msnapshot_keys x order) = true.
Proof.
  intros x order. unfold msnapshot_keys, msnap_ops. destruct (mn_valid x) eqn:E.
  - rewrite app_nil_r. now repeat split.
  - now repeat split.
Qed.

Lemma snap_core : forall x order,
  KInv (mn_files x) (cn_keymap (mn_cn x)) -> MemInv x ->
  (mn_valid x = false -> good_order order (cn_keymap (mn_cn x))) ->
  let x' := msnapshot_keys x order in
  AllPre (mn_files x) (msnap_ops x order) (fun g => KInv g (cn_keymap (mn_cn x)) /\ mf_db g = mf_db (mn_files x)) /\
  MemInv x'.
Proof.
  (* every cut of [snapshot_keys_ops] is settled by [keys_file_atomic]: the key map file is the old or the
     whole new one, and the flag turns valid only behind the rename *)
  intros x order HK HM Hgo x'.
  destruct (msnapshot_keys_trace x order) as [T1 [T2 [T3 T4]]]. fold x' in T1, T2, T3, T4.
  unfold msnap_ops in *. destruct (mn_valid x) eqn:Ev.
  - split; [apply AllPre_nil; now split|].
    unfold MemInv in *. rewrite T2, T3, T4. cbn [apply_mops fold_left].
    destruct HM as [A [B [C D]]]. split; [exact A|]. split; [intros _; now apply B|]. split; [discriminate|exact D].
  - specialize (Hgo eq_refl). destruct HM as [Hwf [_ [Hinv Hknown]]]. specialize (Hinv Ev).
    set (km := cn_keymap (mn_cn x)) in *. set (F := mn_files x) in *.
    assert (Hstep : forall p rest, snapshot_keys_ops order = p ++ rest ->
              (KInv (apply_mops F p) km /\ mf_db (apply_mops F p) = mf_db F) /\
              (rest = [] -> mf_keys (apply_mops F p) = Some (keymap_bytes order) /\ flog (apply_mops F p) = flog F)).
    { intros p rest E. destruct (keys_file_atomic F order p rest E) as [Hk [_ [Hfv [Hend [Hlog Hdb]]]]].
      set (G := apply_mops F p) in *.
      assert (Hfl : flog G = flog F) by (unfold flog; now rewrite Hlog).
      split; [split; [|exact Hdb]|intros ->; split; [now apply Hend|exact Hfl]].
      destruct rest as [|o rest].
      - destruct (Hend eq_refl) as [Hk' Hv'].
        destruct (good_order_disk order km G Hwf Hgo Hk') as [D1 [D2 [D3 D4]]].
        exists order. split; [exact D1|]. rewrite D2. split; [exact D3|].
        intros _ r Hin Hop. rewrite Hfl in Hin. split; [apply D4|now apply Hknown].
      - assert (Hv : flag_valid (mf_flag G) = false).
        { destruct (flag_valid (mf_flag G)) eqn:E2; [|reflexivity].
          assert (Hne : true <> flag_valid (mf_flag F)) by (rewrite Hinv; discriminate).
          specialize (Hfv Hne). discriminate. }
        destruct Hk as [Hk|Hk].
        + destruct HK as [dk [Hdk [Hwfd _]]]. exists dk.
          split; [unfold disk_entries in *; now rewrite Hk|]. split; [exact Hwfd|].
          rewrite Hv. discriminate.
        + destruct (good_order_disk order km G Hwf Hgo Hk) as [D1 [D2 [D3 D4]]].
          exists order. split; [exact D1|]. rewrite D2. split; [exact D3|]. rewrite Hv. discriminate. }
    split; [intros p rest E; now apply (Hstep p rest)|].
    destruct (Hstep (snapshot_keys_ops order) []) as [[HKe _] Hfin]; [now rewrite app_nil_r|].
    destruct (Hfin eq_refl) as [Hk' Hfl'].
    destruct (good_order_disk order km _ Hwf Hgo Hk') as [D1 [D2 [D3 D4]]].
    unfold MemInv. rewrite T2, T3, T4. fold km. split; [exact Hwf|].
    split; [intros _; exists order; split; [exact D1|now rewrite D2]|].
    split; [discriminate|]. rewrite Hfl'. exact Hknown.
Qed.

(* [snap_core] in terms of the trace the step adds, as Props/C16 states it *)
Theorem kinv_snapshot_keys : forall x order,
  KInv (mn_files x) (cn_keymap (mn_cn x)) -> MemInv x ->
  (mn_valid x = false -> good_order order (cn_keymap (mn_cn x))) ->
  let x' := msnapshot_keys x order in
  (forall p rest, skipn (List.length (mn_trace x)) (mn_trace x') = p ++ rest ->
     KInv (apply_mops (mn_files x) p) (cn_keymap (mn_cn x'))) /\
  mn_files x' = apply_mops (mn_files x) (skipn (List.length (mn_trace x)) (mn_trace x')) /\
  mn_valid x' = true /\ MemInv x' /\
  exists dk, disk_entries (mn_files x') = Some dk /\
             forall id, key_of_id (keymap_of_entries dk) id = key_of_id (cn_keymap (mn_cn x')) id.
Proof.
  intros x order HK HM Hgo x'. destruct (snap_core x order HK HM Hgo) as [H1 H2]. fold x' in H2.
  destruct (msnapshot_keys_trace x order) as [T1 [T2 [T3 T4]]]. fold x' in T1, T2, T3, T4.
  rewrite T1, skipn_length_app, T3.
  split; [intros p rest E; now apply (H1 p rest)|]. split; [exact T2|]. split; [exact T4|].
  split; [exact H2|]. destruct H2 as [_ [Hv _]]. rewrite T3 in Hv. now apply Hv.
Qed.

Definition start_trace (f : mfiles) (poll : bool) : list mop :=
  let valid := flag_valid (mf_flag f) in
  (match mf_flag f with None => [MFlagCreate] | Some _ => [] end) ++
  (if valid then [] else match mf_log f with Some _ => [MLogUnlink] | None => [] end ++ [MFlagUnlink]) ++
  (if poll then [MLogCreate; MFlagCreate] ++ (if valid then [] else [MFlagWrite (String zero "")]) else []).

Lemma mstart_shape : forall f lo clock poll x v,
  mstart f lo clock poll = MStarted x v ->
  exists dk n, disk_entries f = Some dk /\ v = flag_valid (mf_flag f) /\
    x = mkMN (mkCN n (flog (apply_mops f (start_trace f poll))) (keymap_of_entries dk) [] false)
             (flag_valid (mf_flag f)) (apply_mops f (start_trace f poll)) (start_trace f poll).
Proof.
  intros f lo clock poll x v H. unfold mstart in H. fold (disk_entries f) in H.
  destruct (disk_entries f) as [dk|]; [|discriminate].
  destruct (fold_left _ lo _) as [dx|]; [|discriminate].
  injection H as <- <-. exists dk, (dn_node dx). split; [reflexivity|]. split; [reflexivity|].
  unfold start_trace. cbn zeta. rewrite <- !apply_mops_app, <- !app_assoc. reflexivity.
Qed.

Lemma start_trace_valid : forall f poll, flag_valid (mf_flag f) = true ->
  Forall benign (start_trace f poll).
Proof.
  intros f poll Hv. unfold start_trace. cbn zeta. rewrite Hv.
  destruct (mf_flag f); destruct poll; cbn; repeat constructor.
Qed.

Lemma start_trace_invalid : forall f poll km, flag_valid (mf_flag f) = false -> KInv f km ->
  AllPre f (start_trace f poll) (fun g => KInv g km) /\
  flog (apply_mops f (start_trace f poll)) = [] /\
  mf_keys (apply_mops f (start_trace f poll)) = mf_keys f /\
  (poll = true -> flag_valid (mf_flag (apply_mops f (start_trace f poll))) = false).
Proof.
  intros f poll km Hv HK. unfold start_trace. cbn zeta. rewrite Hv.
  destruct (mf_flag f) as [s|] eqn:Hfl; [|discriminate]. cbn [app].
  (* every state on the way keeps the key map file and has an invalid flag or no log left; of such
     a state KInv holds vacuously (W).  The four cases -- log file there or not, with or without the
     first poll -- run this same check on each prefix of the trace *)
  assert (W : forall g, mf_keys g = mf_keys f ->
              (flag_valid (mf_flag g) = true -> flog g = []) -> KInv g km).
  { intros g Hk Hg. apply (KInv_weaken f g km HK Hk). intros Hgv r Hin. rewrite (Hg Hgv) in Hin. destruct Hin. }
  destruct (mf_log f) as [l|] eqn:Hlg; destruct poll; cbn [app];
    (split; [repeat (apply AllPre_cons; [apply W; [reflexivity|unfold flog; cbn [apply_mop mf_flag mf_log]; rewrite ?Hfl, ?Hlg, ?Hv, ?flag_valid_write_zero; try discriminate; try reflexivity]|]);
             apply AllPre_nil; apply W; [reflexivity|unfold flog; cbn [apply_mop mf_flag mf_log]; rewrite ?Hfl, ?Hlg, ?Hv, ?flag_valid_write_zero; try discriminate; try reflexivity]
           |unfold flog; cbn [apply_mops fold_left apply_mop mf_flag mf_log mf_keys]; rewrite ?Hlg, ?flag_valid_write_zero;
            split; [reflexivity|]; split; [reflexivity|]; try discriminate; try reflexivity]).
Qed.

(* A start from files that satisfy KInv for the writer's map [km]: the node takes the file's map; its
   trace leads from [f] to its files; a valid flag keeps the log, which the new map decodes as [km]
   did, an invalid one empties it; KInv for [km] holds after every prefix of the start's trace. *)
Theorem kinv_start : forall f km lo clock poll, KInv f km ->
  exists dk, (match mf_keys f with None => Some [] | Some b => decode_keymap b end) = Some dk /\
  forall x v, mstart f lo clock poll = MStarted x v ->
    v = flag_valid (mf_flag f) /\ mn_valid x = v /\
    cn_keymap (mn_cn x) = keymap_of_entries dk /\
    mn_files x = apply_mops f (mn_trace x) /\
    cn_log (mn_cn x) = flog (mn_files x) /\
    (v = true -> flog (mn_files x) = flog f /\
                 forall r, In r (flog f) -> r_op r <= 1 ->
                   key_of_id (cn_keymap (mn_cn x)) (r_key r) = key_of_id km (r_key r) /\
                   key_of_id km (r_key r) <> None) /\
    (v = false -> flog (mn_files x) = []) /\
    (poll = true \/ v = true -> MemInv x) /\
    AllPre f (mn_trace x) (fun g => KInv g km).
Proof.
  intros f km lo clock poll HK. pose proof HK as [dk [Hdk [Hwfd HKr]]].
  exists dk. split; [exact Hdk|]. intros x v Hst.
  destruct (mstart_shape _ _ _ _ _ _ Hst) as [dk' [n [Hdk' [-> ->]]]].
  rewrite Hdk in Hdk'. injection Hdk' as <-.
  cbn [mn_valid mn_cn cn_keymap cn_log mn_files mn_trace].
  split; [reflexivity|]. split; [reflexivity|]. split; [reflexivity|]. split; [reflexivity|]. split; [reflexivity|].
  set (tr := start_trace f poll). set (F := apply_mops f tr).
  destruct (flag_valid (mf_flag f)) eqn:Hv.
  - pose proof (benign_AllPre tr f (start_trace_valid f poll Hv)) as Hb.
    destruct (AllPre_whole _ _ _ Hb) as [Mk [Mv Ml]]. fold F in Mk, Mv, Ml.
    assert (Hrec : forall r, In r (flog f) -> r_op r <= 1 ->
                     key_of_id (keymap_of_entries dk) (r_key r) = key_of_id km (r_key r) /\
                     key_of_id km (r_key r) <> None) by (now apply HKr).
    split; [intros _; split; [exact Ml|exact Hrec]|]. split; [discriminate|].
    split.
    + intros _. unfold MemInv. cbn [mn_cn cn_keymap mn_files mn_valid]. split; [exact Hwfd|].
      split; [intros _; exists dk; split; [unfold disk_entries in *; now rewrite Mk|reflexivity]|].
      split; [discriminate|]. fold F. rewrite Ml. intros r Hin Hop.
      destruct (Hrec r Hin Hop) as [E1 E2]. now rewrite E1.
    + apply (AllPre_impl _ _ (meq f)); [|exact Hb]. intros g Hg. now apply (KInv_meq f g).
  - destruct (start_trace_invalid f poll km Hv HK) as [Hpre [Hl [Hk Hp]]]. fold tr F in Hpre, Hl, Hk, Hp.
    split; [discriminate|]. split; [intros _; exact Hl|]. split; [|exact Hpre].
    intros [->|Hc]; [|discriminate].
    unfold MemInv. cbn [mn_cn cn_keymap mn_files mn_valid]. fold F. split; [exact Hwfd|].
    split; [discriminate|]. split; [intros _; now apply Hp|]. rewrite Hl. intros r [].
Qed.

(* KInv after every prefix of the trace, for the key map the process holds at the end: a map it held
   earlier is a prefix of this one, and KInv passes to an extension of the map ([KInv_ext]) *)
Definition ProcInv (f0 : mfiles) (x : mnode) : Prop :=
  mn_files x = apply_mops f0 (mn_trace x) /\
  AllPre f0 (mn_trace x) (fun g => KInv g (cn_keymap (mn_cn x))) /\
  MemInv x.

Lemma ProcInv_KInv : forall f0 x, ProcInv f0 x -> KInv (mn_files x) (cn_keymap (mn_cn x)).
Proof. intros f0 x [H1 [H2 _]]. rewrite H1. now apply AllPre_whole. Qed.

Lemma ProcInv_step : forall f0 x x' ops ext,
  ProcInv f0 x ->
  mn_trace x' = mn_trace x ++ ops -> mn_files x' = apply_mops (mn_files x) ops ->
  cn_keymap (mn_cn x') = cn_keymap (mn_cn x) ++ ext ->
  AllPre (mn_files x) ops (fun g => KInv g (cn_keymap (mn_cn x'))) -> MemInv x' ->
  ProcInv f0 x'.
Proof.
  intros f0 x x' ops ext [H1 [H2 H3]] T F K A M. split; [|split; [|exact M]].
  - rewrite F, T, H1. symmetry. apply apply_mops_app.
  - rewrite T. apply AllPre_app.
    + apply (AllPre_impl _ _ (fun g => KInv g (cn_keymap (mn_cn x)))); [|exact H2].
      intros g Hg. rewrite K. now apply KInv_ext.
    + rewrite <- H1. exact A.
Qed.

Lemma ProcInv_set_node : forall f0 x n, ProcInv f0 x -> ProcInv f0 (m_set_node x n).
Proof. intros f0 x n H. exact H. Qed.

Lemma ProcInv_repl : forall f0 x msg, ProcInv f0 x -> ProcInv f0 (mrepl_one x msg).
Proof.
  intros f0 x msg H. pose proof (ProcInv_KInv _ _ H) as HK. pose proof H as [_ [_ HM]].
  destruct (repl_core x msg HK HM) as [A [M [ext K]]].
  destruct (mrepl_one_trace x msg) as [T F].
  exact (ProcInv_step f0 x _ _ ext H T F K A M).
Qed.

Lemma ProcInv_poll : forall f0 x, ProcInv f0 x -> ProcInv f0 (mpoll x).
Proof.
  intros f0 x H. unfold mpoll.
  generalize (n_repl (m_node x)). intros q.
  assert (H0 : ProcInv f0 (m_set_node x (n_set_repl (m_node x) []))) by exact H.
  revert H0. generalize (m_set_node x (n_set_repl (m_node x) [])). clear H x.
  induction q as [|msg q IH]; intros x H; cbn [fold_left]; [exact H|].
  apply IH. now apply ProcInv_repl.
Qed.

Lemma ProcInv_snap : forall f0 x order, ProcInv f0 x ->
  (mn_valid x = false -> good_order order (cn_keymap (mn_cn x))) ->
  ProcInv f0 (msnapshot_keys x order).
Proof.
  intros f0 x order H Hgo. pose proof (ProcInv_KInv _ _ H) as HK. pose proof H as [_ [_ HM]].
  destruct (snap_core x order HK HM Hgo) as [A M].
  destruct (msnapshot_keys_trace x order) as [T [F [C _]]].
  apply (ProcInv_step f0 x _ (msnap_ops x order) [] H T F); [rewrite C; now rewrite app_nil_r| |exact M].
  rewrite C. apply (AllPre_impl _ _ _ _ (fun g Hg => proj1 Hg) A).
Qed.

Lemma MemInv_meq : forall x x', mn_cn x' = mn_cn x -> mn_valid x' = mn_valid x ->
  meq (mn_files x) (mn_files x') -> MemInv x -> MemInv x'.
Proof.
  intros x x' C V [M1 [M2 M3]] [A [B [Cc D]]]. unfold MemInv. rewrite C, V, M3.
  split; [exact A|]. split; [|split; [|exact D]].
  - intros Hv. destruct (B Hv) as [dk [Hdk He]]. exists dk. split; [unfold disk_entries in *; now rewrite M1|exact He].
  - intros Hv. rewrite M2. now apply Cc.
Qed.

Lemma ProcInv_mdb : forall f0 x dbn ops, ProcInv f0 x -> ProcInv f0 (mdo x (map (MDb dbn) ops)).
Proof.
  intros f0 x dbn ops H. pose proof (ProcInv_KInv _ _ H) as HK. pose proof H as [_ [_ HM]].
  pose proof (kinv_mdb _ _ dbn ops HK) as A.
  apply (ProcInv_step f0 x _ (map (MDb dbn) ops) [] H); try reflexivity.
  - cbn [mdo mn_cn]. now rewrite app_nil_r.
  - apply (AllPre_impl _ _ _ _ (fun g Hg => proj1 Hg) A).
  - apply (MemInv_meq x); try reflexivity; [|exact HM].
    destruct (AllPre_whole _ _ _ A) as [_ Hm]. exact Hm.
Qed.

Lemma ProcInv_flush_go : forall f0 q x orders, ProcInv f0 x -> ProcInv f0 (mflush_go x q orders).
Proof.
  induction q as [|[dbn reclaim] q IH]; intros x orders H; cbn [mflush_go]; [exact H|].
  destruct (get_db (m_node x) dbn) as [d|]; [|now apply IH].
  destruct (match orders with o :: os => (o, os) | [] => ([], []) end) as [o os].
  destruct (snapshot_plan d o reclaim (db_files (mn_files x) dbn) (n_clock (m_node x))) as [[ops mem] clk].
  apply IH. apply ProcInv_mdb. exact H.
Qed.

Lemma mflush_go_valid : forall q x orders, mn_valid (mflush_go x q orders) = mn_valid x.
Proof.
  induction q as [|[dbn reclaim] q IH]; intros x orders; cbn [mflush_go]; [reflexivity|].
  destruct (get_db (m_node x) dbn) as [d|]; [|now apply IH].
  destruct (match orders with o :: os => (o, os) | [] => ([], []) end) as [o os].
  destruct (snapshot_plan d o reclaim (db_files (mn_files x) dbn) (n_clock (m_node x))) as [[ops mem] clk].
  now rewrite IH.
Qed.

Lemma ProcInv_flush : forall f0 x ko orders, ProcInv f0 x ->
  (n_snap (m_node x) <> [] -> mn_valid x = false -> good_order ko (cn_keymap (mn_cn x))) ->
  ProcInv f0 (mflush x ko orders).
Proof.
  intros f0 x ko orders H Hgo. unfold mflush.
  destruct (n_snap (m_node x)) as [|a l] eqn:E; [exact H|].
  apply ProcInv_flush_go. apply ProcInv_set_node. apply ProcInv_snap; [exact H|]. apply Hgo. discriminate.
Qed.

Lemma ProcInv_shutdown : forall f0 x ko orders, ProcInv f0 x ->
  (mn_valid x = false -> good_order ko (cn_keymap (mn_cn x))) ->
  ProcInv f0 (mshutdown x ko orders).
Proof.
  intros f0 x ko orders H Hgo. unfold mshutdown. apply ProcInv_flush.
  - now apply ProcInv_snap.
  - intros _ Hv. destruct (msnapshot_keys_trace x ko) as [_ [_ [_ T]]]. rewrite T in Hv. discriminate.
Qed.

Inductive mevent :=
| EvCmd (c : nat) (line : str)
| EvConnect
| EvPoll
| EvFlush (ko : list (str * N)) (orders : list (list str))
| EvShutdown (ko : list (str * N)) (orders : list (list str)).

Definition mstep (x : mnode) (e : mevent) : mnode :=
  match e with
  | EvCmd c line => fst (mcmd x c line)
  | EvConnect => mconnect x
  | EvPoll => mpoll x
  | EvFlush ko orders => mflush x ko orders
  | EvShutdown ko orders => mshutdown x ko orders
  end.

Definition mrun (x : mnode) (evs : list mevent) : mnode := fold_left mstep evs x.

(* the observed serialisation order of the key map is a well-formed permutation of the
   in-memory key map whenever the key map file is actually written *)
Definition ev_ok (x : mnode) (e : mevent) : Prop :=
  match e with
  | EvFlush ko _ => n_snap (m_node x) <> [] -> mn_valid x = false -> good_order ko (cn_keymap (mn_cn x))
  | EvShutdown ko _ => mn_valid x = false -> good_order ko (cn_keymap (mn_cn x))
  | _ => True
  end.

Fixpoint run_ok (x : mnode) (evs : list mevent) : Prop :=
  match evs with
  | [] => True
  | e :: r => ev_ok x e /\ run_ok (mstep x e) r
  end.

Lemma mcmd_fst : forall x c line, fst (mcmd x c line) = m_set_node x (fst (step (m_node x) c line)).
Proof. intros x c line. unfold mcmd. now destruct (step (m_node x) c line). Qed.

Lemma ProcInv_mstep : forall f0 x e, ProcInv f0 x -> ev_ok x e -> ProcInv f0 (mstep x e).
Proof.
  intros f0 x e H Hok. destruct e; cbn [mstep ev_ok] in *.
  - rewrite mcmd_fst. now apply ProcInv_set_node.
  - unfold mconnect. now apply ProcInv_set_node.
  - now apply ProcInv_poll.
  - now apply ProcInv_flush.
  - now apply ProcInv_shutdown.
Qed.

Lemma ProcInv_mrun : forall f0 evs x, ProcInv f0 x -> run_ok x evs -> ProcInv f0 (mrun x evs).
Proof.
  intros f0 evs. induction evs as [|e evs IH]; intros x H Hok; cbn [mrun fold_left]; [exact H|].
  destruct Hok as [He Hr]. apply IH; [now apply ProcInv_mstep|exact Hr].
Qed.

Lemma ProcInv_start : forall f0 km0 lo clock x0 v0,
  KInv f0 km0 -> mstart f0 lo clock true = MStarted x0 v0 -> ProcInv f0 x0.
Proof.
  intros f0 km0 lo clock x0 v0 HK Hst.
  pose proof HK as [dk [Hdk _]]. pose proof (KInv_self f0 km0 dk HK Hdk) as HK'. unfold disk_entries in Hdk.
  destruct (kinv_start f0 (keymap_of_entries dk) lo clock true HK') as [dk' [Hdk' Hx]].
  rewrite Hdk in Hdk'. injection Hdk' as <-.
  destruct (Hx x0 v0 Hst) as [_ [_ [Ekm [Ef [_ [_ [_ [HM HA]]]]]]]].
  split; [exact Ef|]. split; [rewrite Ekm; exact HA|]. apply HM. now left.
Qed.

(* Whatever the process did and wherever it is killed, the files it leaves satisfy
   the invariant w.r.t. the key map the writer had in memory *)
Theorem C16_key_ids_crash_safe : forall f0 km0 lo clock x0 v0 evs s i,
  KInv f0 km0 ->
  mstart f0 lo clock true = MStarted x0 v0 ->
  run_ok x0 evs ->
  let x := mrun x0 evs in
  KInv (mcrash f0 x s i) (cn_keymap (mn_cn x)).
Proof.
  intros f0 km0 lo clock x0 v0 evs s i HK Hst Hok x.
  pose proof (ProcInv_mrun f0 evs x0 (ProcInv_start _ _ _ _ _ _ HK Hst) Hok) as [_ [HA _]]. fold x in HA.
  unfold mcrash. destruct (mtake_before_prefix s (mn_trace x) i) as [rest E].
  exact (HA _ rest E).
Qed.

(* ... so a restart on those files either discards the log or decodes every logged key id
   exactly as the writer's key map did (and never panics on the key map file) *)
Theorem C16_restart_decodes_or_discards : forall f0 km0 lo clock x0 v0 evs s i lo' clock' poll',
  KInv f0 km0 ->
  mstart f0 lo clock true = MStarted x0 v0 ->
  run_ok x0 evs ->
  let x := mrun x0 evs in
  let fc := mcrash f0 x s i in
  (exists dk, (match mf_keys fc with None => Some [] | Some b => decode_keymap b end) = Some dk) /\
  forall x' v', mstart fc lo' clock' poll' = MStarted x' v' ->
    (v' = false /\ flog (mn_files x') = [] /\ cn_log (mn_cn x') = []) \/
    (v' = true /\ cn_log (mn_cn x') = flog fc /\ flog (mn_files x') = flog fc /\
     forall r, In r (flog fc) -> r_op r <= 1 ->
       exists k, key_of_id (cn_keymap (mn_cn x')) (r_key r) = Some k /\
                 key_of_id (cn_keymap (mn_cn x)) (r_key r) = Some k).
Proof.
  intros f0 km0 lo clock x0 v0 evs s i lo' clock' poll' HK Hst Hok x fc.
  pose proof (C16_key_ids_crash_safe f0 km0 lo clock x0 v0 evs s i HK Hst Hok) as HKc.
  cbn zeta in HKc. fold x in HKc. fold fc in HKc.
  destruct (kinv_start fc (cn_keymap (mn_cn x)) lo' clock' poll' HKc) as [dk [Hdk Hx]].
  split; [now exists dk|]. intros x' v' Hst'.
  destruct (Hx x' v' Hst') as [_ [_ [_ [_ [Hlog [Ht [Hf _]]]]]]].
  destruct v'.
  - right. destruct (Ht eq_refl) as [Hl Hr]. split; [reflexivity|]. split; [now rewrite Hlog|]. split; [exact Hl|].
    intros r Hin Hop. destruct (Hr r Hin Hop) as [E1 E2].
    destruct (key_of_id (cn_keymap (mn_cn x)) (r_key r)) as [k|] eqn:E; [|now destruct E2].
    exists k. now split.
  - left. split; [reflexivity|]. split; [now apply Hf|]. rewrite Hlog. now apply Hf.
Qed.

Definition w_clk : N := 1000000000000000000.
Definition w_started (r : mstart_res) : mnode :=
  match r with
  | MStarted x _ => x
  | MStartPanic => mkMN (init_cnode "" "" "" 0 Primary 0) false mf_empty []
  end.
Definition w_valid (r : mstart_res) : option bool :=
  match r with MStarted _ v => Some v | MStartPanic => None end.
Definition w_cmds (x : mnode) (ls : list str) : mnode := fold_left (fun x l => fst (mcmd x 0 l)) ls x.
Definition w_decoded (x : mnode) : list (option str * option str) := map (decode_rec x) (cn_log (mn_cn x)).

Definition w_x0 : mnode := mconnect (w_started (mstart mf_empty [] w_clk true)).

(* d1 is created and written, its key map is saved by the shutdown, the database itself is never
   snapshotted: the next start keeps the log (flag valid), decodes the key, and has no name for
   the database id of either record *)
Definition w_lost : mnode :=
  mshutdown (mpoll (w_cmds w_x0 ["auth nun pwd"; "create-db d1 tok1 newer"; "use-db d1 tok1"; "set a 1"]))
            [("a", 0)] [].
Definition w_lost_restart : mstart_res := mstart (mn_files w_lost) ["d1"] w_clk true.

Example C16_lost_database_refuted :
  w_valid w_lost_restart = Some true /\
  w_decoded (w_started w_lost_restart) = [(None, Some "-"); (None, Some "a")].
Proof. split; vm_compute; reflexivity. Qed.

(* d1 and d2 are created and written, only d1 is snapshotted; after the restart d3 takes the id d2
   had, and the records written for d2 now decode to d3 *)
Definition w_reuse : mnode :=
  mflush (mpoll (w_cmds w_x0 ["auth nun pwd"; "create-db d1 tok1 newer"; "create-db d2 tok2 newer";
                              "use-db d1 tok1"; "set a 1"; "use-db d2 tok2"; "set b 2"; "snapshot false d1"]))
         [("a", 0); ("b", 1)] [["$$token"; "$connections"; "a"]].
Definition w_reuse_restart : mstart_res := mstart (mn_files w_reuse) ["d1"; "d2"] w_clk true.
Definition w_reuse_after : mnode :=
  mpoll (w_cmds (mconnect (w_started w_reuse_restart)) ["auth nun pwd"; "create-db d3 tok3 newer"]).

Example C16_lost_database_id_reused_refuted :
  w_valid w_reuse_restart = Some true /\
  (* the writer: d2 = 2, record 4 is "set b" in d2 *)
  nth_error (map (decode_rec w_reuse) (cn_log (mn_cn w_reuse))) 3 = Some (Some "d2", Some "b") /\
  (* after the restart the same record has no database ... *)
  nth_error (w_decoded (w_started w_reuse_restart)) 3 = Some (None, Some "b") /\
  (* ... and once d3 exists it is attributed to d3 *)
  nth_error (w_decoded w_reuse_after) 3 = Some (Some "d3", Some "b").
Proof. repeat split; vm_compute; reflexivity. Qed.

Definition w_evs : list mevent :=
  [EvConnect; EvCmd 0 "auth nun pwd"; EvCmd 0 "create-db d1 tok1 newer"; EvCmd 0 "use-db d1 tok1";
   EvCmd 0 "set a 1"; EvPoll; EvShutdown [("a", 0)] []].
Definition w_first : mnode := w_started (mstart mf_empty [] w_clk true).
Definition w_run : mnode := mrun w_first w_evs.

Example C16_nonvacuous_run_ok : run_ok w_first w_evs.
Proof.
  unfold w_evs. cbn [run_ok ev_ok]. repeat split.
  - vm_compute. apply Permutation_refl.
  - repeat constructor.
Qed.

Example C16_nonvacuous :
  (* the trace: ... create-db record, FLAG := 0, the record of the new key, the key map, FLAG := 1 *)
  mcount ScWrite (mn_trace w_run) = 8%nat /\
  (* killed between the flag write and the log append of the new key: the restart discards the log *)
  (let r := mstart (mcrash mf_empty w_run ScWrite 3) [] w_clk true in
   w_valid r = Some false /\ cn_log (mn_cn (w_started r)) = []) /\
  (* killed in front of the last write (FLAG := 1), the new key map already in place: discarded too *)
  (let r := mstart (mcrash mf_empty w_run ScWrite 8) [] w_clk true in
   w_valid r = Some false /\ cn_log (mn_cn (w_started r)) = []) /\
  (* not killed: the restart keeps the log and decodes the key id *)
  (let r := mstart (mcrash mf_empty w_run ScWrite 9) [] w_clk true in
   w_valid r = Some true /\ w_decoded (w_started r) = [(None, Some "-"); (None, Some "a")]) /\
  (* and all of these are instances of the theorem *)
  (forall s i, KInv (mcrash mf_empty w_run s i) (cn_keymap (mn_cn w_run))).
Proof.
  split; [vm_compute; reflexivity|]. split; [split; vm_compute; reflexivity|].
  split; [split; vm_compute; reflexivity|]. split; [split; vm_compute; reflexivity|].
  intros s i.
  apply (C16_key_ids_crash_safe mf_empty [] [] w_clk w_first true w_evs s i KInv_empty).
  - vm_compute. reflexivity.
  - exact C16_nonvacuous_run_ok.
Qed.

(* Why KInv asks for WFkm: with the invariant in the words of C16 alone the headline is false.
   Start from a key map file in which "a" has id 1 (never written by the code, which numbers from 0)
   and an empty log: the new key "b" also gets id 1 (= the size of the map); the shutdown
   serialises [b; a] (a permutation), and the restarted node decodes the logged id 1 as "b" while
   the writer's own map decodes it as "a". *)
Definition w_bad_f0 : mfiles := mkMF [] None (Some (keymap_bytes [("a", 1)])) None None.
Definition w_bad_first : mnode := w_started (mstart w_bad_f0 [] w_clk true).
Definition w_bad_evs : list mevent :=
  [EvConnect; EvCmd 0 "auth nun pwd"; EvCmd 0 "create-db d1 tok1 newer"; EvCmd 0 "use-db d1 tok1";
   EvCmd 0 "set b 1"; EvPoll; EvShutdown [("b", 1); ("a", 1)] []].
Definition w_bad_run : mnode := mrun w_bad_first w_bad_evs.

(* the run satisfies the hypothesis of the headline: the serialisation order is a permutation *)
Example w_bad_run_ok : run_ok w_bad_first w_bad_evs.
Proof.
  unfold w_bad_evs. cbn [run_ok ev_ok]. repeat split.
  - vm_compute. apply perm_swap.
  - repeat constructor.
Qed.

Example C16_illformed_initial_keymap_refuted :
  disk_entries w_bad_f0 = Some [("a", 1)] /\ flog w_bad_f0 = [] /\
  cn_keymap (mn_cn w_bad_run) = [("a", 1); ("b", 1)] /\
  (let r := mstart (mn_files w_bad_run) [] w_clk true in
   w_valid r = Some true /\
   map (fun r => key_of_id (cn_keymap (mn_cn w_bad_run)) (r_key r))
       (filter (fun r => N.leb (r_op r) 1) (cn_log (mn_cn (w_started r)))) = [Some "a"] /\
   map (fun r0 => key_of_id (cn_keymap (mn_cn (w_started r))) (r_key r0))
       (filter (fun r => N.leb (r_op r) 1) (cn_log (mn_cn (w_started r)))) = [Some "b"]).
Proof. repeat split; vm_compute; reflexivity. Qed.

(* Why kinv_start gives MemInv of an invalid start only with the first poll (fix H16.1): a node that started invalid
   and whose replication thread did NOT write 0 to the (re-created) flag logs a new key under a
   valid flag; the next start keeps the log and cannot decode the key id. *)
Definition w_nopoll_f0 : mfiles := mkMF [] (Some (String zero "")) None None None.
Definition w_nopoll_run : mnode :=
  mpoll (w_cmds (mconnect (w_started (mstart w_nopoll_f0 [] w_clk false)))
                ["auth nun pwd"; "create-db d1 tok1 newer"; "use-db d1 tok1"; "set a 1"]).

Example C16_start_without_first_poll_refuted :
  KInv w_nopoll_f0 [] /\
  (let r := mstart (mn_files w_nopoll_run) [] w_clk true in
   w_valid r = Some true /\ w_decoded (w_started r) = [(None, Some "-"); (None, None)]).
Proof.
  split; [now apply KInv_fresh|]. split; vm_compute; reflexivity.
Qed.

(* "The key it was written for": the record the replication thread appends for a
   set / increment / remove of [key] carries an id that the writer's map decodes to [key], now and
   after any later growth of the map; together with the theorems above (a restarted node decodes
   as the writer's map did) this is the informal statement of C16 for key ids. *)
Theorem C16_written_for : forall x rq id dbn key d,
  WFkm (cn_keymap x) ->
  (exists v ver, rq = RqReplicateSet dbn key v ver) \/ (exists inc, rq = RqReplicateIncrement dbn key inc) \/
  rq = RqReplicateRemove dbn key ->
  db_id_of (cn_node x) dbn = Some d ->
  let x1 := fst (repl_oplog x rq id) in
  exists r, cn_log x1 = cn_log x ++ [r] /\ r_op r <= 1 /\
    forall ext, key_of_id (cn_keymap x1 ++ ext) (r_key r) = Some key.
Proof.
  intros x rq id dbn key d Hwf Hrq Hd x1.
  assert (exists op, keyed_request rq = Some (dbn, key, op)) as [op K]
    by (destruct Hrq as [[v [ver ->]]|[[inc ->]| ->]]; cbn; eauto).
  destruct (repl_oplog_keyed x rq id dbn key op K) as [Hop E]. subst x1. rewrite E, Hd. cbn [fst].
  destruct (key_id x key) as [x2 kid] eqn:Ek. cbn [fst snd].
  destruct (key_id_spec x key x2 kid Ek) as (_ & _ & _ & Hl & Hin & _ & HW).
  assert (Hk : key_of_id (cn_keymap x2) kid = Some key)
    by (apply key_of_id_unique; [apply (HW WFkm WFkm_snoc Hwf)|exact Hin]).
  exists (mkRec id kid d op). unfold log_append. cbn [cn_log cn_keymap r_op r_key].
  split; [now rewrite Hl|]. split; [exact Hop|].
  intros ext. rewrite key_of_id_app_some; [exact Hk|]. rewrite Hk. discriminate.
Qed.
