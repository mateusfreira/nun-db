(* C01: the semantic characterisation of the key patterns of `keys`.

   [pattern_match] (Model/Node.v) transcribes get_function_by_pattern and the three matchers of
   db_ops.rs.  DbProofs.list_keys_spec says which keys `keys` lists *in terms of* pattern_match;
   this file says what pattern_match means: "ab*" = starts with "ab", "*ab" = ends with "ab",
   "ab" = contains "ab"; and it keeps the corner cases of the real code visible as Examples.

   Argument order (follows the model, = Rust method order): [starts_with s p] is s.starts_with(p),
   [ends_with s p] is s.ends_with(p), [contains s p] is s.contains(p), [pattern_match key pattern].
   [nochar] is S3Proofs.nochar (the file is imported for it). *)
From NunDB Require Import Model.Base Model.Pending Model.Parse Model.Node
     Proofs.StrLemmas Proofs.DbProofs Proofs.S3Proofs.
From Coq Require Import Lia.
Require Import String List Bool Ascii. Import ListNotations.
Open Scope N_scope. Open Scope Z_scope. Open Scope list_scope. Open Scope string_scope.

Lemma contains_unfold s p :
  contains s p = str_eqb_prefix p s || match s with EmptyString => false | String _ r => contains r p end.
Proof. destruct s; reflexivity. Qed.

Theorem contains_spec k p : contains k p = true <-> exists l r, k = l +++ p +++ r.
Proof.
  split.
  - induction k as [|a k IH]; rewrite contains_unfold; intros H; apply orb_true_iff in H.
    + destruct H as [H|H]; [|discriminate]. apply prefix_spec in H. destruct H as [r Hr].
      exists "", r. exact Hr.
    + destruct H as [H|H].
      * apply prefix_spec in H. destruct H as [r Hr]. exists "", r. exact Hr.
      * destruct (IH H) as (l & r & ->). exists (String a l), r. reflexivity.
  - intros (l & r & ->). induction l as [|a l IH].
    + cbn [String.append]. rewrite contains_unfold. apply orb_true_iff. left.
      apply prefix_spec. now exists r.
    + cbn [String.append]. rewrite contains_unfold. apply orb_true_iff. right. exact IH.
Qed.

Lemma remove_char_nochar c s : nochar c s = true -> remove_char c s = s.
Proof.
  induction s as [|a s IH]; cbn [nochar remove_char]; [reflexivity|].
  intros H. apply andb_true_iff in H. destruct H as [H1 H2].
  apply negb_true_iff in H1. rewrite H1, IH by exact H2. reflexivity.
Qed.

Lemma nochar_remove_char c s : nochar c (remove_char c s) = true.
Proof.
  induction s as [|a s IH]; cbn [remove_char nochar]; [reflexivity|].
  destruct (Ascii.eqb a c) eqn:E; [exact IH|]. cbn [nochar]. now rewrite E, IH.
Qed.

Lemma nochar_not_split c s l r : nochar c s = true -> s <> l +++ String c r.
Proof.
  intros H ->. rewrite nochar_app in H. cbn [nochar] in H. rewrite Ascii.eqb_refl in H.
  cbn in H. rewrite andb_false_r in H. discriminate.
Qed.

Lemma nochar_ends_star p : nochar "*" p = true -> ends_with p "*" = false.
Proof.
  intros H. destruct (ends_with p "*") eqn:E; [|reflexivity].
  apply ends_with_spec in E. destruct E as [l E]. exfalso. exact (nochar_not_split _ _ _ _ H E).
Qed.

Lemma nochar_starts_star p : nochar "*" p = true -> starts_with p "*" = false.
Proof.
  intros H. destruct (starts_with p "*") eqn:E; [|reflexivity].
  apply starts_with_spec in E. destruct E as [r E]. exfalso.
  exact (nochar_not_split "*" p "" r H E).
Qed.

(* a pattern ENDING in a star is a prefix pattern for the pattern with ALL stars removed *)
Lemma pattern_match_ends_star k q :
  pattern_match k (q +++ "*") = starts_with k (remove_char "*" q).
Proof.
  unfold pattern_match.
  replace (ends_with (q +++ "*") "*") with true by (symmetry; apply ends_with_spec; now exists q).
  rewrite remove_char_app. cbn [remove_char].
  rewrite Ascii.eqb_refl, app_nil_r_s. reflexivity.
Qed.

Lemma pattern_match_starts_star k q : ends_with ("*" +++ q) "*" = false ->
  pattern_match k ("*" +++ q) = ends_with k (remove_char "*" q).
Proof.
  intros H. unfold pattern_match. rewrite H. reflexivity.
Qed.

Lemma pattern_match_other k p : ends_with p "*" = false -> starts_with p "*" = false ->
  pattern_match k p = contains k p.
Proof. intros H1 H2. unfold pattern_match. now rewrite H1, H2. Qed.

Theorem pattern_match_classify k pat :
  (exists q, pat = q +++ "*" /\
             (pattern_match k pat = true <-> exists r, k = remove_char "*" q +++ r)) \/
  (ends_with pat "*" = false /\ exists q, pat = "*" +++ q /\
             (pattern_match k pat = true <-> exists l, k = l +++ remove_char "*" q)) \/
  (ends_with pat "*" = false /\ starts_with pat "*" = false /\
             (pattern_match k pat = true <-> exists l r, k = l +++ pat +++ r)).
Proof.
  destruct (ends_with pat "*") eqn:E1.
  - left. apply ends_with_spec in E1. destruct E1 as [q ->]. exists q. split; [reflexivity|].
    rewrite pattern_match_ends_star. apply starts_with_spec.
  - right. destruct (starts_with pat "*") eqn:E2.
    + left. split; [reflexivity|]. apply starts_with_spec in E2. destruct E2 as [q ->].
      exists q. split; [reflexivity|].
      rewrite pattern_match_starts_star by exact E1. apply ends_with_spec.
    + right. split; [reflexivity|]. split; [reflexivity|].
      rewrite pattern_match_other by assumption. apply contains_spec.
Qed.

Theorem pattern_prefix_spec k p : nochar "*" p = true ->
  (pattern_match k (p +++ "*") = true <-> exists r, k = p +++ r).
Proof.
  intros H. rewrite pattern_match_ends_star, remove_char_nochar by exact H.
  apply starts_with_spec.
Qed.

Theorem pattern_suffix_spec k p : nochar "*" p = true -> p <> "" ->
  (pattern_match k ("*" +++ p) = true <-> exists l, k = l +++ p).
Proof.
  intros H Hne.
  assert (E : ends_with ("*" +++ p) "*" = false).
  { destruct (ends_with ("*" +++ p) "*") eqn:E; [|reflexivity]. exfalso.
    apply ends_with_spec in E. destruct E as [l E].
    destruct l as [|a l]; cbn [String.append] in E.
    - injection E as E. now apply Hne.
    - injection E as _ E. exact (nochar_not_split _ _ _ _ H E). }
  rewrite pattern_match_starts_star, remove_char_nochar by assumption.
  apply ends_with_spec.
Qed.

(* the proof above needs p <> "": "*" +++ "" is the pattern "*", which ends in a star, so it is the
   PREFIX pattern for "": everything matches (which is also what "ends with the empty string" gives:
   the two readings agree on "*") *)
Theorem pattern_star_all k : pattern_match k "*" = true.
Proof. apply (pattern_prefix_spec k ""); [reflexivity|]. now exists k. Qed.

(* so the suffix form in fact holds without the side condition *)
Corollary pattern_suffix_spec_gen k p : nochar "*" p = true ->
  (pattern_match k ("*" +++ p) = true <-> exists l, k = l +++ p).
Proof.
  intros H. destruct p as [|a p].
  - split; [intros _; exists k; now rewrite app_nil_r_s|intros _; apply pattern_star_all].
  - apply pattern_suffix_spec; [exact H|discriminate].
Qed.

Theorem pattern_contains_spec k p : nochar "*" p = true ->
  (pattern_match k p = true <-> exists l r, k = l +++ p +++ r).
Proof.
  intros H. rewrite pattern_match_other by (now apply nochar_ends_star || now apply nochar_starts_star).
  apply contains_spec.
Qed.

Corollary pattern_empty_all k : pattern_match k "" = true.
Proof. apply (pattern_contains_spec k ""); [reflexivity|]. now exists "", k. Qed.

(* star at both ends: NOT a substring pattern but the prefix pattern for p *)
Theorem pattern_star_both_prefix k p : nochar "*" p = true ->
  (pattern_match k ("*" +++ p +++ "*") = true <-> exists r, k = p +++ r).
Proof.
  intros H. change ("*" +++ p +++ "*") with (("*" +++ p) +++ "*").
  rewrite pattern_match_ends_star. cbn [String.append remove_char]. rewrite Ascii.eqb_refl.
  rewrite remove_char_nochar by exact H. apply starts_with_spec.
Qed.

(* "a*b": a star in the middle is no wildcard: the pattern neither ends nor starts with a star, so
   it is the literal substring "a*b" *)
Example pattern_star_middle_literal :
  pattern_match "xa*by" "a*b" = true /\
  pattern_match "ab" "a*b" = false /\
  pattern_match "axb" "a*b" = false /\
  pattern_match "a*b" "a*b" = true.
Proof. vm_compute. repeat split. Qed.

(* "*a*": ends in a star, so it is a PREFIX pattern, for the text with all stars removed = "a";
   it is not "contains a" *)
Example pattern_star_both_is_prefix :
  pattern_match "ab" "*a*" = true /\
  pattern_match "a" "*a*" = true /\
  pattern_match "ba" "*a*" = false /\
  pattern_match "bab" "*a*" = false.
Proof. vm_compute. repeat split. Qed.

(* "**": ends in a star: prefix pattern for "" : every key matches, like "*" and "" *)
Example pattern_two_stars_all :
  pattern_match "" "**" = true /\ pattern_match "ab" "**" = true /\ pattern_match "*" "**" = true.
Proof. vm_compute. repeat split. Qed.
Lemma pattern_two_stars_all_gen k : pattern_match k "**" = true.
Proof. apply (pattern_star_both_prefix k ""); [reflexivity|]. now exists k. Qed.

(* "a*b*": ends in a star: ALL stars are removed, so it is the prefix pattern for "ab": it matches
   "abc" and does not match the key "a*bc" that literally begins with "a*b" *)
Example pattern_inner_star_removed :
  pattern_match "abc" "a*b*" = true /\
  pattern_match "a*bc" "a*b*" = false /\
  pattern_match "axb" "a*b*" = false.
Proof. vm_compute. repeat split. Qed.

(* "*a*b": begins with a star (and does not end with one): suffix pattern for "ab" *)
Example pattern_inner_star_removed_suffix :
  pattern_match "xab" "*a*b" = true /\
  pattern_match "xa*b" "*a*b" = false /\
  pattern_match "xayb" "*a*b" = false.
Proof. vm_compute. repeat split. Qed.

(* consequently a key that itself contains a star can not be selected by a prefix pattern that
   spells it out: no pattern of the prefix form means "starts with a*" *)
Example pattern_key_with_star :
  pattern_match "a*" "a**" = true /\       (* prefix "a": matches, but so does ... *)
  pattern_match "ab" "a**" = true /\
  pattern_match "a*" "a*" = true /\        (* prefix "a" *)
  pattern_match "a*" "*a*" = true.         (* prefix "a" *)
Proof. vm_compute. repeat split. Qed.

Theorem list_keys_prefix_spec d p sys k : wf_db d -> nochar "*" p = true ->
  (In k (list_keys d (p +++ "*") sys) <->
   live d k <> None /\ (exists r, k = p +++ r) /\ (sys = true \/ starts_with k "$$" = false)).
Proof.
  intros Hwf Hp. rewrite (list_keys_spec d (p +++ "*") sys k Hwf).
  rewrite (pattern_prefix_spec k p Hp). reflexivity.
Qed.

Theorem list_keys_suffix_spec d p sys k : wf_db d -> nochar "*" p = true ->
  (In k (list_keys d ("*" +++ p) sys) <->
   live d k <> None /\ (exists l, k = l +++ p) /\ (sys = true \/ starts_with k "$$" = false)).
Proof.
  intros Hwf Hp. rewrite (list_keys_spec d ("*" +++ p) sys k Hwf).
  rewrite (pattern_suffix_spec_gen k p Hp). reflexivity.
Qed.

Theorem list_keys_contains_spec d p sys k : wf_db d -> nochar "*" p = true ->
  (In k (list_keys d p sys) <->
   live d k <> None /\ (exists l r, k = l +++ p +++ r) /\ (sys = true \/ starts_with k "$$" = false)).
Proof.
  intros Hwf Hp. rewrite (list_keys_spec d p sys k Hwf).
  rewrite (pattern_contains_spec k p Hp). reflexivity.
Qed.

(* `keys` with "*" or "" or no pattern: every live key the caller may see *)
Corollary list_keys_all_spec d sys k : wf_db d ->
  (In k (list_keys d "*" sys) <-> live d k <> None /\ (sys = true \/ starts_with k "$$" = false)) /\
  (In k (list_keys d "" sys) <-> live d k <> None /\ (sys = true \/ starts_with k "$$" = false)).
Proof.
  intros Hwf. rewrite !(list_keys_spec d _ sys k Hwf), pattern_star_all, pattern_empty_all.
  tauto.
Qed.

Definition pp_empty_db : db := mkDb [] [] 0 0 SNone.
Definition pp_set (d : db) (k : str) : db := fst (fst (set_value d (mkCh k "v" (-1) 0 false))).
Definition pp_db : db :=
  fst (fst (remove_value
    (pp_set (pp_set (pp_set (pp_set (pp_set pp_empty_db "bab") "gone") "aba") "$$token") "ab") "gone")).

Example pattern_examples :
  filter (fun k => pattern_match k "ab*") ["ab"; "aba"; "bab"] = ["ab"; "aba"] /\
  filter (fun k => pattern_match k "*ab") ["ab"; "aba"; "bab"] = ["ab"; "bab"] /\
  filter (fun k => pattern_match k "ab") ["ab"; "aba"; "bab"] = ["ab"; "aba"; "bab"] /\
  list_keys pp_db "ab*" false = ["ab"; "aba"] /\
  list_keys pp_db "*ab" false = ["ab"; "bab"] /\
  list_keys pp_db "ab" false = ["ab"; "aba"; "bab"] /\
  list_keys pp_db "*" false = ["ab"; "aba"; "bab"] /\
  list_keys pp_db "" true = ["$$token"; "ab"; "aba"; "bab"] /\
  list_keys pp_db "gone" true = [].
Proof. vm_compute. repeat split. Qed.

Check starts_with_spec. Check ends_with_spec. Check contains_spec.
Check remove_char_nochar. Check remove_char_app.
Check pattern_prefix_spec. Check pattern_suffix_spec. Check pattern_suffix_spec_gen.
Check pattern_star_all. Check pattern_contains_spec. Check pattern_empty_all.
Check pattern_star_both_prefix. Check pattern_match_classify.
Check list_keys_prefix_spec. Check list_keys_suffix_spec. Check list_keys_contains_spec.
Check list_keys_all_spec.
Print Assumptions starts_with_spec.
Print Assumptions ends_with_spec.
Print Assumptions contains_spec.
Print Assumptions pattern_prefix_spec.
Print Assumptions pattern_suffix_spec.
Print Assumptions pattern_contains_spec.
Print Assumptions pattern_match_classify.
Print Assumptions list_keys_prefix_spec.
Print Assumptions list_keys_suffix_spec.
Print Assumptions list_keys_contains_spec.
