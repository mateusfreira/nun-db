(* ArbiterClusterProofs.v -- property C13, last clause, on two nodes:
   what the primary queues for replication when it holds a conflicting write for the
   arbiter and when it applies a resolution, and what a secondary's database looks like
   after executing the queued lines. *)
From NunDB Require Import Model.Base Model.Pending Model.Parse Model.Node Model.Oplog Model.Cluster
  Proofs.AssocLemmas Proofs.StrLemmas Proofs.NodeLemmas Proofs.PendingProofs Proofs.DbProofs Proofs.ClusterProofs
  Proofs.ArbiterHttpProofs Proofs.ConvergeProofs.
Local Open Scope Z_scope.


(* "$conflicts_<key>_<opid>": the model's [conflict_key], by arguments *)
Definition rec_key (key : str) (opid : N) : str := "$conflicts_" +++ key +++ "_" +++ N_to_str opid.

Lemma rec_key_conflict_key ch : conflict_key ch = rec_key (c_key ch) (c_opp ch).
Proof. reflexivity. Qed.

(* the text of a resolve request (what RqResolve queues and what a secondary forwards) *)
Definition resolve_text (opid : N) (dbn key : str) (ver : Z) (value : str) : str :=
  "resolve " +++ N_to_str opid +++ " " +++ dbn +++ " " +++ key +++ " " +++ Z_to_str ver +++ " " +++ value.

(* the line that carries a "$conflicts_" record *)
Definition rec_text (dbn key : str) (opid : N) (txt : str) : str :=
  replicate_msg dbn (rec_key key opid) txt (-1).

Lemma no_sp_rec_key key opid : no_sp key -> no_sp (rec_key key opid).
Proof.
  intros H. unfold no_sp, rec_key. rewrite !nochar_app. rewrite H, (no_sp_N opid). reflexivity.
Qed.
Lemma no_nl_rec_key key opid : no_nl key -> no_nl (rec_key key opid).
Proof. intros H. unfold rec_key. auto with nonl. Qed.

Lemma parse_cmd_resolve args : parse_cmd "resolve" args = Some (
    match hd_opt args with
    | None => PErr "opp id mandatory"
    | Some ids =>
        match parse_u64 ids with
        | None => PErr "Invalid opp_id"
        | Some id =>
            match hd_opt (tl args) with
            | None => PErr "resoved must be followed by db_name, key version and value"
            | Some rest =>
                let ps := splitn 4 sp rest in
                match ps with
                | dbn :: key :: more =>
                    let version := i32_or (-1) (hd_opt more) in
                    match hd_opt (tl more) with
                    | Some v => POk (RqResolve id (strip_nl dbn) (strip_nl key) (strip_nl v) version)
                    | None => PErr "set-safe must be followed by a key"
                    end
                | [_] => PErr "key must be provided"
                | [] => PErr "db_name must be provided"
                end
            end
        end
    end).
Proof. reflexivity. Qed.

Theorem resolve_roundtrip opid dbn key ver value :
  (opid < 2 ^ 64)%N -> no_sp dbn -> no_nl dbn -> no_sp key -> no_nl key ->
  no_nl value -> no_semi_end value -> is_i32 ver ->
  parse_request (resolve_text opid dbn key ver value) = POk (RqResolve opid dbn key value ver).
Proof.
  intros Hid Hd Hdn Hk Hkn Hvn Hvs Hver. unfold resolve_text.
  change ("resolve " +++ N_to_str opid +++ " " +++ dbn +++ " " +++ key +++ " " +++ Z_to_str ver +++ " " +++ value)
    with ("resolve" +++ " " +++ N_to_str opid +++ " " +++ dbn +++ " " +++ key +++ " " +++ Z_to_str ver +++ " " +++ value).
  rewrite parse_request_3; try assumption; try reflexivity; try discriminate; try apply no_sp_N.
  2:{ repeat (rewrite <- app_assoc_s); rewrite app_assoc_s; apply no_semi_end_sep, Hvs. }
  rewrite parse_cmd_resolve. cbn [hd_opt tl]. rewrite parse_u64_N by assumption. cbv zeta.
  rewrite splitn_sp_cons, splitn_sp_cons, splitn_sp_cons, splitn_sp_last by (assumption || apply no_sp_Z).
  cbn [hd_opt tl i32_or].
  rewrite !strip_nl_noop by (assumption || apply no_nl_Z).
  now rewrite parse_i32_Z.
Qed.

Lemma no_nl_resolve_text opid dbn key ver value :
  no_nl dbn -> no_nl key -> no_nl value -> no_nl (resolve_text opid dbn key ver value).
Proof. intros. unfold resolve_text. auto 12 with nonl. Qed.

Lemma resolve_text_trim opid dbn key ver value : simple_tok dbn -> simple_tok key -> no_nl value ->
  trim_char nl (resolve_text opid dbn key ver value) = resolve_text opid dbn key ver value.
Proof. intros. apply trim_nl_id, no_nl_resolve_text; auto with nonl. Qed.

(* nothing is asked of [dbn] (which [replicate_roundtrip] lets hold a newline) and [k]: [trim_char] looks at
   the two ends of the line only *)
Lemma replicate_msg_trim dbn k txt ver : no_nl txt ->
  trim_char nl (replicate_msg dbn k txt ver) = replicate_msg dbn k txt ver.
Proof.
  intros Hv. apply trim_char_noop; [reflexivity|]. change (last_char (replicate_msg dbn k txt ver) <> Some nl).
  unfold replicate_msg. rewrite <- !app_assoc_s, last_char_app. pose proof (last_char_nochar nl txt Hv) as H.
  destruct (last_char txt); [exact H|]. rewrite last_char_app. discriminate.
Qed.

Lemma replicate_text_parses dbn key value ver :
  no_sp dbn -> no_sp key -> no_nl key -> no_nl value -> no_semi_end value -> is_i32 ver ->
  parse_request (trim_char nl (replicate_msg dbn key value ver)) = POk (RqReplicateSet dbn key value ver).
Proof.
  intros. rewrite replicate_msg_trim by assumption. now apply replicate_roundtrip.
Qed.

Lemma rec_text_parse dbn key opid txt :
  no_sp dbn -> no_sp key -> no_nl key -> no_nl txt -> no_semi_end txt ->
  parse_request (trim_char nl (rec_text dbn key opid txt)) =
  POk (RqReplicateSet dbn (rec_key key opid) txt (-1)).
Proof.
  intros Hd Hk Hkn Ht Hs. unfold rec_text.
  apply replicate_text_parses; auto using no_sp_rec_key, no_nl_rec_key. unfold is_i32; lia.
Qed.

Lemma resolve_text_parse opid dbn key ver value :
  (opid < 2 ^ 64)%N -> simple_tok dbn -> simple_tok key -> no_nl value -> no_semi_end value -> is_i32 ver ->
  parse_request (trim_char nl (resolve_text opid dbn key ver value)) = POk (RqResolve opid dbn key value ver).
Proof.
  intros. rewrite resolve_text_trim by assumption. apply resolve_roundtrip; auto using tok_no_sp, tok_no_nl.
Qed.

Lemma no_nl_rec_text dbn key opid txt : no_nl dbn -> no_nl key -> no_nl txt -> no_nl (rec_text dbn key opid txt).
Proof. intros. apply no_nl_replicate_msg; auto using no_nl_rec_key. Qed.

Lemma no_nl_resolved value : no_nl value -> no_nl ("resolved " +++ value).
Proof. auto with nonl. Qed.
Lemma no_semi_resolved value : no_semi_end value -> no_semi_end ("resolved " +++ value).
Proof. intros H. change ("resolved " +++ value) with ("resolved" +++ " " +++ value). now apply no_semi_end_sep. Qed.


(* the database part of [set_value]; [kstate] / [kval] / [kver]: what a key holds (value and version);
   [ver_refused]: the test by which [set_value] refuses a change on an existing key *)
Definition db_set (d : db) (ch : change) : db := fst (fst (set_value d ch)).

(* the change that marks a record as resolved *)
Definition reg_ch (key value : str) (opid clk : N) : change :=
  mkCh (rec_key key opid) ("resolved " +++ value) (-1) clk false.

(* Database::resolve_conflit on the database *)
Definition db_resolve (d : db) (key value : str) (ver : Z) (opid clk : N) : db :=
  let d1 := db_set d (reg_ch key value opid clk) in
  db_set d1 (if has_pending_conflict d1 key then mkCh key value (-2) opid true
             else mkCh key value ver opid true).

(* the SArbiter branch of apply_change on the database *)
Definition db_conflict (d : db) (key : str) (old : value) (ck rmsg : str) (clk : N) : db :=
  db_set (mark_conflict d key old) (mkCh ck rmsg (-1) clk false).

Definition kstate (d : db) (k : str) : option (str * Z) :=
  option_map (fun v => (v_val v, v_ver v)) (get_value d k).
Definition kval (d : db) (k : str) : option str := option_map v_val (get_value d k).
Definition kver (d : db) (k : str) : option Z := option_map v_ver (get_value d k).

Definition ver_refused (ch : change) (old : value) : bool :=
  Z.leb (next_version ch old) (v_ver old) && negb (Z.eqb (c_ver ch) (-2)).

Definition nodup_db (d : db) : Prop := NoDup (map fst (d_map d)).

Lemma db_set_some d ch old : get_value d (c_key ch) = Some old ->
  db_set d ch = if ver_refused ch old then d
                else put_value d (c_key ch) (mkV (c_val ch) (next_version ch old) (c_opp ch) (upd_state old) (v_vaddr old) (v_kaddr old)).
Proof.
  intros E. unfold db_set, ver_refused. rewrite (set_value_present _ _ _ E). destruct (_ && _); reflexivity.
Qed.

Lemma db_set_none d ch : get_value d (c_key ch) = None ->
  db_set d ch = put_value d (c_key ch) (mkV (c_val ch) (sat_succ (c_ver ch)) (c_opp ch) VNew 0 0).
Proof. intros E. unfold db_set. now rewrite (set_value_absent _ _ E). Qed.

Lemma db_set_other d ch k : k <> c_key ch -> get_value (db_set d ch) k = get_value d k.
Proof.
  intros H. now apply set_value_other.
Qed.

Lemma db_set_cases d ch :
  db_set d ch = d \/
  exists v, db_set d ch = put_value d (c_key ch) v /\ v_val v = c_val ch /\ vstate_eqb (v_st v) VDeleted = false.
Proof.
  destruct (get_value d (c_key ch)) as [old|] eqn:E.
  - rewrite (db_set_some _ _ _ E). destruct (ver_refused ch old); [now left|right].
    eexists. split; [reflexivity|]. cbn. split; auto. apply upd_state_eqb.
  - rewrite (db_set_none _ _ E). right. eexists. split; [reflexivity|]. cbn. auto.
Qed.

Lemma db_set_opp d ch nw : get_value (db_set d ch) (c_key ch) = Some nw ->
  get_value d (c_key ch) = Some nw \/ v_opp nw = c_opp ch.
Proof.
  destruct (get_value d (c_key ch)) as [old|] eqn:E.
  - rewrite (db_set_some _ _ _ E). destruct (ver_refused ch old); [rewrite E; now left|].
    rewrite gv_put_same. intros [= <-]. now right.
  - rewrite (db_set_none _ _ E), gv_put_same. intros [= <-]. now right.
Qed.

Lemma nodup_put d k v : nodup_db d -> nodup_db (put_value d k v).
Proof. apply str_nodup_set. Qed.

Lemma nodup_db_set d ch : nodup_db d -> nodup_db (db_set d ch).
Proof.
  intros H. destruct (db_set_cases d ch) as [->|(v & -> & _)]; auto using nodup_put.
Qed.

Lemma nodup_db_conflict d key old ck rmsg clk : nodup_db d -> nodup_db (db_conflict d key old ck rmsg clk).
Proof. intros H. unfold db_conflict, mark_conflict. auto using nodup_db_set, nodup_put. Qed.

Lemma db_set_strat d ch : d_strat (db_set d ch) = d_strat d /\ d_watch (db_set d ch) = d_watch d.
Proof. unfold db_set. rewrite set_value_frame. split; reflexivity. Qed.

Lemma db_set_plain d k txt clk : rec_writable d k ->
  set_value d (mkCh k txt (-1) clk false) =
    (db_set d (mkCh k txt (-1) clk false), RSet k txt, snd (set_value d (mkCh k txt (-1) clk false))) /\
  exists v, db_set d (mkCh k txt (-1) clk false) = put_value d k v /\ v_val v = txt /\
            vstate_eqb (v_st v) VDeleted = false /\
            v_ver v = match get_value d k with Some r => v_ver r + 1 | None => 0 end.
Proof.
  intros Hw. unfold db_set. rewrite (set_value_plain d k txt clk Hw). cbn [fst snd]. split; [reflexivity|].
  eexists. split; [reflexivity|]. destruct (get_value d k); cbn; auto using upd_state_eqb.
Qed.

Lemma kval_db_set_plain d k txt clk : rec_writable d k -> kval (db_set d (mkCh k txt (-1) clk false)) k = Some txt.
Proof.
  intros Hw. destruct (plain_write_stored d k txt clk Hw) as (v & E & Hv). unfold kval, db_set. now rewrite E, <- Hv.
Qed.

(* the key's (value, version) after a write *)
Definition kset (o : option (str * Z)) (ch : change) : option (str * Z) :=
  match o with
  | Some (val, ver) =>
      let old := mkV val ver 0 VOk 0 0 in
      if ver_refused ch old then Some (val, ver) else Some (c_val ch, next_version ch old)
  | None => Some (c_val ch, sat_succ (c_ver ch))
  end.

Lemma next_version_ver ch o1 o2 : v_ver o1 = v_ver o2 -> next_version ch o1 = next_version ch o2.
Proof. intros H. unfold next_version, in_conflict. now rewrite H. Qed.

Lemma ver_refused_ver ch o1 o2 : v_ver o1 = v_ver o2 -> ver_refused ch o1 = ver_refused ch o2.
Proof. intros H. unfold ver_refused. now rewrite (next_version_ver ch o1 o2 H), H. Qed.

Lemma kstate_db_set d ch : kstate (db_set d ch) (c_key ch) = kset (kstate d (c_key ch)) ch.
Proof.
  unfold kstate at 2. destruct (get_value d (c_key ch)) as [old|] eqn:E; cbn [option_map kset].
  - rewrite (db_set_some _ _ _ E).
    rewrite (ver_refused_ver ch (mkV (v_val old) (v_ver old) 0 VOk 0 0) old) by reflexivity.
    rewrite (next_version_ver ch (mkV (v_val old) (v_ver old) 0 VOk 0 0) old) by reflexivity.
    destruct (ver_refused ch old).
    + unfold kstate. now rewrite E.
    + unfold kstate. now rewrite gv_put_same.
  - rewrite (db_set_none _ _ E). unfold kstate. now rewrite gv_put_same.
Qed.

Lemma kstate_db_set_other d ch k : k <> c_key ch -> kstate (db_set d ch) k = kstate d k.
Proof. intros H. unfold kstate. now rewrite db_set_other. Qed.

(* the prefix of the records of [key] (list_conflicts_keys; the empty key stands for "all keys") *)
Definition rec_prefix (key : str) : str :=
  if String.eqb key "" then "$conflicts_" else "$conflicts_" +++ key +++ "_".

Definition pend_of_text (key ck txt : str) : option str :=
  if starts_with ck (rec_prefix key) && negb (starts_with txt "resolved") then Some txt else None.

(* the text of record [ck] when it is a live, unresolved record of [key] *)
Definition pend_text (d : db) (key ck : str) : option str :=
  match get_value d ck with
  | Some v => if vstate_eqb (v_st v) VDeleted then None else pend_of_text key ck (v_val v)
  | None => None
  end.

(* [list_conflicts_keys d key] lists exactly the live keys of [d] that start with "$conflicts_<key>_",
   for EVERY key (no restriction on its characters) *)
Lemma list_conflicts_keys_iff d key k : nodup_db d ->
  In k (list_conflicts_keys d key) <->
  exists v, get_value d k = Some v /\ vstate_eqb (v_st v) VDeleted = false /\
            starts_with k (rec_prefix key) = true.
Proof.
  intros Hnd.
  change (list_conflicts_keys d key) with
    (sort_strs (map fst (filter (fun kv : str * value =>
        negb (vstate_eqb (v_st (snd kv)) VDeleted) && starts_with (fst kv) (rec_prefix key)) (d_map d)))).
  rewrite in_sort_strs, in_map_iff. split.
  - intros ([k0 v] & E & Hin). cbn in E. subst k0. apply filter_In in Hin as [Hin Hf]. cbn [fst snd] in Hf.
    apply andb_true_iff in Hf as [Hl Hp].
    exists v. split; [now apply str_in_get|]. split; auto. now apply negb_true_iff in Hl.
  - intros (v & Hg & Hl & Hp). exists (k, v). split; auto. apply filter_In. split.
    + apply str_get_in. exact Hg.
    + cbn [fst snd]. rewrite Hl, Hp. reflexivity.
Qed.

Lemma pending_conflict_iff d key : nodup_db d ->
  has_pending_conflict d key = true <-> exists ck, pend_text d key ck <> None.
Proof.
  intros Hnd. unfold has_pending_conflict. rewrite existsb_exists. split.
  - intros (ck & Hin & Hv). apply (list_conflicts_keys_iff d key ck Hnd) in Hin as (v & Hg & Hl & Hp).
    exists ck. unfold pend_text, pend_of_text. rewrite Hg in *. rewrite Hl, Hp, Hv. discriminate.
  - intros (ck & Hne). unfold pend_text, pend_of_text in Hne. destruct (get_value d ck) as [v|] eqn:Hg; [|congruence].
    destruct (vstate_eqb (v_st v) VDeleted) eqn:Hl; [congruence|].
    destruct (starts_with ck (rec_prefix key)) eqn:Hp; [|cbn in Hne; congruence].
    destruct (starts_with (v_val v) "resolved") eqn:Hr; [cbn in Hne; congruence|].
    exists ck. split; [apply (list_conflicts_keys_iff d key ck Hnd); eauto|]. now rewrite Hg, Hr.
Qed.

Lemma pending_conflict_agree dp ds key : nodup_db dp -> nodup_db ds ->
  (forall ck, pend_text dp key ck = pend_text ds key ck) ->
  has_pending_conflict dp key = has_pending_conflict ds key.
Proof.
  intros Hp Hs H.
  destruct (has_pending_conflict dp key) eqn:E1, (has_pending_conflict ds key) eqn:E2; auto.
  - apply (pending_conflict_iff dp key Hp) in E1 as (ck & Hne). rewrite H in Hne.
    assert (has_pending_conflict ds key = true) by (apply (pending_conflict_iff ds key Hs); eauto). congruence.
  - apply (pending_conflict_iff ds key Hs) in E2 as (ck & Hne). rewrite <- H in Hne.
    assert (has_pending_conflict dp key = true) by (apply (pending_conflict_iff dp key Hp); eauto). congruence.
Qed.

Lemma pend_text_other d ch key ck : ck <> c_key ch -> pend_text (db_set d ch) key ck = pend_text d key ck.
Proof. intros H. unfold pend_text. now rewrite db_set_other. Qed.

Lemma pend_text_put_same d key k v : vstate_eqb (v_st v) VDeleted = false ->
  pend_text (put_value d k v) key k = pend_of_text key k (v_val v).
Proof. intros H. unfold pend_text. now rewrite gv_put_same, H. Qed.

Lemma pend_text_put_other d key k v ck : ck <> k -> pend_text (put_value d k v) key ck = pend_text d key ck.
Proof. intros H. unfold pend_text. now rewrite gv_put_other. Qed.

Lemma pend_text_reset d ch key :
  pend_text d key (c_key ch) = pend_of_text key (c_key ch) (c_val ch) ->
  forall ck, pend_text (db_set d ch) key ck = pend_text d key ck.
Proof.
  intros H ck. destruct (String.eqb_spec ck (c_key ch)) as [->|Hne]; [|now apply pend_text_other].
  destruct (db_set_cases d ch) as [->|(v & -> & Hv & Hl)]; auto.
  rewrite pend_text_put_same, Hv by assumption. now rewrite H.
Qed.

Lemma key_not_own_record key : starts_with key (rec_prefix key) = false.
Proof.
  unfold rec_prefix. destruct (String.eqb_spec key "") as [->|Hne]; [reflexivity|].
  destruct (starts_with key ("$conflicts_" +++ key +++ "_")) eqn:E; auto.
  exfalso. unfold starts_with in E. apply prefix_spec in E as [r Hr].
  apply (f_equal String.length) in Hr. rewrite !str_length_app in Hr. cbn [String.length] in Hr. lia.
Qed.

(* every record key "$conflicts_<key>_<opid>" is found, whatever characters the key contains *)
Lemma rec_key_matches key opid : starts_with (rec_key key opid) (rec_prefix key) = true.
Proof.
  unfold rec_prefix, rec_key, starts_with. destruct (String.eqb_spec key "") as [->|Hne].
  - apply (prefix_app "$conflicts_" ("" +++ "_" +++ N_to_str opid)).
  - rewrite <- !app_assoc_s. apply prefix_app.
Qed.

Lemma pend_text_self d key : pend_text d key key = None.
Proof.
  unfold pend_text, pend_of_text. rewrite key_not_own_record.
  destruct (get_value d key) as [v|]; auto. destruct (vstate_eqb _ _); reflexivity.
Qed.

Lemma rec_key_neq key opid : rec_key key opid <> key.
Proof. apply conflict_key_neq_k. Qed.


(* strict agreement: the key has the same value and version; the same records of the key
   are pending (live, not marked "resolved"), with the same text.  Versions, op ids,
   disk addresses of records are not compared. *)
Record agree (key : str) (dp ds : db) : Prop := {
  ag_key : kstate dp key = kstate ds key;
  ag_pend : forall ck, pend_text dp key ck = pend_text ds key ck }.

(* agreement on values only *)
Record vagree (key : str) (dp ds : db) : Prop := {
  va_val : kval dp key = kval ds key;
  va_pend : forall ck, pend_text dp key ck = pend_text ds key ck }.

Lemma kval_kstate d k : kval d k = option_map fst (kstate d k).
Proof. unfold kval, kstate. destruct (get_value d k); reflexivity. Qed.
Lemma kver_kstate d k : kver d k = option_map snd (kstate d k).
Proof. unfold kver, kstate. destruct (get_value d k); reflexivity. Qed.

Lemma agree_vagree key dp ds : agree key dp ds -> vagree key dp ds.
Proof. intros [H1 H2]. split; auto. now rewrite !kval_kstate, H1. Qed.

Lemma agree_refl key d : agree key d d.
Proof. split; auto. Qed.

Lemma pend_after_plain d key ck0 txt clk : rec_writable d ck0 ->
  forall ck, pend_text (db_set d (mkCh ck0 txt (-1) clk false)) key ck =
             if String.eqb ck ck0 then pend_of_text key ck0 txt else pend_text d key ck.
Proof.
  intros Hw ck. destruct (db_set_plain d ck0 txt clk Hw) as (_ & v & -> & Hv & Hl & _).
  destruct (String.eqb_spec ck ck0) as [->|Hne].
  - now rewrite pend_text_put_same, Hv.
  - now apply pend_text_put_other.
Qed.

Lemma pend_same_plain dp ds key ck0 txt c1 c2 :
  rec_writable dp ck0 -> rec_writable ds ck0 ->
  (forall ck, pend_text dp key ck = pend_text ds key ck) ->
  forall ck, pend_text (db_set dp (mkCh ck0 txt (-1) c1 false)) key ck =
             pend_text (db_set ds (mkCh ck0 txt (-1) c2 false)) key ck.
Proof.
  intros Hp Hs H ck. rewrite !pend_after_plain by assumption. now rewrite H.
Qed.

(* the record written a second time (what the "resolve" line does on the replica after the
   "replicate" line already wrote it) *)
Lemma pend_twice d key ck0 txt c1 c2 : rec_writable d ck0 ->
  forall ck, pend_text (db_set (db_set d (mkCh ck0 txt (-1) c1 false)) (mkCh ck0 txt (-1) c2 false)) key ck =
             pend_text (db_set d (mkCh ck0 txt (-1) c1 false)) key ck.
Proof.
  intros Hw. apply pend_text_reset. cbn [c_key c_val].
  rewrite pend_after_plain by assumption. now rewrite String.eqb_refl.
Qed.

Lemma db_resolve_eq d key value ver opid clk :
  db_resolve d key value ver opid clk =
  db_set (db_set d (reg_ch key value opid clk))
         (res_ch (has_pending_conflict (db_set d (reg_ch key value opid clk)) key) (mkCh key value ver opid true)).
Proof. reflexivity. Qed.

Lemma pend_db_resolve d key value ver opid clk ck :
  pend_text (db_resolve d key value ver opid clk) key ck =
  pend_text (db_set d (reg_ch key value opid clk)) key ck.
Proof.
  rewrite db_resolve_eq. set (d1 := db_set d _). set (ch := res_ch _ _).
  destruct (String.eqb_spec ck key) as [->|Hne].
  - now rewrite !pend_text_self.
  - apply pend_text_other. unfold ch. now rewrite res_ch_key.
Qed.

Lemma kstate_db_resolve d key value ver opid clk :
  kstate (db_resolve d key value ver opid clk) key =
  kset (kstate d key) (res_ch (has_pending_conflict (db_set d (reg_ch key value opid clk)) key) (mkCh key value ver opid true)).
Proof.
  rewrite db_resolve_eq. set (d1 := db_set d _). set (ch := res_ch _ _).
  assert (Hk : c_key ch = key) by apply res_ch_key.
  rewrite <- Hk at 1. rewrite kstate_db_set, Hk. f_equal.
  unfold d1. apply kstate_db_set_other, not_eq_sym, rec_key_neq.
Qed.

Lemma nodup_db_resolve d key value ver opid clk : nodup_db d -> nodup_db (db_resolve d key value ver opid clk).
Proof. intros H. rewrite db_resolve_eq. auto using nodup_db_set. Qed.

Lemma pending_conflict_db_resolve d key value ver opid clk : nodup_db d ->
  has_pending_conflict (db_resolve d key value ver opid clk) key =
  has_pending_conflict (db_set d (reg_ch key value opid clk)) key.
Proof.
  intros H. apply pending_conflict_agree; auto using nodup_db_resolve, nodup_db_set.
  intros ck. apply pend_db_resolve.
Qed.

(* the replica's database after the two queued lines of a resolve *)
Definition db_resolve_replica (ds : db) (key value : str) (ver : Z) (opid c2 c3 : N) : db :=
  db_resolve (db_set ds (reg_ch key value opid c2)) key value ver opid c3.

Lemma nodup_db_resolve_replica ds key value ver opid c2 c3 :
  nodup_db ds -> nodup_db (db_resolve_replica ds key value ver opid c2 c3).
Proof. intros H. unfold db_resolve_replica. auto using nodup_db_resolve, nodup_db_set. Qed.

Lemma resolve_pend_agree dp ds key value ver opid c1 c2 c3 :
  nodup_db dp -> nodup_db ds ->
  (forall ck, pend_text dp key ck = pend_text ds key ck) ->
  rec_writable dp (rec_key key opid) -> rec_writable ds (rec_key key opid) ->
  (forall ck, pend_text (db_resolve dp key value ver opid c1) key ck =
              pend_text (db_resolve_replica ds key value ver opid c2 c3) key ck) /\
  has_pending_conflict (db_set dp (reg_ch key value opid c1)) key =
  has_pending_conflict (db_set (db_set ds (reg_ch key value opid c2)) (reg_ch key value opid c3)) key.
Proof.
  intros Np Ns H Wp Ws.
  assert (A : forall ck, pend_text (db_set dp (reg_ch key value opid c1)) key ck =
                         pend_text (db_set (db_set ds (reg_ch key value opid c2)) (reg_ch key value opid c3)) key ck).
  { intros ck. unfold reg_ch. rewrite pend_twice by assumption. now apply pend_same_plain. }
  split.
  - intros ck. unfold db_resolve_replica. rewrite !pend_db_resolve. apply A.
  - apply pending_conflict_agree; auto using nodup_db_set.
Qed.

(* a replica database that agrees with the primary before the resolve
   agrees with it after executing the two queued lines *)
Theorem db_resolve_agree dp ds key value ver opid c1 c2 c3 :
  nodup_db dp -> nodup_db ds -> agree key dp ds ->
  rec_writable dp (rec_key key opid) -> rec_writable ds (rec_key key opid) ->
  agree key (db_resolve dp key value ver opid c1) (db_resolve_replica ds key value ver opid c2 c3) /\
  has_pending_conflict (db_resolve_replica ds key value ver opid c2 c3) key =
  has_pending_conflict (db_resolve dp key value ver opid c1) key.
Proof.
  intros Np Ns [Hk Hpd] Wp Ws.
  destruct (resolve_pend_agree dp ds key value ver opid c1 c2 c3 Np Ns Hpd Wp Ws) as [A B].
  split; [split; auto|].
  - unfold db_resolve_replica. rewrite !kstate_db_resolve, <- B. f_equal.
    rewrite Hk. symmetry. apply kstate_db_set_other, not_eq_sym, rec_key_neq.
  - symmetry. apply pending_conflict_agree; auto using nodup_db_resolve, nodup_db_resolve_replica.
Qed.

(* the version the key ends with after a resolve: -2 while another record is pending ([P]) or when the
   arbiter says -2; else one above the stored version, or above the arbiter's when the key was marked *)
Definition res_ver (P : bool) (o ver : Z) : Z :=
  if P then -2 else if Z.eqb ver (-2) then -2 else if Z.eqb o (-2) then sat_succ ver else o + 1.

Lemma kset_res val o P key value ver opid :
  -2 <= ver -> (o <> -2 -> o < i32_max) ->
  kset (Some (val, o)) (res_ch P (mkCh key value ver opid true)) = Some (value, res_ver P o ver).
Proof.
  intros Hv Ho. unfold res_ver, res_ch. destruct P.
  - cbn [kset]. unfold ver_refused, next_version. cbn [c_ver c_val]. change (-2 =? -2) with true.
    cbn [negb]. now rewrite andb_false_r.
  - cbn [kset]. unfold ver_refused, next_version, in_conflict. cbn [c_ver c_val c_resolve v_ver].
    destruct (Z.eqb_spec ver (-2)) as [->|Hne].
    + cbn [negb]. now rewrite andb_false_r.
    + cbn [negb]. rewrite andb_true_r.
      destruct (Z.eqb_spec o (-2)) as [->|Hno].
      * unfold sat_succ. destruct (Z.ltb_spec ver i32_max).
        -- destruct (Z.leb_spec (ver + 1) (-2)); [lia|reflexivity].
        -- destruct (Z.leb_spec i32_max (-2)); [unfold i32_max in *; lia|reflexivity].
      * rewrite (sat_succ_lt o (Ho Hno)). destruct (Z.leb_spec (o + 1) o); [lia|reflexivity].
Qed.

(* the replica database may lag in marking the key (version differs);
   after the lines of a resolve both hold the resolved value, and the versions are
   [res_ver] of each side's previous version *)
Theorem db_resolve_vagree dp ds key value ver opid c1 c2 c3 vp op vs os :
  nodup_db dp -> nodup_db ds -> vagree key dp ds ->
  rec_writable dp (rec_key key opid) -> rec_writable ds (rec_key key opid) ->
  kstate dp key = Some (vp, op) -> kstate ds key = Some (vs, os) ->
  -2 <= ver -> (op <> -2 -> op < i32_max) -> (os <> -2 -> os < i32_max) ->
  let dp' := db_resolve dp key value ver opid c1 in
  let ds' := db_resolve_replica ds key value ver opid c2 c3 in
  let P := has_pending_conflict dp' key in
  has_pending_conflict ds' key = P /\
  kstate dp' key = Some (value, res_ver P op ver) /\
  kstate ds' key = Some (value, res_ver P os ver) /\
  vagree key dp' ds'.
Proof.
  intros Np Ns [Hv Hpd] Wp Ws Kp Ks Hver Hop Hos. cbv zeta.
  destruct (resolve_pend_agree dp ds key value ver opid c1 c2 c3 Np Ns Hpd Wp Ws) as [A B].
  assert (Ks1 : kstate (db_set ds (reg_ch key value opid c2)) key = Some (vs, os)).
  { rewrite <- Ks. apply kstate_db_set_other, not_eq_sym, rec_key_neq. }
  assert (Hp' : has_pending_conflict (db_resolve dp key value ver opid c1) key =
                has_pending_conflict (db_set dp (reg_ch key value opid c1)) key)
    by now apply pending_conflict_db_resolve.
  assert (Hs' : has_pending_conflict (db_resolve_replica ds key value ver opid c2 c3) key =
                has_pending_conflict (db_set dp (reg_ch key value opid c1)) key).
  { unfold db_resolve_replica. rewrite pending_conflict_db_resolve by auto using nodup_db_set. now rewrite B. }
  assert (K1 : kstate (db_resolve dp key value ver opid c1) key =
               Some (value, res_ver (has_pending_conflict (db_resolve dp key value ver opid c1) key) op ver)).
  { rewrite kstate_db_resolve, Kp, Hp'. now apply kset_res. }
  assert (K2 : kstate (db_resolve_replica ds key value ver opid c2 c3) key =
               Some (value, res_ver (has_pending_conflict (db_resolve dp key value ver opid c1) key) os ver)).
  { unfold db_resolve_replica. rewrite kstate_db_resolve, Ks1, <- B, Hp'. now apply kset_res. }
  split; [now rewrite Hs', Hp'|]. split; [exact K1|]. split; [exact K2|].
  split; auto. now rewrite !kval_kstate, K1, K2.
Qed.

Lemma pend_mark d key old ck : pend_text (mark_conflict d key old) key ck = pend_text d key ck.
Proof.
  destruct (String.eqb_spec ck key) as [->|Hne].
  - now rewrite !pend_text_self.
  - unfold mark_conflict. now apply pend_text_put_other.
Qed.

Lemma writable_mark d key old ck : ck <> key -> rec_writable d ck -> rec_writable (mark_conflict d key old) ck.
Proof. intros Hne H. unfold rec_writable, mark_conflict in *. now rewrite gv_put_other. Qed.

(* on the databases: the primary marks the key (-2, value kept) and stores the record; the
   replica, executing the one queued line, stores the record with the same text and leaves the key
   as it was *)
Theorem db_conflict_vagree dp ds key old ck rmsg c1 c2 :
  nodup_db dp -> nodup_db ds -> vagree key dp ds ->
  get_value dp key = Some old -> ck <> key ->
  rec_writable dp ck -> rec_writable ds ck ->
  let dp' := db_conflict dp key old ck rmsg c1 in
  let ds' := db_set ds (mkCh ck rmsg (-1) c2 false) in
  kstate dp' key = Some (v_val old, -2) /\
  kstate ds' key = kstate ds key /\
  kval dp' ck = Some rmsg /\ kval ds' ck = Some rmsg /\
  (forall ck', pend_text dp' key ck' = if String.eqb ck' ck then pend_of_text key ck rmsg else pend_text dp key ck') /\
  vagree key dp' ds'.
Proof.
  intros Np Ns [Hv Hpd] Eo Hne Wp Ws. cbv zeta. unfold db_conflict.
  assert (Wp2 := writable_mark dp key old ck Hne Wp).
  assert (Kp : kstate (db_set (mark_conflict dp key old) (mkCh ck rmsg (-1) c1 false)) key = Some (v_val old, -2)).
  { rewrite kstate_db_set_other by (cbn; congruence). unfold kstate, mark_conflict. now rewrite gv_put_same. }
  assert (Ksd : kstate (db_set ds (mkCh ck rmsg (-1) c2 false)) key = kstate ds key).
  { apply kstate_db_set_other. cbn; congruence. }
  assert (Pp : forall ck', pend_text (db_set (mark_conflict dp key old) (mkCh ck rmsg (-1) c1 false)) key ck' =
                           if String.eqb ck' ck then pend_of_text key ck rmsg else pend_text dp key ck').
  { intros ck'. rewrite pend_after_plain by assumption. now rewrite pend_mark. }
  split; [exact Kp|]. split; [exact Ksd|].
  split; [now apply kval_db_set_plain|]. split; [now apply kval_db_set_plain|].
  split; [exact Pp|]. split.
  - rewrite !kval_kstate, Kp, Ksd, <- kval_kstate, <- Hv. unfold kval. now rewrite Eo.
  - intros ck'. rewrite Pp, pend_after_plain by assumption. now rewrite Hpd.
Qed.

(* for EVERY key (also one that contains '*'): the record stored by a conflicting write is found by
   has_pending_conflict, i.e. the key stays in conflict until that record is resolved *)
Theorem conflict_record_pending d key old opid rmsg clk :
  nodup_db d -> rec_writable d (rec_key key opid) -> starts_with rmsg "resolved" = false ->
  let d' := db_conflict d key old (rec_key key opid) rmsg clk in
  In (rec_key key opid) (list_conflicts_keys d' key) /\ has_pending_conflict d' key = true.
Proof.
  intros Nd Hw Hr. cbv zeta. unfold db_conflict.
  assert (Hw2 := writable_mark d key old _ (rec_key_neq key opid) Hw).
  pose proof (nodup_db_conflict d key old (rec_key key opid) rmsg clk Nd) as Nd2. unfold db_conflict in Nd2.
  destruct (db_set_plain (mark_conflict d key old) (rec_key key opid) rmsg clk Hw2) as (_ & v & E & Hv & Hl & _).
  split.
  - apply (list_conflicts_keys_iff _ key _ Nd2). exists v. rewrite E, gv_put_same.
    split; auto. split; auto. apply rec_key_matches.
  - apply (pending_conflict_iff _ key Nd2). exists (rec_key key opid).
    rewrite E, pend_text_put_same, Hv by assumption.
    unfold pend_of_text. rewrite rec_key_matches, Hr. discriminate.
Qed.

(* from here on numerals and [+], [<], [2 ^ 64] are those of N (op ids, clocks); Z is marked [%Z] *)
Local Open Scope N_scope.

(* what [process] does with a parsed request that is not an "rp" envelope *)
Definition exec (n : node) (c : nat) (rq : request) : node * resp :=
  let '(n1, r) := handle n c rq in replicate_request n1 rq (s_db (get_sess n c)) r.

Lemma step_exec n c line rq : parse_request (trim_char nl line) = POk rq ->
  (forall r i, rq <> RqReplicateRequest r i) -> step n c line = exec n c rq.
Proof. apply step_eq. Qed.

(* session attributes (auth, selected database, user, member) of every session kept.  The replica is
   followed with this and its role, not with [frame] (here and below ConvergeProofs.frame, two arguments,
   which shadows ArbiterHttpProofs.frame): a secondary that executes a resolve sends the record
   line back to the primary, which changes [n_members] *)
Definition same_sess (n n' : node) : Prop := forall c, sattr (get_sess n' c) = sattr (get_sess n c).

Lemma same_sess_refl n : same_sess n n.
Proof. intros c. reflexivity. Qed.
Lemma same_sess_trans a b c : same_sess a b -> same_sess b c -> same_sess a c.
Proof. intros H1 H2 x. now rewrite H2, H1. Qed.
Lemma same_sess_frame n n' : frame n n' -> same_sess n n'.
Proof. intros H c. apply (fr_sess _ _ H). Qed.
Lemma same_sess_core n n' : n_sess n' = n_sess n -> same_sess n n'.
Proof. intros H c. unfold get_sess. now rewrite H. Qed.

Lemma same_sess_auth n n' c : same_sess n n' -> s_auth (get_sess n' c) = s_auth (get_sess n c).
Proof. intros H. specialize (H c). unfold sattr in H. congruence. Qed.
Lemma same_sess_db n n' c : same_sess n n' -> s_db (get_sess n' c) = s_db (get_sess n c).
Proof. intros H. specialize (H c). unfold sattr in H. congruence. Qed.
Lemma same_sess_member n n' c : same_sess n n' -> s_member (get_sess n' c) = s_member (get_sess n c).
Proof. intros H. specialize (H c). unfold sattr in H. congruence. Qed.
Lemma same_sess_is_primary n n' c : same_sess n n' -> sess_is_primary (get_sess n' c) = sess_is_primary (get_sess n c).
Proof. intros H. unfold sess_is_primary. now rewrite (same_sess_member _ _ _ H). Qed.

Lemma same_sess_link n n' c : same_sess n n' ->
  s_auth (get_sess n c) = true -> sess_is_primary (get_sess n c) = true ->
  s_auth (get_sess n' c) = true /\ sess_is_primary (get_sess n' c) = true.
Proof. intros H Ha Hm. now rewrite (same_sess_auth _ _ _ H), (same_sess_is_primary _ _ _ H). Qed.

(* replicate_change: to the replication queue on a primary, to the primary on a secondary *)
Lemma replicate_change_primary n dbn ch : is_primary n = true ->
  replicate_change n dbn ch = replicate_web n (replicate_msg dbn (c_key ch) (c_val ch) (c_ver ch)).
Proof. intros H. unfold replicate_change. now rewrite H. Qed.

Lemma replicate_change_secondary n dbn ch : n_role n = Secondary ->
  replicate_change n dbn ch = send_to_primary n (replicate_msg dbn (c_key ch) (c_val ch) (c_ver ch)).
Proof. intros H. unfold replicate_change, is_primary, is_eligible. now rewrite H. Qed.

Lemma replicate_change_dbs n dbn ch : n_dbs (replicate_change n dbn ch) = n_dbs n.
Proof. exact (n_dbs_replicate_change n dbn ch). Qed.
Lemma replicate_change_role n dbn ch : n_role (replicate_change n dbn ch) = n_role n.
Proof. unfold replicate_change. destruct (_ || _); reflexivity. Qed.

(* [resolve_conflict_eq] over [db_set], [reg_ch] and [db_resolve]; the messages and the answer stay abstract *)
Lemma resolve_conflict_shape n dbn d key value ver opid :
  get_db n dbn = Some d ->
  exists msgs1 msgs2 r,
    resolve_conflict n dbn (mkCh key value ver opid true) =
    (sends (put_db (replicate_change
                      (sends (put_db (n_set_clock n (n_clock n + 1)) dbn (db_set d (reg_ch key value opid (n_clock n)))) msgs1)
                      dbn (reg_ch key value opid (n_clock n)))
                   dbn (db_resolve d key value ver opid (n_clock n))) msgs2, r).
Proof.
  intros Ed. rewrite (resolve_conflict_eq n dbn d _ Ed). do 3 eexists. reflexivity.
Qed.

Lemma resolve_conflict_primary n dbn d key value ver opid :
  is_primary n = true -> get_db n dbn = Some d ->
  let n' := fst (resolve_conflict n dbn (mkCh key value ver opid true)) in
  get_db n' dbn = Some (db_resolve d key value ver opid (n_clock n)) /\
  n_repl n' = n_repl n ++ [rp_line (n_clock n + 1) (rec_text dbn key opid ("resolved " +++ value))] /\
  n_clock n' = n_clock n + 2 /\ frame n n'.
Proof.
  intros Hp Ed. cbv zeta.
  destruct (resolve_conflict_shape n dbn d key value ver opid Ed) as (msgs1 & msgs2 & r & ->). cbn [fst].
  set (na := sends (put_db (n_set_clock n (n_clock n + 1)) dbn _) msgs1).
  assert (Hpa : is_primary na = true) by (unfold na; rewrite is_primary_sends; exact Hp).
  rewrite (replicate_change_primary na dbn _ Hpa).
  destruct (put_db_sends_frame (n_set_clock n (n_clock n + 1)) dbn (db_set d (reg_ch key value opid (n_clock n))) msgs1)
    as (Fa & Ra & Ca & Da). fold na in Fa, Ra, Ca, Da.
  set (nb := replicate_web na _).
  destruct (put_db_sends_frame nb dbn (db_resolve d key value ver opid (n_clock n)) msgs2) as (Fc & Rc & Cc & Dc).
  split; [exact Dc|]. split; [|split].
  - rewrite Rc. unfold nb. rewrite n_repl_replicate_web, Ra, Ca. reflexivity.
  - rewrite Cc. unfold nb. rewrite n_clock_replicate_web, Ca. cbn [n_clock n_set_clock]. lia.
  - eapply frame_trans; [apply (frame_set_clock n (n_clock n + 1))|].
    eapply frame_trans; [exact Fa|]. eapply frame_trans; [apply frame_replicate_web|exact Fc].
Qed.

Lemma handle_resolve_ok n c opid dbn key value ver d :
  is_primary n = true -> s_db (get_sess n c) = Some dbn -> get_db n dbn = Some d ->
  snd (handle n c (RqResolve opid dbn key value ver)) = ROk ->
  handle n c (RqResolve opid dbn key value ver) =
    (fst (resolve_conflict n dbn (mkCh key value ver opid true)), ROk).
Proof.
  intros Hp Hs Ed. cbn [handle]. rewrite Hp. cbn [orb].
  destruct (s_auth (get_sess n c)).
  - unfold guard_db_name. rewrite Ed. reflexivity.
  - destruct (guard_safe n c key PWrite) as [dbn0 d0|n' r] eqn:G.
    + apply guard_safe_go in G as [G1 G2]. rewrite Hs in G1. injection G1 as <-. reflexivity.
    + apply guard_safe_stop_frame in G as (_ & _ & _ & _ & Hno & _). cbn [snd]. intros ->. discriminate Hno.
Qed.

Lemma has_db_get n x d : get_db n x = Some d -> has_db n x = true.
Proof. unfold has_db. now intros ->. Qed.

(* what an accepted resolve leaves on the primary: two queued lines, in this order -
   the record, then the resolve itself - and the database changed by [db_resolve] *)
Theorem resolve_queues_lines n c opid dbn key value ver d :
  is_primary n = true -> s_db (get_sess n c) = Some dbn -> get_db n dbn = Some d ->
  snd (handle n c (RqResolve opid dbn key value ver)) = ROk ->
  let res := exec n c (RqResolve opid dbn key value ver) in
  snd res = ROk /\
  n_repl (fst res) = n_repl n ++ [rp_line (n_clock n + 1) (rec_text dbn key opid ("resolved " +++ value));
                                  rp_line (n_clock n + 2) (resolve_text opid dbn key ver value)] /\
  get_db (fst res) dbn = Some (db_resolve d key value ver opid (n_clock n)) /\
  n_clock (fst res) = n_clock n + 3 /\ frame n (fst res).
Proof.
  intros Hp Hs Ed Hok. cbv zeta. unfold exec.
  rewrite (handle_resolve_ok n c opid dbn key value ver d Hp Hs Ed Hok), Hs.
  destruct (resolve_conflict_primary n dbn d key value ver opid Hp Ed) as (D1 & R1 & C1 & F1).
  set (n1 := fst (resolve_conflict n dbn _)) in *.
  unfold replicate_request. cbn [or_empty]. rewrite (has_db_get _ _ _ D1). cbn [negb].
  cbn [fst snd]. split; [reflexivity|]. split; [|split; [|split]].
  - rewrite n_repl_replicate_web, R1, C1, <- app_assoc. reflexivity.
  - exact D1.
  - rewrite n_clock_replicate_web, C1. lia.
  - eapply frame_trans; [exact F1|apply frame_replicate_web].
Qed.

Corollary resolve_text_step n c opid dbn key value ver :
  (opid < 2 ^ 64) -> simple_tok dbn -> simple_tok key -> no_nl value -> no_semi_end value -> is_i32 ver ->
  step n c (resolve_text opid dbn key ver value) = exec n c (RqResolve opid dbn key value ver).
Proof.
  intros Hid Hd Hk Hvn Hvs Hver. apply step_exec; [now apply resolve_text_parse|discriminate].
Qed.

(* how [db_resolve] changes the database: record marked, key set, nothing else *)
Theorem db_resolve_effect d key value ver opid clk old :
  nodup_db d -> rec_writable d (rec_key key opid) -> get_value d key = Some old ->
  (-2 <= ver)%Z -> (v_ver old <> -2 -> v_ver old < i32_max)%Z ->
  let d' := db_resolve d key value ver opid clk in
  kval d' (rec_key key opid) = Some ("resolved " +++ value) /\
  kstate d' key = Some (value, res_ver (has_pending_conflict d' key) (v_ver old) ver) /\
  (forall k, k <> key -> k <> rec_key key opid -> get_value d' k = get_value d k).
Proof.
  intros Nd Hw Eo Hv Ho. cbv zeta. split; [|split].
  - rewrite db_resolve_eq. unfold kval at 1. rewrite db_set_other.
    2:{ rewrite res_ch_key. apply rec_key_neq. }
    now apply kval_db_set_plain.
  - rewrite kstate_db_resolve, pending_conflict_db_resolve by assumption.
    unfold kstate at 1. rewrite Eo. cbn [option_map]. now apply kset_res.
  - intros k Hk1 Hk2. rewrite db_resolve_eq. rewrite db_set_other by (now rewrite res_ch_key).
    now apply db_set_other.
Qed.

(* an accepted change is applied whatever the strategy of the database *)
Lemma apply_change_ok n dbn d ch :
  get_db n dbn = Some d -> resp_ok (snd (fst (set_value d ch))) = true ->
  apply_change n dbn ch =
  (sends (put_db n dbn (db_set d ch)) (snd (set_value d ch)), snd (fst (set_value d ch))).
Proof.
  intros Hd E. unfold apply_change, db_set. rewrite Hd. destruct (set_value d ch) as [[d1 r] m].
  destruct r; try reflexivity. discriminate E.
Qed.

Lemma set_value_ver_refused d ch old : get_value d (c_key ch) = Some old -> ver_refused ch old = true ->
  set_value d ch = (d, RVersionError (c_key ch) (v_ver old) (c_ver ch) old ch (upd_state old), []).
Proof. intros E H. rewrite (set_value_present _ _ _ E). unfold ver_refused in H. now rewrite H. Qed.

(* a versioned write that conflicts on an arbiter database with a registered
   arbiter: the answer, the one queued line (the record), the database *)
Theorem conflict_queues_lines n c key value ver dbn d old :
  is_primary n = true -> guard_safe n c key PWrite = GGo dbn d ->
  d_strat d = SArbiter -> has_arbiter d = true -> get_value d key = Some old ->
  ver_refused (mkCh key value ver (n_clock n) false) old = true ->
  let rmsg := conflict_notice dbn d (mkCh key value ver (n_clock n) false) old in
  let res := exec n c (RqSet key value ver) in
  snd res = RError ("$$conflitct unresolved " +++ rec_key key (n_clock n)) /\
  n_repl (fst res) = n_repl n ++ [rp_line (n_clock n + 2) (rec_text dbn key (n_clock n) rmsg)] /\
  get_db (fst res) dbn = Some (db_conflict d key old (rec_key key (n_clock n)) rmsg (n_clock n + 1)) /\
  n_clock (fst res) = n_clock n + 3 /\ frame n (fst res).
Proof.
  intros Hp G Hst Ha Eo Hr. cbv zeta.
  destruct (guard_safe_go _ _ _ _ _ _ G) as [Hs Ed].
  unfold exec. rewrite handle_set_eq, G. unfold set_key_value, tick. cbv beta iota.
  set (ch := mkCh key value ver (n_clock n) false) in *.
  set (nc := n_set_clock n (n_clock n + 1)).
  assert (Edc : get_db nc dbn = Some d) by exact Ed.
  rewrite (apply_change_arbiter nc dbn d ch old Edc Hst Ha (set_value_ver_refused d ch old Eo Hr)). cbv zeta.
  set (rmsg := conflict_notice dbn d ch old).
  set (d2 := mark_conflict d (c_key ch) old).
  destruct (put_db_sends_frame nc dbn d2 (arbiter_msgs d2 rmsg)) as (F1 & R1 & C1 & D1).
  set (n1 := sends (put_db nc dbn d2) (arbiter_msgs d2 rmsg)) in *.
  set (ch2 := mkCh (conflict_key ch) rmsg (-1) (n_clock n1) false). fold (db_set d2 ch2).
  destruct (put_db_sends_frame (n_set_clock n1 (n_clock n1 + 1)) dbn (db_set d2 ch2) (snd (set_value d2 ch2))) as (F3 & R3 & C3 & D3).
  set (n3 := sends (put_db (n_set_clock n1 (n_clock n1 + 1)) dbn (db_set d2 ch2)) _) in *.
  assert (Fn3 : frame n n3).
  { eapply frame_trans; [apply (frame_set_clock n (n_clock n + 1))|]. eapply frame_trans; [exact F1|].
    eapply frame_trans; [apply (frame_set_clock n1 (n_clock n1 + 1))|exact F3]. }
  assert (Hp3 : is_primary n3 = true) by (rewrite (is_primary_frame n n3 Fn3); exact Hp).
  rewrite (replicate_change_primary n3 dbn ch2 Hp3).
  set (n4 := replicate_web n3 _).
  assert (Fn4 : frame n n4) by (eapply frame_trans; [exact Fn3|apply frame_replicate_web]).
  rewrite (is_primary_frame n n4 Fn4), Hp. cbn [fst snd replicate_request].
  assert (Ck : n_clock n1 = n_clock n + 1) by (rewrite C1; reflexivity).
  split; [reflexivity|]. split; [|split; [|split]].
  - unfold n4. rewrite n_repl_replicate_web, R3, C3. cbn [n_repl n_set_clock n_clock]. rewrite R1, Ck.
    cbn [n_repl n_set_clock]. replace (n_clock n + 1 + 1) with (n_clock n + 2) by lia. reflexivity.
  - unfold n4. change (get_db (replicate_web n3 (replicate_msg dbn (c_key ch2) (c_val ch2) (c_ver ch2))) dbn) with (get_db n3 dbn).
    rewrite D3. unfold ch2. rewrite Ck. reflexivity.
  - unfold n4. rewrite n_clock_replicate_web, C3. cbn [n_clock n_set_clock]. lia.
  - exact Fn4.
Qed.

(* the answer "$$conflitct unresolved ..." identifies this branch (no other branch of apply_change
   gives it): the hypotheses of [conflict_queues_lines] follow from it *)
Lemma apply_change_conflict_answer n dbn d ch ck : get_db n dbn = Some d ->
  snd (apply_change n dbn ch) = RError ("$$conflitct unresolved " +++ ck) ->
  exists old, get_value d (c_key ch) = Some old /\ ver_refused ch old = true /\
              d_strat d = SArbiter /\ has_arbiter d = true.
Proof.
  intros Hd. destruct (get_value d (c_key ch)) as [old|] eqn:Eo.
  2:{ rewrite (apply_change_ok n dbn d ch Hd); unfold set_value; rewrite Eo; [discriminate|reflexivity]. }
  destruct (ver_refused ch old) eqn:Hr.
  2:{ unfold ver_refused in Hr.
      rewrite (apply_change_ok n dbn d ch Hd); rewrite (set_value_present d ch old Eo), Hr; [discriminate|reflexivity]. }
  unfold apply_change. rewrite Hd, (set_value_ver_refused d ch old Eo Hr). cbv beta iota.
  destruct (d_strat d); [discriminate| |].
  - destruct (N.ltb _ _); [|discriminate]. unfold tick, set_value. cbv beta iota. cbn [c_key]. rewrite Eo.
    destruct (_ && _); discriminate.
  - destruct (has_arbiter d); [|discriminate]. intros _. exists old. auto.
Qed.

Theorem conflict_answer_inv n c key value ver ck :
  snd (handle n c (RqSet key value ver)) = RError ("$$conflitct unresolved " +++ ck) ->
  exists dbn d old,
    guard_safe n c key PWrite = GGo dbn d /\ d_strat d = SArbiter /\ has_arbiter d = true /\
    get_value d key = Some old /\ ver_refused (mkCh key value ver (n_clock n) false) old = true.
Proof.
  rewrite handle_set_eq. destruct (guard_safe n c key PWrite) as [dbn d|n' r] eqn:G.
  2:{ cbn [snd]. intros ->. apply guard_safe_stop in G as [[_ G]|[[_ G]|[_ G]]]; discriminate G. }
  destruct (guard_safe_go _ _ _ _ _ _ G) as [Hs Ed].
  unfold set_key_value, tick. cbv beta iota.
  destruct (apply_change _ dbn _) as [n1 r] eqn:EA. cbn [snd]. intros ->.
  apply (f_equal snd) in EA. cbn [snd] in EA.
  destruct (apply_change_conflict_answer (n_set_clock n (n_clock n + 1)) dbn d _ ck Ed EA)
    as (old & Eo & Hr & Hst & Harb).
  exists dbn, d, old. auto.
Qed.


Lemma rr_frame n rq sd r :
  let n' := fst (replicate_request n rq sd r) in
  n_dbs n' = n_dbs n /\ n_sess n' = n_sess n /\ n_role n' = n_role n /\ n_members n' = n_members n /\
  n_clock n <= n_clock n' <= n_clock n + 1.
Proof.
  cbv zeta. destruct (replicate_request_cases n rq sd r) as [[r' ->]|[m ->]]; cbn [fst].
  - repeat split; lia.
  - rewrite n_clock_replicate_web. repeat split; lia.
Qed.

Lemma replicate_request_clock n rq sel r : (n_clock n <= n_clock (fst (replicate_request n rq sel r)))%N.
Proof. apply (rr_frame n rq sel r). Qed.
Lemma get_db_replicate_request n rq sel r x : get_db (fst (replicate_request n rq sel r)) x = get_db n x.
Proof. unfold get_db. now rewrite replicate_request_dbs. Qed.

(* the "replicate <db> $conflicts_<key>_<opid> -1 <text>" line on the replica *)
Lemma sec_record_step s l dbn ds key opid txt :
  simple_tok dbn -> simple_tok key -> no_nl txt -> no_semi_end txt ->
  s_auth (get_sess s l) = true -> get_db s dbn = Some ds -> rec_writable ds (rec_key key opid) ->
  let s' := fst (step s l (rec_text dbn key opid txt)) in
  get_db s' dbn = Some (db_set ds (mkCh (rec_key key opid) txt (-1) (n_clock s) false)) /\
  same_sess s s' /\ n_role s' = n_role s.
Proof.
  intros Hd Hk Htn Hts Ha Ed Hw. cbv zeta.
  rewrite (step_exec _ _ _ (RqReplicateSet dbn (rec_key key opid) txt (-1)));
    [|apply rec_text_parse; auto using tok_no_sp, tok_no_nl|discriminate].
  unfold exec. rewrite handle_replicate_set_eq, Ha, Ed. cbn [negb].
  unfold set_key_value, tick. cbv beta iota.
  destruct (db_set_plain ds (rec_key key opid) txt (n_clock s) Hw) as (E & _).
  rewrite (apply_change_ok (n_set_clock s (n_clock s + 1)) dbn ds _ Ed) by (now rewrite E).
  set (d1 := db_set ds _). set (msgs := snd (set_value ds _)). set (r := snd (fst (set_value ds _))).
  destruct (put_db_sends_frame (n_set_clock s (n_clock s + 1)) dbn d1 msgs) as (F1 & R1 & C1 & D1).
  set (s1 := sends (put_db (n_set_clock s (n_clock s + 1)) dbn d1) msgs) in *.
  destruct (rr_frame s1 (RqReplicateSet dbn (rec_key key opid) txt (-1)) (s_db (get_sess s l)) r)
    as (Q1 & Q2 & Q3 & _).
  set (s2 := fst (replicate_request s1 _ _ _)) in *.
  assert (Fs1 : frame s s1) by (eapply frame_trans; [apply (frame_set_clock s (n_clock s + 1))|exact F1]).
  split; [|split].
  - unfold get_db. rewrite Q1. exact D1.
  - eapply same_sess_trans; [apply (same_sess_frame _ _ Fs1)|now apply same_sess_core].
  - rewrite Q3. apply (fr_role _ _ Fs1).
Qed.

(* the "resolve ..." line on the replica: its link session is authenticated and is the primary's *)
Lemma sec_resolve_step s l opid dbn key value ver ds :
  (opid < 2 ^ 64) -> simple_tok dbn -> simple_tok key -> no_nl value -> no_semi_end value -> is_i32 ver ->
  s_auth (get_sess s l) = true -> sess_is_primary (get_sess s l) = true -> get_db s dbn = Some ds ->
  let s' := fst (step s l (resolve_text opid dbn key ver value)) in
  get_db s' dbn = Some (db_resolve ds key value ver opid (n_clock s)) /\
  same_sess s s' /\ n_role s' = n_role s.
Proof.
  intros Hid Hd Hk Hvn Hvs Hver Ha Hm Ed. cbv zeta.
  rewrite resolve_text_step by assumption.
  unfold exec. cbn [handle]. rewrite Ha, Hm. cbn [andb]. rewrite orb_true_r.
  unfold guard_db_name. rewrite Ed.
  destruct (resolve_conflict_shape s dbn ds key value ver opid Ed) as (msgs1 & msgs2 & r & ->). cbn [fst].
  set (reg := reg_ch key value opid (n_clock s)).
  destruct (put_db_sends_frame (n_set_clock s (n_clock s + 1)) dbn (db_set ds reg) msgs1) as (Fa & Ra & Ca & Da).
  set (sa := sends (put_db (n_set_clock s (n_clock s + 1)) dbn (db_set ds reg)) msgs1) in *.
  set (sb := replicate_change sa dbn reg).
  destruct (put_db_sends_frame sb dbn (db_resolve ds key value ver opid (n_clock s)) msgs2) as (Fc & Rc & Cc & Dc).
  set (sc := sends (put_db sb dbn (db_resolve ds key value ver opid (n_clock s))) msgs2) in *.
  destruct (rr_frame sc (RqResolve opid dbn key value ver) (s_db (get_sess s l)) ROk) as (Q1 & Q2 & Q3 & _).
  set (sd := fst (replicate_request sc _ _ _)) in *.
  assert (Fsa : frame s sa) by (eapply frame_trans; [apply (frame_set_clock s (n_clock s + 1))|exact Fa]).
  split; [|split].
  - unfold get_db. rewrite Q1. exact Dc.
  - eapply same_sess_trans; [apply (same_sess_frame _ _ Fsa)|].
    eapply same_sess_trans; [intros x; unfold sb; now rewrite get_sess_replicate_change|].
    eapply same_sess_trans; [apply (same_sess_frame _ _ Fc)|now apply same_sess_core].
  - rewrite Q3, (fr_role _ _ Fc). unfold sb. rewrite replicate_change_role. apply (fr_role _ _ Fsa).
Qed.

(* executing request texts, in order, on the link session [l] of the replica *)
Definition run_reqs (s : node) (l : nat) (reqs : list str) : node :=
  fold_left (fun s t => fst (step s l t)) reqs s.

Lemma sec_resolve_lines s l opid dbn key value ver ds :
  (opid < 2 ^ 64) -> simple_tok dbn -> simple_tok key -> no_nl value -> no_semi_end value -> is_i32 ver ->
  s_auth (get_sess s l) = true -> sess_is_primary (get_sess s l) = true ->
  get_db s dbn = Some ds -> rec_writable ds (rec_key key opid) ->
  let s' := run_reqs s l [rec_text dbn key opid ("resolved " +++ value); resolve_text opid dbn key ver value] in
  exists c3, get_db s' dbn = Some (db_resolve_replica ds key value ver opid (n_clock s) c3) /\
    same_sess s s' /\ n_role s' = n_role s.
Proof.
  intros Hid Hd Hk Hvn Hvs Hver Ha Hm Ed Hw. cbv zeta. unfold run_reqs. cbn [fold_left].
  destruct (sec_record_step s l dbn ds key opid ("resolved " +++ value) Hd Hk (no_nl_resolved _ Hvn)
              (no_semi_resolved _ Hvs) Ha Ed Hw) as (D1 & S1 & R1).
  set (s1 := fst (step s l (rec_text dbn key opid ("resolved " +++ value)))) in *.
  destruct (same_sess_link _ _ l S1 Ha Hm) as [Ha1 Hm1].
  destruct (sec_resolve_step s1 l opid dbn key value ver _ Hid Hd Hk Hvn Hvs Hver Ha1 Hm1 D1) as (D2 & S2 & R2).
  exists (n_clock s1). split; [exact D2|]. split; [eapply same_sess_trans; eauto|congruence].
Qed.

(* a replica that agrees with the primary on the key and on its pending records before the
   resolve agrees with it after executing the two queued request texts: same value, same version
   (in particular -2 exactly when the primary keeps the key in conflict), same pending records *)
Theorem resolve_lines_apply_on_secondary s l opid dbn key value ver dp ds cp :
  (opid < 2 ^ 64) -> simple_tok dbn -> simple_tok key -> no_nl value -> no_semi_end value -> is_i32 ver ->
  s_auth (get_sess s l) = true -> sess_is_primary (get_sess s l) = true ->
  get_db s dbn = Some ds -> nodup_db dp -> nodup_db ds ->
  rec_writable dp (rec_key key opid) -> rec_writable ds (rec_key key opid) ->
  agree key dp ds ->
  let s' := run_reqs s l [rec_text dbn key opid ("resolved " +++ value); resolve_text opid dbn key ver value] in
  exists ds', get_db s' dbn = Some ds' /\ nodup_db ds' /\
    agree key (db_resolve dp key value ver opid cp) ds' /\
    has_pending_conflict ds' key = has_pending_conflict (db_resolve dp key value ver opid cp) key /\
    same_sess s s' /\ n_role s' = n_role s.
Proof.
  intros Hid Hd Hk Hvn Hvs Hver Ha Hm Ed Np Ns Wp Ws Hag. cbv zeta.
  destruct (sec_resolve_lines s l opid dbn key value ver ds Hid Hd Hk Hvn Hvs Hver Ha Hm Ed Ws)
    as (c3 & D & S & R).
  exists (db_resolve_replica ds key value ver opid (n_clock s) c3).
  destruct (db_resolve_agree dp ds key value ver opid cp (n_clock s) c3 Np Ns Hag Wp Ws) as [A P].
  exact (conj D (conj (nodup_db_resolve_replica _ _ _ _ _ _ _ Ns) (conj A (conj P (conj S R))))).
Qed.

(* the same when the replica only agrees on the VALUE of the key (it may not have marked the key as in
   conflict, see [conflict_lines_apply_on_secondary]): both end with the resolved value; each side's
   version is [res_ver] of its own previous version *)
Theorem resolve_lines_apply_lagging s l opid dbn key value ver dp ds cp vp op vs os :
  (opid < 2 ^ 64) -> simple_tok dbn -> simple_tok key -> no_nl value -> no_semi_end value -> is_i32 ver ->
  s_auth (get_sess s l) = true -> sess_is_primary (get_sess s l) = true ->
  get_db s dbn = Some ds -> nodup_db dp -> nodup_db ds ->
  rec_writable dp (rec_key key opid) -> rec_writable ds (rec_key key opid) ->
  vagree key dp ds ->
  kstate dp key = Some (vp, op) -> kstate ds key = Some (vs, os) ->
  (-2 <= ver)%Z -> (op <> -2 -> op < i32_max)%Z -> (os <> -2 -> os < i32_max)%Z ->
  let s' := run_reqs s l [rec_text dbn key opid ("resolved " +++ value); resolve_text opid dbn key ver value] in
  let dp' := db_resolve dp key value ver opid cp in
  let P := has_pending_conflict dp' key in
  exists ds', get_db s' dbn = Some ds' /\ nodup_db ds' /\
    has_pending_conflict ds' key = P /\
    kstate dp' key = Some (value, res_ver P op ver) /\
    kstate ds' key = Some (value, res_ver P os ver) /\
    vagree key dp' ds' /\ same_sess s s' /\ n_role s' = n_role s.
Proof.
  intros Hid Hd Hk Hvn Hvs Hver Ha Hm Ed Np Ns Wp Ws Hag Kp Ks Hv Hop Hos. cbv zeta.
  destruct (sec_resolve_lines s l opid dbn key value ver ds Hid Hd Hk Hvn Hvs Hver Ha Hm Ed Ws)
    as (c3 & D & S & R).
  exists (db_resolve_replica ds key value ver opid (n_clock s) c3).
  destruct (db_resolve_vagree dp ds key value ver opid cp (n_clock s) c3 vp op vs os Np Ns Hag Wp Ws Kp Ks Hv Hop Hos)
    as (A1 & A2 & A3 & A4).
  split; [exact D|]. split; [now apply nodup_db_resolve_replica|].
  exact (conj A1 (conj A2 (conj A3 (conj A4 (conj S R))))).
Qed.

(* the one queued line of a conflicting write stores the record with the same
   text on the replica; the replica's KEY is left as it was (value kept - equal to the primary's - but
   NOT marked -2: nothing that is replicated touches it) *)
Theorem conflict_lines_apply_on_secondary s l dbn key opid rmsg dp ds old cp :
  simple_tok dbn -> simple_tok key -> no_nl rmsg -> no_semi_end rmsg ->
  s_auth (get_sess s l) = true -> get_db s dbn = Some ds ->
  nodup_db dp -> nodup_db ds -> vagree key dp ds -> get_value dp key = Some old ->
  rec_writable dp (rec_key key opid) -> rec_writable ds (rec_key key opid) ->
  let s' := run_reqs s l [rec_text dbn key opid rmsg] in
  let dp' := db_conflict dp key old (rec_key key opid) rmsg cp in
  exists ds', get_db s' dbn = Some ds' /\ nodup_db ds' /\ nodup_db dp' /\
    kstate dp' key = Some (v_val old, (-2)%Z) /\
    kstate ds' key = kstate ds key /\
    kval dp' (rec_key key opid) = Some rmsg /\ kval ds' (rec_key key opid) = Some rmsg /\
    vagree key dp' ds' /\ same_sess s s' /\ n_role s' = n_role s.
Proof.
  intros Hd Hk Hrn Hrs Ha Ed Np Ns Hag Eo Wp Ws. cbv zeta. unfold run_reqs. cbn [fold_left].
  destruct (sec_record_step s l dbn ds key opid rmsg Hd Hk Hrn Hrs Ha Ed Ws) as (D1 & S1 & R1).
  eexists. split; [exact D1|].
  destruct (db_conflict_vagree dp ds key old (rec_key key opid) rmsg cp (n_clock s) Np Ns Hag Eo (rec_key_neq key opid) Wp Ws)
    as (A1 & A2 & A3 & A4 & _ & A6).
  split; [now apply nodup_db_set|]. split; [now apply nodup_db_conflict|].
  exact (conj A1 (conj A2 (conj A3 (conj A4 (conj A6 (conj S1 R1)))))).
Qed.

(* the request text inside an "rp <id> <request>" line *)
Definition line_req (line : str) : str :=
  match parse_request line with POk (RqReplicateRequest req _) => req | _ => "" end.

(* the request texts of the lines [n'] has queued beyond those of [n] *)
Definition queued_reqs (n n' : node) : list str :=
  map line_req (skipn (List.length (n_repl n)) (n_repl n')).

Lemma line_req_rp id msg : id < 2 ^ 64 -> msg <> "" -> no_semi_end msg -> line_req (rp_line id msg) = msg.
Proof. intros Hid Hm Hs. unfold line_req, rp_line. now rewrite rp_roundtrip. Qed.

Lemma queued_reqs_app n n' ls : n_repl n' = n_repl n ++ ls -> queued_reqs n n' = map line_req ls.
Proof.
  intros H. unfold queued_reqs. rewrite H, skipn_app, skipn_all, Nat.sub_diag. reflexivity.
Qed.

Lemma replicate_msg_ne dbn k txt ver : replicate_msg dbn k txt ver <> "".
Proof. discriminate. Qed.
Lemma replicate_msg_semi dbn k txt ver : no_semi_end txt -> no_semi_end (replicate_msg dbn k txt ver).
Proof.
  intros H. unfold replicate_msg. repeat (rewrite <- app_assoc_s). rewrite app_assoc_s. now apply no_semi_end_sep.
Qed.
Lemma resolve_text_semi opid dbn key ver value : no_semi_end value -> no_semi_end (resolve_text opid dbn key ver value).
Proof.
  intros H. unfold resolve_text. repeat (rewrite <- app_assoc_s). rewrite app_assoc_s. now apply no_semi_end_sep.
Qed.

Lemma record_queued n n' id dbn key opid txt :
  n_repl n' = n_repl n ++ [rp_line id (rec_text dbn key opid txt)] -> id < 2 ^ 64 -> no_semi_end txt ->
  queued_reqs n n' = [rec_text dbn key opid txt].
Proof.
  intros R Hid Hs. rewrite (queued_reqs_app _ _ _ R). cbn [map].
  rewrite line_req_rp; [reflexivity|exact Hid|discriminate|now apply replicate_msg_semi].
Qed.

Lemma resolve_queued n n' id1 id2 opid dbn key value ver :
  n_repl n' = n_repl n ++ [rp_line id1 (rec_text dbn key opid ("resolved " +++ value));
                           rp_line id2 (resolve_text opid dbn key ver value)] ->
  id1 < 2 ^ 64 -> id2 < 2 ^ 64 -> no_semi_end value ->
  queued_reqs n n' = [rec_text dbn key opid ("resolved " +++ value); resolve_text opid dbn key ver value].
Proof.
  intros R Hi1 Hi2 Hs. rewrite (queued_reqs_app _ _ _ R). cbn [map].
  rewrite !line_req_rp; auto using resolve_text_semi; try discriminate.
  apply replicate_msg_semi. now apply no_semi_resolved.
Qed.

(* [resolve_queues_lines] and [resolve_lines_apply_on_secondary] together: the resolve handled by the primary, its queued lines executed by the replica *)
Theorem resolve_replicates n c s l opid dbn key value ver dp ds :
  (opid < 2 ^ 64) -> simple_tok dbn -> simple_tok key -> no_nl value -> no_semi_end value -> is_i32 ver ->
  n_clock n + 3 <= 2 ^ 64 ->
  is_primary n = true -> s_db (get_sess n c) = Some dbn -> get_db n dbn = Some dp ->
  snd (handle n c (RqResolve opid dbn key value ver)) = ROk ->
  s_auth (get_sess s l) = true -> sess_is_primary (get_sess s l) = true -> get_db s dbn = Some ds ->
  nodup_db dp -> nodup_db ds ->
  rec_writable dp (rec_key key opid) -> rec_writable ds (rec_key key opid) ->
  agree key dp ds ->
  let n' := fst (exec n c (RqResolve opid dbn key value ver)) in
  let s' := run_reqs s l (queued_reqs n n') in
  queued_reqs n n' = [rec_text dbn key opid ("resolved " +++ value); resolve_text opid dbn key ver value] /\
  exists dp' ds', get_db n' dbn = Some dp' /\ get_db s' dbn = Some ds' /\
    nodup_db dp' /\ nodup_db ds' /\ agree key dp' ds' /\
    has_pending_conflict ds' key = has_pending_conflict dp' key.
Proof.
  intros Hid Hd Hk Hvn Hvs Hver Hclk Hp Hs Edp Hok Ha Hm Eds Np Ns Wp Ws Hag. cbv zeta.
  destruct (resolve_queues_lines n c opid dbn key value ver dp Hp Hs Edp Hok) as (_ & R & D & _ & _).
  pose proof (resolve_queued _ _ _ _ _ _ _ _ _ R ltac:(lia) ltac:(lia) Hvs) as Q.
  split; [exact Q|]. rewrite Q.
  destruct (resolve_lines_apply_on_secondary s l opid dbn key value ver dp ds (n_clock n)
              Hid Hd Hk Hvn Hvs Hver Ha Hm Eds Np Ns Wp Ws Hag) as (ds' & D' & N' & A' & P' & _).
  exists (db_resolve dp key value ver opid (n_clock n)), ds'.
  exact (conj D (conj D' (conj (nodup_db_resolve _ _ _ _ _ _ Np) (conj N' (conj A' P'))))).
Qed.

Lemma conflict_notice_semi dbn d ch old : no_semi_end (c_val ch) -> no_semi_end (conflict_notice dbn d ch old).
Proof.
  intros H. unfold conflict_notice. destruct (conflict_info _ _ _ _) as [prev cver].
  repeat (rewrite <- app_assoc_s). rewrite app_assoc_s. now apply no_semi_end_sep.
Qed.

Lemma conflict_notice_no_nl dbn d ch old :
  no_nl dbn -> no_nl (c_key ch) -> no_nl (c_val ch) -> no_nl (v_val old) ->
  (forall ck, In ck (list_conflicts_keys (mark_conflict d (c_key ch) old) (c_key ch)) -> no_nl ck) ->
  no_nl (conflict_notice dbn d ch old).
Proof.
  intros Hd Hk Hv Ho Hpend. unfold conflict_notice.
  destruct (conflict_info _ _ _ _) as [prev cver] eqn:E.
  assert (Hprev : no_nl prev).
  { unfold conflict_info in E. destruct (Z.eqb (v_ver old) (-2)).
    - destruct (list_conflicts_keys _ _) as [|a r] eqn:EL; [now injection E as <- _|].
      injection E as <- _. apply Hpend. change (In (last (a :: r) "") (a :: r)).
      destruct (@exists_last _ (a :: r)) as (l' & x & Ex); [discriminate|]. rewrite Ex, last_last.
      apply in_or_app. right. now left.
    - now injection E as <- _. }
  unfold no_nl in *. rewrite !nochar_app, Hd, Hk, Hv, Hprev, (no_nl_N (c_opp ch)), (no_nl_Z cver). reflexivity.
Qed.

(* [conflict_queues_lines] and [conflict_lines_apply_on_secondary] together: the conflicting write at the primary (recognised by its answer), its
   queued line executed by the replica *)
Theorem conflict_replicates n c s l key value ver dbn dp ds :
  simple_tok dbn -> simple_tok key -> no_semi_end value -> n_clock n + 3 <= 2 ^ 64 ->
  is_primary n = true -> s_db (get_sess n c) = Some dbn -> get_db n dbn = Some dp ->
  snd (handle n c (RqSet key value ver)) = RError ("$$conflitct unresolved " +++ rec_key key (n_clock n)) ->
  (forall old, get_value dp key = Some old ->
     no_nl (conflict_notice dbn dp (mkCh key value ver (n_clock n) false) old)) ->
  s_auth (get_sess s l) = true -> get_db s dbn = Some ds ->
  nodup_db dp -> nodup_db ds -> vagree key dp ds ->
  rec_writable dp (rec_key key (n_clock n)) -> rec_writable ds (rec_key key (n_clock n)) ->
  let n' := fst (exec n c (RqSet key value ver)) in
  let s' := run_reqs s l (queued_reqs n n') in
  exists old dp' ds',
    get_value dp key = Some old /\
    let rmsg := conflict_notice dbn dp (mkCh key value ver (n_clock n) false) old in
    queued_reqs n n' = [rec_text dbn key (n_clock n) rmsg] /\
    get_db n' dbn = Some dp' /\ get_db s' dbn = Some ds' /\
    kstate dp' key = Some (v_val old, (-2)%Z) /\ kstate ds' key = kstate ds key /\
    kval dp' (rec_key key (n_clock n)) = Some rmsg /\ kval ds' (rec_key key (n_clock n)) = Some rmsg /\
    vagree key dp' ds'.
Proof.
  intros Hd Hk Hvs Hclk Hp Hs Edp Hans Hnl Ha Eds Np Ns Hag Wp Ws. cbv zeta.
  destruct (conflict_answer_inv n c key value ver _ Hans) as (dbn' & d & old & G & Hst & Harb & Eo & Hr).
  destruct (guard_safe_go _ _ _ _ _ _ G) as [Hs' Ed']. rewrite Hs in Hs'. injection Hs' as <-.
  rewrite Edp in Ed'. injection Ed' as <-.
  destruct (conflict_queues_lines n c key value ver dbn dp old Hp G Hst Harb Eo Hr) as (_ & R & D & _ & _).
  set (rmsg := conflict_notice dbn dp (mkCh key value ver (n_clock n) false) old) in *.
  assert (Hrn : no_nl rmsg) by (now apply Hnl).
  assert (Hrs : no_semi_end rmsg) by (apply conflict_notice_semi; exact Hvs).
  assert (Q : queued_reqs n (fst (exec n c (RqSet key value ver))) = [rec_text dbn key (n_clock n) rmsg])
    by (apply (record_queued _ _ _ _ _ _ _ R); [lia|exact Hrs]).
  rewrite Q.
  destruct (conflict_lines_apply_on_secondary s l dbn key (n_clock n) rmsg dp ds old (n_clock n + 1)
              Hd Hk Hrn Hrs Ha Eds Np Ns Hag Eo Wp Ws) as (ds' & D' & _ & _ & A1 & A2 & A3 & A4 & A5 & _).
  exists old, (db_conflict dp key old (rec_key key (n_clock n)) rmsg (n_clock n + 1)), ds'.
  repeat (split; auto).
Qed.

(* back to Z: version bounds *)
Local Open Scope Z_scope.

(* versions of the records of [key] stay in a range where plain writes succeed *)
Definition recs_ok (key : str) (B : Z) (d : db) : Prop :=
  forall opid r, get_value d (rec_key key opid) = Some r -> -1 <= v_ver r <= B.
(* the key exists, at a version of at most [B] *)
Definition key_ok (key : str) (B : Z) (d : db) : Prop :=
  exists v o, kstate d key = Some (v, o) /\ o <= B.

Lemma recs_ok_mono key B B' d : B <= B' -> recs_ok key B d -> recs_ok key B' d.
Proof. intros H R opid r E. specialize (R opid r E). lia. Qed.
Lemma key_ok_mono key B B' d : B <= B' -> key_ok key B d -> key_ok key B' d.
Proof. intros H (v & o & E & Ho). exists v, o. split; auto. lia. Qed.

Lemma recs_ok_writable key B d opid : B < i32_max -> recs_ok key B d -> rec_writable d (rec_key key opid).
Proof.
  intros HB R. unfold rec_writable. destruct (get_value d (rec_key key opid)) as [r|] eqn:E; auto.
  specialize (R opid r E). lia.
Qed.

Lemma recs_ok_plain key B d opid txt clk : -1 <= B -> B < i32_max -> recs_ok key B d ->
  recs_ok key (B + 1) (db_set d (mkCh (rec_key key opid) txt (-1) clk false)).
Proof.
  intros HB0 HB R o r.
  destruct (db_set_plain d (rec_key key opid) txt clk (recs_ok_writable key B d opid HB R)) as (_ & v & -> & _ & _ & Hv).
  destruct (String.eqb_spec (rec_key key o) (rec_key key opid)) as [->|Hne].
  - rewrite gv_put_same. intros [= <-]. rewrite Hv.
    destruct (get_value d (rec_key key opid)) as [r0|] eqn:E; [|lia]. specialize (R opid r0 E). lia.
  - rewrite gv_put_other by assumption. intros E. specialize (R o r E). lia.
Qed.

Lemma recs_ok_keyset key B d ch : c_key ch = key -> recs_ok key B d -> recs_ok key B (db_set d ch).
Proof.
  intros Hk R o r. rewrite db_set_other; [apply R|]. rewrite Hk. apply rec_key_neq.
Qed.

Lemma recs_ok_mark key B d old : recs_ok key B d -> recs_ok key B (mark_conflict d key old).
Proof.
  intros R o r. unfold mark_conflict. rewrite gv_put_other by apply rec_key_neq. apply R.
Qed.

Lemma recs_ok_resolve key B d value ver opid clk : -1 <= B -> B < i32_max -> recs_ok key B d ->
  recs_ok key (B + 1) (db_resolve d key value ver opid clk).
Proof.
  intros HB0 HB R. rewrite db_resolve_eq. apply recs_ok_keyset; [apply res_ch_key|].
  unfold reg_ch. now apply recs_ok_plain.
Qed.

Lemma res_ver_le P o ver B : -2 <= B -> o <= B -> ver <= B -> res_ver P o ver <= B + 1.
Proof.
  intros HB Ho Hv. unfold res_ver. destruct P; [lia|].
  destruct (Z.eqb ver (-2)); [lia|]. destruct (Z.eqb o (-2)); [|lia].
  pose proof (sat_succ_le ver). lia.
Qed.

Section Run.
Variables (c l : nat) (dbn key : str).
Hypothesis Hdbn : simple_tok dbn.
Hypothesis Hkey : simple_tok key.

(* the events of the run, as seen by the arbiter client [c] of the primary *)
Inductive aev := AConflict (value : str) (ver : Z) | AResolve (opid : N) (value : str) (ver : Z).

Definition aev_rq (e : aev) : request :=
  match e with
  | AConflict value ver => RqSet key value ver
  | AResolve opid value ver => RqResolve opid dbn key value ver
  end.

(* the primary handles the request; the replica executes the request texts of the lines queued by it *)
Definition pstep (ns : node * node) (e : aev) : node * node :=
  let n' := fst (exec (fst ns) c (aev_rq e)) in
  (n', run_reqs (snd ns) l (queued_reqs (fst ns) n')).

(* the notice the primary would write for a conflicting write now *)
Definition notice_of (n : node) (value : str) (ver : Z) : option str :=
  match get_db n dbn with
  | Some d => match get_value d key with
              | Some old => Some (conflict_notice dbn d (mkCh key value ver (n_clock n) false) old)
              | None => None
              end
  | None => None
  end.

(* side conditions of one event, checked on the primary before the event *)
Definition aev_ok (B : Z) (n : node) (e : aev) : Prop :=
  (n_clock n + 3 <= 2 ^ 64)%N /\
  match e with
  | AConflict value ver =>
      no_semi_end value /\
      (* the primary held the write for the arbiter *)
      snd (handle n c (RqSet key value ver)) = RError ("$$conflitct unresolved " +++ rec_key key (n_clock n)) /\
      (forall rmsg, notice_of n value ver = Some rmsg -> no_nl rmsg)
  | AResolve opid value ver =>
      (opid < 2 ^ 64)%N /\ no_nl value /\ no_semi_end value /\ -2 <= ver <= B /\
      (* the primary accepted the resolve *)
      snd (handle n c (RqResolve opid dbn key value ver)) = ROk
  end.

(* [B] bounds the versions of the key and of its records on both nodes, so that no write of the run meets
   a saturated version (the run theorems ask [B + 2 * length evs < i32_max]).  An event raises it by 2:
   every write of a record adds one, and for a resolve the replica writes the record twice, once for the
   "replicate" line and once inside the "resolve" line *)
Record PInv (B : Z) (n s : node) : Prop := {
  pi_B : -1 <= B;
  pi_prim : is_primary n = true;
  pi_sel : s_db (get_sess n c) = Some dbn;
  pi_auth : s_auth (get_sess s l) = true;
  pi_link : sess_is_primary (get_sess s l) = true;
  pi_dbs : exists dp ds, get_db n dbn = Some dp /\ get_db s dbn = Some ds /\
             nodup_db dp /\ nodup_db ds /\ vagree key dp ds /\
             key_ok key B dp /\ key_ok key B ds /\ recs_ok key B dp /\ recs_ok key B ds }.

(* value, has_pending_conflict and version of the key in database [dbn] of a node *)
Definition kval_n (n : node) : option str :=
  match get_db n dbn with Some d => kval d key | None => None end.
Definition hpc_n (n : node) : option bool :=
  match get_db n dbn with Some d => Some (has_pending_conflict d key) | None => None end.
Definition kver_n (n : node) : option Z :=
  match get_db n dbn with Some d => kver d key | None => None end.

(* re-establishing the invariant after an event: the primary changed within [frame], the replica kept
   its sessions, and the two databases are within the new bound *)
Lemma PInv_step B B' n s n' s' dp ds :
  PInv B n s -> -1 <= B' -> frame n n' -> same_sess s s' ->
  get_db n' dbn = Some dp -> get_db s' dbn = Some ds -> nodup_db dp -> nodup_db ds -> vagree key dp ds ->
  key_ok key B' dp -> key_ok key B' ds -> recs_ok key B' dp -> recs_ok key B' ds ->
  PInv B' n' s'.
Proof.
  intros [_ Hp Hs Ha Hm _] HB F S Edp Eds Np Ns Hag Kp Ks Rp Rs. constructor.
  - exact HB.
  - rewrite (is_primary_frame n n' F). exact Hp.
  - rewrite <- Hs. apply (sattr_sdb _ _ (fr_sess _ _ F c)).
  - rewrite (same_sess_auth _ _ _ S). exact Ha.
  - rewrite (same_sess_is_primary _ _ _ S). exact Hm.
  - exists dp, ds. repeat (split; [assumption|]). assumption.
Qed.

Lemma pstep_resolve_inv B n s opid value ver :
  PInv B n s -> B + 2 < i32_max -> aev_ok B n (AResolve opid value ver) ->
  let ns' := pstep (n, s) (AResolve opid value ver) in
  PInv (B + 2) (fst ns') (snd ns') /\ kval_n (fst ns') = Some value /\
  (exists op os, kver_n n = Some op /\ kver_n s = Some os /\ os <= B /\
     exists P, hpc_n (fst ns') = Some P /\
               kver_n (fst ns') = Some (res_ver P op ver) /\ kver_n (snd ns') = Some (res_ver P os ver)).
Proof.
  intros HI HBB (Hclk & Hid & Hvn & Hvs & Hver & Hok).
  pose proof HI as [HB Hp Hs Ha Hm (dp & ds & Edp & Eds & Np & Ns & Hag & Kp & Ks & Rp & Rs)].
  cbv zeta. unfold pstep. cbn [fst snd aev_rq].
  assert (Hi32 : is_i32 ver) by (unfold is_i32, i32_max in *; lia).
  assert (HB1 : B < i32_max) by lia.
  destruct (resolve_queues_lines n c opid dbn key value ver dp Hp Hs Edp Hok) as (_ & R & D & _ & F).
  set (n' := fst (exec n c (RqResolve opid dbn key value ver))) in *.
  rewrite (resolve_queued _ _ _ _ _ _ _ _ _ R ltac:(lia) ltac:(lia) Hvs).
  destruct Kp as (vp & op & Kp & Hop). destruct Ks as (vs & os & Ks & Hos).
  assert (Wp := recs_ok_writable key B dp opid HB1 Rp).
  assert (Ws := recs_ok_writable key B ds opid HB1 Rs).
  destruct (sec_resolve_lines s l opid dbn key value ver ds Hid Hdbn Hkey Hvn Hvs Hi32 Ha Hm Eds Ws)
    as (c3 & D' & S' & _).
  set (s' := run_reqs s l _) in *.
  destruct (db_resolve_vagree dp ds key value ver opid (n_clock n) (n_clock s) c3 vp op vs os Np Ns Hag Wp Ws Kp Ks)
    as (P' & K1 & K2 & A'); try lia.
  set (P := has_pending_conflict (db_resolve dp key value ver opid (n_clock n)) key) in *.
  split; [|split].
  - refine (PInv_step B (B + 2) n s n' s' _ _ HI _ F S' D D' _ _ A' _ _ _ _).
    + lia.
    + now apply nodup_db_resolve.
    + now apply nodup_db_resolve_replica.
    + eexists _, _. split; [exact K1|]. pose proof (res_ver_le P op ver B). lia.
    + eexists _, _. split; [exact K2|]. pose proof (res_ver_le P os ver B). lia.
    + apply (recs_ok_mono key (B + 1)); [lia|]. now apply recs_ok_resolve.
    + unfold db_resolve_replica. replace (B + 2) with (B + 1 + 1) by lia.
      apply recs_ok_resolve; try lia. unfold reg_ch. now apply recs_ok_plain.
  - unfold kval_n. rewrite D, kval_kstate, K1. reflexivity.
  - exists op, os. split; [unfold kver_n; now rewrite Edp, kver_kstate, Kp|].
    split; [unfold kver_n; now rewrite Eds, kver_kstate, Ks|]. split; [exact Hos|].
    exists P. split; [unfold hpc_n; now rewrite D|].
    split; [unfold kver_n; now rewrite D, kver_kstate, K1|unfold kver_n; now rewrite D', kver_kstate, K2].
Qed.

Lemma pstep_conflict_inv B n s value ver :
  PInv B n s -> B + 2 < i32_max -> aev_ok B n (AConflict value ver) ->
  let ns' := pstep (n, s) (AConflict value ver) in
  PInv (B + 2) (fst ns') (snd ns') /\ kval_n (fst ns') = kval_n n /\
  (kver_n (fst ns') = Some (-2) /\ kver_n (snd ns') = kver_n s).
Proof.
  intros HI HBB (Hclk & Hvs & Hans & Hnl).
  pose proof HI as [HB Hp Hs Ha Hm (dp & ds & Edp & Eds & Np & Ns & Hag & Kp & Ks & Rp & Rs)].
  cbv zeta. unfold pstep. cbn [fst snd aev_rq].
  assert (HB1 : B < i32_max) by lia.
  destruct (conflict_answer_inv n c key value ver _ Hans) as (dbn' & d & old & G & Hst & Harb & Eo & Hr).
  destruct (guard_safe_go _ _ _ _ _ _ G) as [Hs' Ed']. rewrite Hs in Hs'. injection Hs' as <-.
  rewrite Edp in Ed'. injection Ed' as <-.
  destruct (conflict_queues_lines n c key value ver dbn dp old Hp G Hst Harb Eo Hr) as (_ & R & D & _ & F).
  set (rmsg := conflict_notice dbn dp (mkCh key value ver (n_clock n) false) old) in *.
  set (n' := fst (exec n c (RqSet key value ver))) in *.
  assert (Hrn : no_nl rmsg).
  { apply Hnl. unfold notice_of. now rewrite Edp, Eo. }
  assert (Hrs : no_semi_end rmsg) by (apply conflict_notice_semi; exact Hvs).
  rewrite (record_queued _ _ _ _ _ _ _ R) by (lia || exact Hrs). unfold run_reqs. cbn [fold_left].
  assert (Wp := recs_ok_writable key B dp (n_clock n) HB1 Rp).
  assert (Ws := recs_ok_writable key B ds (n_clock n) HB1 Rs).
  destruct (sec_record_step s l dbn ds key (n_clock n) rmsg Hdbn Hkey Hrn Hrs Ha Eds Ws) as (D1 & S1 & _).
  set (s' := fst (step s l _)) in *.
  destruct (db_conflict_vagree dp ds key old (rec_key key (n_clock n)) rmsg (n_clock n + 1)%N (n_clock s)
              Np Ns Hag Eo (rec_key_neq key (n_clock n)) Wp Ws) as (A1 & A2 & _ & _ & _ & A6).
  split; [|split].
  - refine (PInv_step B (B + 2) n s n' s' _ _ HI _ F S1 D D1 _ _ A6 _ _ _ _).
    + lia.
    + now apply nodup_db_conflict.
    + now apply nodup_db_set.
    + eexists _, _. split; [exact A1|]. lia.
    + destruct Ks as (vs & os & Ks & Hos). eexists _, _. split; [rewrite A2; exact Ks|]. lia.
    + apply (recs_ok_mono key (B + 1)); [lia|]. unfold db_conflict. apply recs_ok_plain; auto.
      now apply recs_ok_mark.
    + apply (recs_ok_mono key (B + 1)); [lia|]. now apply recs_ok_plain.
  - unfold kval_n. rewrite D, Edp, kval_kstate, A1. unfold kval. now rewrite Eo.
  - split; [unfold kver_n; now rewrite D, kver_kstate, A1|].
    unfold kver_n. now rewrite D1, Eds, !kver_kstate, A2.
Qed.

Definition run (ns : node * node) (evs : list aev) : node * node := fold_left pstep evs ns.

(* the side conditions along the run (the bound grows by 2 per event) *)
Fixpoint ok_run (B : Z) (ns : node * node) (evs : list aev) : Prop :=
  match evs with
  | [] => True
  | e :: r => aev_ok B (fst ns) e /\ ok_run (B + 2) (pstep ns e) r
  end.

(* the value of the last resolution in the list ([cur] when there is none) *)
Fixpoint last_res (evs : list aev) (cur : option str) : option str :=
  match evs with
  | [] => cur
  | AResolve _ v _ :: r => last_res r (Some v)
  | AConflict _ _ :: r => last_res r cur
  end.

Lemma last_res_snoc evs cur opid v ver : last_res (evs ++ [AResolve opid v ver]) cur = Some v.
Proof. revert cur. induction evs as [|[value ver0|o v0 ver0] r IH]; intros cur; cbn; auto. Qed.

(* one event at a time, from the state its step leads to *)
Lemma run_cons ns e r ns' : pstep ns e = ns' -> run ns (e :: r) = run ns' r.
Proof. now intros <-. Qed.

Lemma ok_run_cons B ns e r ns' :
  pstep ns e = ns' -> aev_ok B (fst ns) e -> ok_run (B + 2) ns' r -> ok_run B ns (e :: r).
Proof. intros <- He Hr. split; assumption. Qed.

(* the replica may lag in marking the key: its version equals the primary's, or the primary's is -2 *)
Definition vcoupled (n s : node) : Prop := kver_n n = kver_n s \/ kver_n n = Some (-2).

(* a faithful arbiter: when its resolution is the last pending one and the replica never marked the key,
   it answers with the version the replica holds (the version quoted in the notice), or with -2 *)
Definition faithful (ns : node * node) (e : aev) : Prop :=
  match e with
  | AResolve opid value ver =>
      forall os, kver_n (snd ns) = Some os -> os <> -2 ->
        hpc_n (fst (pstep ns e)) = Some false -> ver = os \/ ver = -2
  | AConflict _ _ => True
  end.
Fixpoint faithful_run (ns : node * node) (evs : list aev) : Prop :=
  match evs with
  | [] => True
  | e :: r => faithful ns e /\ faithful_run (pstep ns e) r
  end.

Lemma faithful_run_cons ns e r ns' :
  pstep ns e = ns' ->
  (forall opid value ver os, e = AResolve opid value ver -> kver_n (snd ns) = Some os -> os <> -2 ->
     hpc_n (fst ns') = Some false -> ver = os \/ ver = -2) ->
  faithful_run ns' r -> faithful_run ns (e :: r).
Proof.
  intros <- Hf Hr. split; [|exact Hr]. destruct e as [|opid value ver]; [exact I|].
  intros os. exact (Hf opid value ver os eq_refl).
Qed.

Lemma pstep_inv B n s e :
  PInv B n s -> B + 2 < i32_max -> aev_ok B n e ->
  let ns' := pstep (n, s) e in
  PInv (B + 2) (fst ns') (snd ns') /\ kval_n (fst ns') = last_res [e] (kval_n n) /\
  (faithful (n, s) e -> vcoupled n s -> vcoupled (fst ns') (snd ns')).
Proof.
  intros HI HB Hok. destruct e as [value ver|opid value ver]; cbv zeta.
  - destruct (pstep_conflict_inv B n s value ver HI HB Hok) as (A & K & V1 & _).
    split; [exact A|]. split; [exact K|]. intros _ _. now right.
  - destruct (pstep_resolve_inv B n s opid value ver HI HB Hok) as (A & K & op & os & Vn & Vs & Hos & P & HP & V1 & V2).
    split; [exact A|]. split; [exact K|]. intros Hf W.
    unfold vcoupled. rewrite V1, V2. unfold vcoupled in W. rewrite Vn, Vs in W.
    destruct W as [W|W]; injection W as ->; [now left|].
    destruct (Z.eq_dec os (-2)) as [->|Hne]; [now left|].
    destruct P; [right; reflexivity|].
    cbn [faithful] in Hf. destruct (Hf os Vs Hne HP) as [->| ->].
    + left. unfold res_ver. change (-2 =? -2) with true. cbv iota.
      destruct (Z.eqb_spec os (-2)) as [|_]; [contradiction|].
      unfold sat_succ. destruct (Z.ltb_spec os i32_max); [reflexivity|lia].
    + left. reflexivity.
Qed.

Lemma run_inv evs : forall B n s,
  PInv B n s -> ok_run B (n, s) evs -> B + 2 * Z.of_nat (List.length evs) < i32_max ->
  let ns' := run (n, s) evs in
  PInv (B + 2 * Z.of_nat (List.length evs)) (fst ns') (snd ns') /\
  kval_n (fst ns') = last_res evs (kval_n n) /\
  (faithful_run (n, s) evs -> vcoupled n s -> vcoupled (fst ns') (snd ns')).
Proof.
  induction evs as [|e r IH]; intros B n s HI Hok HB; cbv zeta.
  - cbn. replace (B + 0) with B by lia. auto.
  - cbn [ok_run fst] in Hok. destruct Hok as [He Hr].
    cbn [List.length] in HB. rewrite Nat2Z.inj_succ in HB.
    destruct (pstep_inv B n s e HI ltac:(lia) He) as (HI1 & Hk1 & Hv1).
    destruct (pstep (n, s) e) as [n1 s1] eqn:E. cbn [fst snd] in HI1, Hk1, Hv1.
    destruct (IH (B + 2) n1 s1 HI1 Hr) as (HI2 & Hk2 & Hv2); [lia|].
    rewrite (run_cons _ _ _ _ E). cbn [faithful_run List.length]. rewrite E, Nat2Z.inj_succ.
    replace (B + 2 * Z.succ (Z.of_nat (List.length r))) with (B + 2 + 2 * Z.of_nat (List.length r)) by lia.
    split; [exact HI2|]. split; [rewrite Hk2, Hk1; destruct e; reflexivity|].
    intros [Hfe Hfr] W. auto.
Qed.

(* starting from a primary and a replica that agree on the value of the key and on its pending
   records, any sequence of conflicting writes (held for the arbiter) and accepted resolves executed
   on the primary, each followed by the execution of its queued lines on the replica, keeps that
   agreement; the key holds, on both nodes, the value of the last resolution *)
Theorem C13_replica_holds_resolution B n s evs :
  PInv B n s -> ok_run B (n, s) evs -> B + 2 * Z.of_nat (List.length evs) < i32_max ->
  let ns' := run (n, s) evs in
  exists dp' ds', get_db (fst ns') dbn = Some dp' /\ get_db (snd ns') dbn = Some ds' /\
    kval ds' key = kval dp' key /\
    kval dp' key = last_res evs (kval_n n) /\
    has_pending_conflict ds' key = has_pending_conflict dp' key /\
    (forall ck, pend_text ds' key ck = pend_text dp' key ck).
Proof.
  intros HI Hok HB. cbv zeta.
  destruct (run_inv evs B n s HI Hok HB) as ([_ _ _ _ _ (dp & ds & Edp & Eds & Np & Ns & [Hv Hpd] & _)] & Hk & _).
  exists dp, ds. split; [exact Edp|]. split; [exact Eds|]. split; [now symmetry|].
  split. { unfold kval_n in Hk. now rewrite Edp in Hk. }
  split; [symmetry; now apply pending_conflict_agree|]. intros ck. now symmetry.
Qed.

(* in particular after a resolve: the replica holds the resolved value, and tells "still pending"
   exactly when the primary does *)
Corollary C13_replica_after_resolve B n s evs opid v ver :
  PInv B n s -> ok_run B (n, s) (evs ++ [AResolve opid v ver]) ->
  B + 2 * Z.of_nat (List.length (evs ++ [AResolve opid v ver])) < i32_max ->
  let ns' := run (n, s) (evs ++ [AResolve opid v ver]) in
  exists dp' ds', get_db (fst ns') dbn = Some dp' /\ get_db (snd ns') dbn = Some ds' /\
    kval dp' key = Some v /\ kval ds' key = Some v /\
    has_pending_conflict ds' key = has_pending_conflict dp' key.
Proof.
  intros HI Hok HB. cbv zeta.
  destruct (C13_replica_holds_resolution B n s _ HI Hok HB) as (dp' & ds' & E1 & E2 & V1 & V2 & P & _).
  rewrite last_res_snoc in V2. exists dp', ds'. repeat (split; auto). congruence.
Qed.

(* with a faithful arbiter, whenever the primary's key is not in conflict after the
   run, the replica holds the same version (and, by [C13_replica_holds_resolution], the same value) *)
Theorem C13_replica_version B n s evs :
  PInv B n s -> ok_run B (n, s) evs -> faithful_run (n, s) evs ->
  B + 2 * Z.of_nat (List.length evs) < i32_max -> vcoupled n s ->
  let ns' := run (n, s) evs in
  forall dp' ds', get_db (fst ns') dbn = Some dp' -> get_db (snd ns') dbn = Some ds' ->
    kver dp' key <> Some (-2) -> kstate ds' key = kstate dp' key.
Proof.
  intros HI Hok Hf HB W. cbv zeta. intros dp' ds' E1 E2 Hne.
  pose proof (proj2 (proj2 (run_inv evs B n s HI Hok HB)) Hf W) as V. unfold vcoupled, kver_n in V. rewrite E1, E2 in V.
  destruct V as [V|V]; [|contradiction].
  destruct (C13_replica_holds_resolution B n s evs HI Hok HB) as (dp2 & ds2 & F1 & F2 & Hv & _).
  cbv zeta in F1, F2. rewrite E1 in F1. rewrite E2 in F2. injection F1 as <-. injection F2 as <-.
  unfold kval in Hv. unfold kver in V. unfold kstate.
  destruct (get_value ds' key) as [vs|], (get_value dp' key) as [vp|]; cbn in *; try congruence.
Qed.

End Run.


Definition ostr_eqb (a b : option str) : bool :=
  match a, b with Some x, Some y => String.eqb x y | None, None => true | _, _ => false end.
Lemma ostr_eqb_eq a b : ostr_eqb a b = true -> a = b.
Proof. destruct a, b; cbn; try discriminate; auto. intros H. apply String.eqb_eq in H. now subst. Qed.

(* finite check of "same pending records" *)
Lemma pend_agree_fin dp ds key :
  forallb (fun k => ostr_eqb (pend_text dp key k) (pend_text ds key k))
          (map fst (d_map dp) ++ map fst (d_map ds)) = true ->
  forall ck, pend_text dp key ck = pend_text ds key ck.
Proof.
  intros H ck. rewrite forallb_forall in H.
  destruct (get_value dp ck) as [v|] eqn:E1.
  { apply ostr_eqb_eq, H, in_or_app. left.
    apply str_get_in in E1. change ck with (fst (ck, v)). now apply in_map. }
  destruct (get_value ds ck) as [v|] eqn:E2.
  { apply ostr_eqb_eq, H, in_or_app. right.
    apply str_get_in in E2. change ck with (fst (ck, v)). now apply in_map. }
  unfold pend_text. now rewrite E1, E2.
Qed.

(* a primary with an arbiter database "d", an admin client (session 0) that selected it and registered
   as arbiter, key k = b at version 1 *)
Definition ex_p0 : node := Eval vm_compute in
  fst (run_lines (fst (connect (init_node "u" "pw" "p1" 3 Primary 10))) 0
    ["auth u pw"; "create-db d tok arbiter"; "use-db d tok"; "arbiter"; "set k a"; "set k b"]).
(* a secondary whose session 0 is the link from the primary (auth, set-primary), same content *)
Definition ex_s0 : node := Eval vm_compute in
  fst (run_lines (fst (connect (init_node "u" "pw" "s1" 2 Secondary 10))) 0
    ["auth u pw"; "set-primary p1"; "create-db d tok arbiter"; "replicate d k -1 a"; "replicate d k -1 b"]).

Definition ex_view (n : node) : option (list (str * str * Z)) :=
  option_map (fun d => map (fun kv => (fst kv, v_val (snd kv), v_ver (snd kv))) (d_map d)) (get_db n "d").

Ltac nodup_tac := unfold nodup_db; cbn; repeat constructor; cbn; intuition discriminate.

Example ex_pinv0 : PInv 0 0 "d" "k" 1 ex_p0 ex_s0.
Proof.
  constructor; try reflexivity; try lia.
  eexists _, _. split; [reflexivity|]. split; [reflexivity|].
  split; [nodup_tac|]. split; [nodup_tac|].
  split. { split; [reflexivity|]. apply pend_agree_fin. vm_compute. reflexivity. }
  split. { exists "b", 1. split; [reflexivity|lia]. }
  split. { exists "b", 1. split; [reflexivity|lia]. }
  split; intros opid r E; vm_compute in E; discriminate E.
Qed.

(* two conflicting writes, then the two resolutions (faithful arbiter: it answers with the version of the notice).
   The numbers in this run are not chosen: 20 and 23 are the op ids (clock values) the two conflicting writes
   draw on ex_p0, and the "rp 22", "rp 27", "rp 28" of the queued lines are clock values as well; the bound 1
   of [PInv] is the version of k in ex_p0 *)
Definition ex_evs : list aev := [AConflict "c" 0; AConflict "e" 0; AResolve 20 "X" 1; AResolve 23 "Y" 1].

Definition ex_st1 := Eval vm_compute in pstep 0 0 "d" "k" (ex_p0, ex_s0) (AConflict "c" 0).
Definition ex_st2 := Eval vm_compute in pstep 0 0 "d" "k" ex_st1 (AConflict "e" 0).
Definition ex_st3 := Eval vm_compute in pstep 0 0 "d" "k" ex_st2 (AResolve 20 "X" 1).
Definition ex_st4 := Eval vm_compute in pstep 0 0 "d" "k" ex_st3 (AResolve 23 "Y" 1).

Lemma ex_steps :
  pstep 0 0 "d" "k" (ex_p0, ex_s0) (AConflict "c" 0) = ex_st1 /\
  pstep 0 0 "d" "k" ex_st1 (AConflict "e" 0) = ex_st2 /\
  pstep 0 0 "d" "k" ex_st2 (AResolve 20 "X" 1) = ex_st3 /\
  pstep 0 0 "d" "k" ex_st3 (AResolve 23 "Y" 1) = ex_st4.
Proof.
  (* a cast of [eq_refl ex_stN]: after [vm_compute] the proof term would carry the states written out *)
  repeat split; match goal with |- ?a = ?b => exact (eq_refl b <: a = b) end.
Qed.

Example ex_run_ok : ok_run 0 0 "d" "k" 1 (ex_p0, ex_s0) ex_evs.
Proof.
  destruct ex_steps as (E1 & E2 & E3 & _).
  apply (ok_run_cons _ _ _ _ _ _ _ _ _ E1); [|apply (ok_run_cons _ _ _ _ _ _ _ _ _ E2);
    [|apply (ok_run_cons _ _ _ _ _ _ _ _ _ E3); [|split; [|exact I]]]].
  - split; [vm_compute; discriminate|]. split; [vm_compute; discriminate|]. split; [vm_compute; reflexivity|].
    intros rmsg E. vm_compute in E. injection E as <-. reflexivity.
  - split; [vm_compute; discriminate|]. split; [vm_compute; discriminate|]. split; [vm_compute; reflexivity|].
    intros rmsg E. vm_compute in E. injection E as <-. reflexivity.
  - split; [vm_compute; discriminate|]. split; [reflexivity|]. split; [reflexivity|].
    split; [vm_compute; discriminate|]. split; [lia|]. vm_compute. reflexivity.
  - split; [vm_compute; discriminate|]. split; [reflexivity|]. split; [reflexivity|].
    split; [vm_compute; discriminate|]. split; [lia|]. vm_compute. reflexivity.
Qed.

(* the theorem applies to the run ... *)
Example ex_run_theorem :
  exists dp' ds', get_db (fst (run 0 0 "d" "k" (ex_p0, ex_s0) ex_evs)) "d" = Some dp' /\
    get_db (snd (run 0 0 "d" "k" (ex_p0, ex_s0) ex_evs)) "d" = Some ds' /\
    kval dp' "k" = Some "Y" /\ kval ds' "k" = Some "Y" /\
    has_pending_conflict ds' "k" = has_pending_conflict dp' "k".
Proof.
  apply (C13_replica_after_resolve 0 0 "d" "k" ltac:(solve_tok) ltac:(solve_tok) 1 ex_p0 ex_s0
           [AConflict "c" 0; AConflict "e" 0; AResolve 20 "X" 1] 23 "Y" 1).
  - exact ex_pinv0.
  - exact ex_run_ok.
  - vm_compute. reflexivity.
Qed.

(* ... and the computed states show what happens at each step *)
Example ex_run_states :
  (* after the first conflicting write: the primary marks the key, the replica does NOT *)
  ex_view (fst ex_st1) = Some [("$$token", "tok", 0); ("$connections", "1", 0); ("k", "b", -2);
                               ("$conflicts_k_20", "resolve 20 d 1 k b c", 0)] /\
  ex_view (snd ex_st1) = Some [("$$token", "tok", 0); ("k", "b", 1);
                               ("$conflicts_k_20", "resolve 20 d 1 k b c", 0)] /\
  (* first resolution, another conflict pending: both -2, value X *)
  ex_view (fst ex_st3) = Some [("$$token", "tok", 0); ("$connections", "1", 0); ("k", "X", -2);
                               ("$conflicts_k_20", "resolved X", 1);
                               ("$conflicts_k_23", "resolve 23 d 1 k $conflicts_k_20 e", 0)] /\
  ex_view (snd ex_st3) = Some [("$$token", "tok", 0); ("k", "X", -2);
                               ("$conflicts_k_20", "resolved X", 2);
                               ("$conflicts_k_23", "resolve 23 d 1 k $conflicts_k_20 e", 0)] /\
  (* last resolution: both hold Y at version 2; the records' versions differ (1 / 2) *)
  ex_view (fst ex_st4) = Some [("$$token", "tok", 0); ("$connections", "1", 0); ("k", "Y", 2);
                               ("$conflicts_k_20", "resolved X", 1); ("$conflicts_k_23", "resolved Y", 1)] /\
  ex_view (snd ex_st4) = Some [("$$token", "tok", 0); ("k", "Y", 2);
                               ("$conflicts_k_20", "resolved X", 2); ("$conflicts_k_23", "resolved Y", 2)] /\
  run 0 0 "d" "k" (ex_p0, ex_s0) ex_evs = ex_st4.
Proof.
  do 6 (split; [vm_compute; reflexivity|]).
  destruct ex_steps as (E1 & E2 & E3 & E4). unfold ex_evs.
  now rewrite (run_cons _ _ _ _ _ _ _ _ E1), (run_cons _ _ _ _ _ _ _ _ E2), (run_cons _ _ _ _ _ _ _ _ E3),
    (run_cons _ _ _ _ _ _ _ _ E4).
Qed.

(* the hypotheses of [resolve_queues_lines] hold on the primary after the two conflicting writes *)
Example ex_goal1 :
  is_primary (fst ex_st2) = true /\ s_db (get_sess (fst ex_st2) 0) = Some "d" /\
  snd (handle (fst ex_st2) 0 (RqResolve 20 "d" "k" "X" 1)) = ROk /\
  n_repl (fst (exec (fst ex_st2) 0 (RqResolve 20 "d" "k" "X" 1))) =
    n_repl (fst ex_st2) ++ ["rp 27 replicate d $conflicts_k_20 -1 resolved X"; "rp 28 resolve 20 d k 1 X"] /\
  step (fst ex_st2) 0 "resolve 20 d k 1 X" = exec (fst ex_st2) 0 (RqResolve 20 "d" "k" "X" 1).
Proof. vm_compute. repeat split; reflexivity. Qed.

(* strict agreement ([agree], as [resolve_lines_apply_on_secondary] needs it) holds before the second resolution: both nodes have k = X at -2 and the
   same pending record *)
Example ex_goal2_hyps :
  exists dp ds, get_db (fst ex_st3) "d" = Some dp /\ get_db (snd ex_st3) "d" = Some ds /\
    nodup_db dp /\ nodup_db ds /\ agree "k" dp ds /\
    rec_writable dp (rec_key "k" 23) /\ rec_writable ds (rec_key "k" 23) /\
    s_auth (get_sess (snd ex_st3) 0) = true /\ sess_is_primary (get_sess (snd ex_st3) 0) = true /\
    pend_text dp "k" "$conflicts_k_23" = Some "resolve 23 d 1 k $conflicts_k_20 e".
Proof.
  eexists _, _. split; [reflexivity|]. split; [reflexivity|].
  split; [nodup_tac|]. split; [nodup_tac|].
  split. { split; [reflexivity|]. apply pend_agree_fin. vm_compute. reflexivity. }
  split; [vm_compute; split; [discriminate|reflexivity]|].
  split; [vm_compute; split; [discriminate|reflexivity]|].
  repeat split; reflexivity.
Qed.

(* the hypotheses of [conflict_queues_lines] hold on ex_p0 for "set-safe k 0 c" *)
Example ex_goal3_hyps :
  exists d old, guard_safe ex_p0 0 "k" PWrite = GGo "d" d /\ d_strat d = SArbiter /\ has_arbiter d = true /\
    get_value d "k" = Some old /\ ver_refused (mkCh "k" "c" 0 (n_clock ex_p0) false) old = true /\
    conflict_notice "d" d (mkCh "k" "c" 0 (n_clock ex_p0) false) old = "resolve 20 d 1 k b c" /\
    parse_request "set-safe k 0 c" = POk (RqSet "k" "c" 0).
Proof.
  (* closed witnesses, so that every conjunct is decided by evaluation alone *)
  set (d := match get_db ex_p0 "d" with Some d => d | None => empty_db 0 SNone end).
  exists d, (match get_value d "k" with Some v => v | None => mkV "" 0 0 VOk 0 0 end).
  vm_compute. repeat split; reflexivity.
Qed.

(* only the record is queued for replication; the replica's key keeps its version and stays writable there *)
Example replica_key_not_marked :
  n_repl (fst ex_st1) = n_repl ex_p0 ++ ["rp 22 replicate d $conflicts_k_20 -1 resolve 20 d 1 k b c"] /\
  option_map (fun d => kstate d "k") (get_db (fst ex_st1) "d") = Some (Some ("b", -2)) /\
  option_map (fun d => kstate d "k") (get_db (snd ex_st1) "d") = Some (Some ("b", 1)).
Proof. vm_compute. repeat split; reflexivity. Qed.

(* version agreement after the LAST resolve needs an arbiter that answers with the version it was
   told in the notice (here 1): with another version the primary ends at ver+1, the replica (which
   was never in conflict) at its own version + 1 *)
Definition ex_st2_bad := Eval vm_compute in pstep 0 0 "d" "k" ex_st1 (AResolve 20 "X" 7).
Example replica_version_differs :
  aev_ok 0 "d" "k" 7 (fst ex_st1) (AResolve 20 "X" 7) /\
  option_map (fun d => kstate d "k") (get_db (fst ex_st2_bad) "d") = Some (Some ("X", 8)) /\
  option_map (fun d => kstate d "k") (get_db (snd ex_st2_bad) "d") = Some (Some ("X", 2)).
Proof.
  split; [|vm_compute; split; reflexivity].
  split; [vm_compute; discriminate|]. split; [reflexivity|]. split; [reflexivity|].
  split; [vm_compute; discriminate|]. split; [lia|]. vm_compute. reflexivity.
Qed.
(* ... and with the faithful answer both end at version 2 *)
Definition ex_st2_good := Eval vm_compute in pstep 0 0 "d" "k" ex_st1 (AResolve 20 "X" 1).
Example replica_version_same_when_faithful :
  option_map (fun d => kstate d "k") (get_db (fst ex_st2_good) "d") = Some (Some ("X", 2)) /\
  option_map (fun d => kstate d "k") (get_db (snd ex_st2_good) "d") = Some (Some ("X", 2)).
Proof. vm_compute. split; reflexivity. Qed.

(* the versions of the "$conflicts_" records differ: the replica writes the record twice (once for
   the "replicate" line, once inside the "resolve" line) *)
Example record_versions_differ :
  option_map (fun d => kstate d "$conflicts_k_20") (get_db (fst ex_st2_good) "d") = Some (Some ("resolved X", 1)) /\
  option_map (fun d => kstate d "$conflicts_k_20") (get_db (snd ex_st2_good) "d") = Some (Some ("resolved X", 2)).
Proof. vm_compute. split; reflexivity. Qed.

Example ex_run_faithful : faithful_run 0 0 "d" "k" (ex_p0, ex_s0) ex_evs.
Proof.
  destruct ex_steps as (E1 & E2 & E3 & E4).
  apply (faithful_run_cons _ _ _ _ _ _ _ _ E1); [discriminate|].
  apply (faithful_run_cons _ _ _ _ _ _ _ _ E2); [discriminate|].
  apply (faithful_run_cons _ _ _ _ _ _ _ _ E3).
  { intros opid value ver os _ _ _ H. vm_compute in H. discriminate H. }          (* another conflict is pending *)
  apply (faithful_run_cons _ _ _ _ _ _ _ _ E4); [|exact I].
  intros opid value ver os _ H Hne _. vm_compute in H. injection H as <-. now contradiction Hne.   (* the replica is at -2 *)
Qed.

Example ex_run_version :
  forall dp' ds', get_db (fst (run 0 0 "d" "k" (ex_p0, ex_s0) ex_evs)) "d" = Some dp' ->
    get_db (snd (run 0 0 "d" "k" (ex_p0, ex_s0) ex_evs)) "d" = Some ds' ->
    kver dp' "k" <> Some (-2)%Z -> kstate ds' "k" = kstate dp' "k".
Proof.
  apply (C13_replica_version 0 0 "d" "k" ltac:(solve_tok) ltac:(solve_tok) 1 ex_p0 ex_s0 ex_evs).
  - exact ex_pinv0.
  - exact ex_run_ok.
  - exact ex_run_faithful.
  - vm_compute. reflexivity.
  - left. reflexivity.
Qed.

(* the answer of [replica_version_differs] (version 7 for a notice that said 1) is not faithful *)
Example unfaithful_answer : ~ faithful 0 0 "d" "k" ex_st1 (AResolve 20 "X" 7%Z).
Proof.
  intros H. cbn [faithful] in H.
  assert (A : 7%Z = 1%Z \/ 7%Z = (-2)%Z).
  { apply (H 1%Z); [vm_compute; reflexivity|discriminate|vm_compute; reflexivity]. }
  destruct A as [A|A]; discriminate A.
Qed.

(* executing the "resolve" line, a Secondary sends the record line BACK to the primary
   ([replicate_change_secondary]) *)
Example replica_echoes_record :
  let s := add_member (snd ex_st1) "p1" Primary in
  n_members (run_reqs s 0 ["replicate d $conflicts_k_20 -1 resolved X"; "resolve 20 d k 1 X"]) =
  [("p1", (Primary, ["replicate d $conflicts_k_20 -1 resolved X"]))].
Proof. vm_compute. reflexivity. Qed.

(* single node: [list_conflicts_keys] tests a plain prefix, so the conflicts of a key that contains '*'
   queue like those of any other key: the first resolution leaves "a*b" at -2 with the second conflict
   pending, the second one frees it.  (24 and 27 are the op ids the two conflicting writes draw on ex_p0.) *)
Definition ex_star1 := Eval vm_compute in
  fst (run_lines ex_p0 0 ["set a*b 1"; "set a*b 2"; "set-safe a*b 0 c"; "set-safe a*b 0 e"; "resolve 24 d a*b 1 X"]).
Definition ex_star2 := Eval vm_compute in fst (run_lines ex_star1 0 ["resolve 27 d a*b 1 Y"]).
Example star_key_conflicts_queue :
  option_map (fun d => (kstate d "a*b", kval d "$conflicts_a*b_24", kval d "$conflicts_a*b_27",
                        list_conflicts_keys d "a*b", has_pending_conflict d "a*b")) (get_db ex_star1 "d") =
  Some (Some ("X", -2), Some "resolved X", Some "resolve 27 d 1 a*b $conflicts_a*b_24 e",
        ["$conflicts_a*b_24"; "$conflicts_a*b_27"], true) /\
  option_map (fun d => (kstate d "a*b", kval d "$conflicts_a*b_27", has_pending_conflict d "a*b")) (get_db ex_star2 "d") =
  Some (Some ("Y", 2), Some "resolved Y", false).
Proof. vm_compute. split; reflexivity. Qed.

(* N again: link ids and clocks *)
Local Open Scope N_scope.

(* the node part of [deliver_raw]: handle the line, answer "ok"/"error ...", hand the inbox to the link *)
Definition deliver_node (s : node) (l : nat) (ln : str) : node :=
  let '(n1, r) := step s l ln in
  let status := match r with RError msg => "error " +++ msg +++ " " +++ nlS | _ => "ok " +++ nlS end in
  fst (drain (send n1 l status) l).

(* the line delivered in its envelope: the node is that of the bare request executed on [sa], the
   node that has queued the acknowledgement, up to what the link sessions hold *)
Lemma deliver_rp s l id req rq :
  id < 2 ^ 64 -> req <> "" -> no_semi_end req -> no_nl req ->
  parse_request (trim_char nl req) = POk rq -> (forall r i, rq <> RqReplicateRequest r i) ->
  s_auth (get_sess s l) = true ->
  exists sa, n_dbs sa = n_dbs s /\ same_sess s sa /\ n_role sa = n_role s /\ n_clock sa = n_clock s /\
    let s1 := fst (step sa l req) in
    let s' := deliver_node s l (rp_line id req) in
    n_dbs s' = n_dbs s1 /\ (same_sess sa s1 -> same_sess s s') /\ (n_role s1 = n_role sa -> n_role s' = n_role s).
Proof.
  intros Hid Hne Hsemi Hnl Hp Hnrp Ha.
  exists (send s l ("ack " +++ N_to_str id +++ " " +++ n_addr s +++ " " +++ nlS)).
  set (sa := send s l _). pose proof (same_sess_frame _ _ (frame_send s l _) : same_sess s sa) as S0.
  split; [apply n_dbs_send|]. split; [exact S0|]. split; [reflexivity|]. split; [reflexivity|]. cbv zeta.
  unfold deliver_node. rewrite (step_rp s l id req rq) by assumption.
  fold sa. destruct (step sa l req) as [s1 r0]. cbn [fst].
  pose proof (rr_rp_fst s1 req id (s_db (get_sess s l)) r0) as E.
  destruct (replicate_request s1 _ _ r0) as [n1 r]. cbn [fst] in E. subst n1. cbv zeta.
  assert (F : forall m, frame s1 (fst (drain (send s1 l m) l)))
    by (intros m; eapply frame_trans; [apply frame_send|apply frame_drain]).
  split; [unfold drain; cbn [fst]; rewrite n_dbs_put_sess; apply n_dbs_send|].
  split; [intros S1; eapply same_sess_trans; [exact S0|]; eapply same_sess_trans; [exact S1|apply same_sess_frame, F]|].
  intros R1. rewrite (fr_role _ _ (F _)). exact R1.
Qed.

Lemma deliver_record_line s l id dbn ds key opid txt :
  id < 2 ^ 64 -> simple_tok dbn -> simple_tok key -> no_nl txt -> no_semi_end txt ->
  s_auth (get_sess s l) = true -> get_db s dbn = Some ds -> rec_writable ds (rec_key key opid) ->
  let s' := deliver_node s l (rp_line id (rec_text dbn key opid txt)) in
  get_db s' dbn = Some (db_set ds (mkCh (rec_key key opid) txt (-1) (n_clock s) false)) /\
  same_sess s s' /\ n_role s' = n_role s.
Proof.
  intros Hid Hd Hk Htn Hts Ha Ed Hw. cbv zeta.
  destruct (deliver_rp s l id (rec_text dbn key opid txt) (RqReplicateSet dbn (rec_key key opid) txt (-1)) Hid
              ltac:(discriminate) (replicate_msg_semi _ _ _ _ Hts)
              (no_nl_rec_text _ _ _ _ (tok_no_nl _ Hd) (tok_no_nl _ Hk) Htn)
              (rec_text_parse dbn key opid txt (tok_no_sp _ Hd) (tok_no_sp _ Hk) (tok_no_nl _ Hk) Htn Hts)
              ltac:(discriminate) Ha) as (sa & D0 & S0 & R0 & C0 & D & S & R).
  assert (Ha0 : s_auth (get_sess sa l) = true) by (rewrite (same_sess_auth _ _ _ S0); exact Ha).
  assert (Ed0 : get_db sa dbn = Some ds) by (unfold get_db; rewrite D0; exact Ed).
  destruct (sec_record_step sa l dbn ds key opid txt Hd Hk Htn Hts Ha0 Ed0 Hw) as (D1 & S1 & R1).
  split; [unfold get_db; rewrite D, <- C0; exact D1|]. split; [exact (S S1)|exact (R R1)].
Qed.

Lemma deliver_resolve_line s l id opid dbn key value ver ds :
  id < 2 ^ 64 -> opid < 2 ^ 64 -> simple_tok dbn -> simple_tok key -> no_nl value -> no_semi_end value -> is_i32 ver ->
  s_auth (get_sess s l) = true -> sess_is_primary (get_sess s l) = true -> get_db s dbn = Some ds ->
  let s' := deliver_node s l (rp_line id (resolve_text opid dbn key ver value)) in
  get_db s' dbn = Some (db_resolve ds key value ver opid (n_clock s)) /\
  same_sess s s' /\ n_role s' = n_role s.
Proof.
  intros Hid Hoid Hd Hk Hvn Hvs Hver Ha Hm Ed. cbv zeta.
  pose proof (resolve_text_parse opid dbn key ver value Hoid Hd Hk Hvn Hvs Hver) as Hp.
  destruct (deliver_rp s l id (resolve_text opid dbn key ver value) (RqResolve opid dbn key value ver) Hid
              ltac:(discriminate) (resolve_text_semi _ _ _ _ _ Hvs)
              (no_nl_resolve_text _ _ _ _ _ (tok_no_nl _ Hd) (tok_no_nl _ Hk) Hvn) Hp
              ltac:(discriminate) Ha) as (sa & D0 & S0 & R0 & C0 & D & S & R).
  destruct (same_sess_link _ _ l S0 Ha Hm) as [Ha0 Hm0].
  assert (Ed0 : get_db sa dbn = Some ds) by (unfold get_db; rewrite D0; exact Ed).
  destruct (sec_resolve_step sa l opid dbn key value ver ds Hoid Hd Hk Hvn Hvs Hver Ha0 Hm0 Ed0) as (D1 & S1 & R1).
  split; [unfold get_db; rewrite D, <- C0; exact D1|]. split; [exact (S S1)|exact (R R1)].
Qed.

(* [resolve_lines_apply_on_secondary] on the lines as delivered by [deliver_raw] (envelope, acknowledgement, reply, drained inbox) *)
Theorem resolve_lines_delivered s l id1 id2 opid dbn key value ver dp ds cp :
  id1 < 2 ^ 64 -> id2 < 2 ^ 64 ->
  (opid < 2 ^ 64) -> simple_tok dbn -> simple_tok key -> no_nl value -> no_semi_end value -> is_i32 ver ->
  s_auth (get_sess s l) = true -> sess_is_primary (get_sess s l) = true ->
  get_db s dbn = Some ds -> nodup_db dp -> nodup_db ds ->
  rec_writable dp (rec_key key opid) -> rec_writable ds (rec_key key opid) ->
  agree key dp ds ->
  let s1 := deliver_node s l (rp_line id1 (rec_text dbn key opid ("resolved " +++ value))) in
  let s2 := deliver_node s1 l (rp_line id2 (resolve_text opid dbn key ver value)) in
  exists ds', get_db s2 dbn = Some ds' /\ nodup_db ds' /\
    agree key (db_resolve dp key value ver opid cp) ds' /\
    has_pending_conflict ds' key = has_pending_conflict (db_resolve dp key value ver opid cp) key /\
    same_sess s s2.
Proof.
  intros Hi1 Hi2 Hid Hd Hk Hvn Hvs Hver Ha Hm Ed Np Ns Wp Ws Hag. cbv zeta.
  destruct (deliver_record_line s l id1 dbn ds key opid ("resolved " +++ value) Hi1 Hd Hk
              (no_nl_resolved _ Hvn) (no_semi_resolved _ Hvs) Ha Ed Ws) as (D1 & S1 & _).
  set (s1 := deliver_node s l _) in *.
  destruct (same_sess_link _ _ l S1 Ha Hm) as [Ha1 Hm1].
  destruct (deliver_resolve_line s1 l id2 opid dbn key value ver _ Hi2 Hid Hd Hk Hvn Hvs Hver Ha1 Hm1 D1) as (D2 & S2 & _).
  exists (db_resolve_replica ds key value ver opid (n_clock s) (n_clock s1)).
  destruct (db_resolve_agree dp ds key value ver opid cp (n_clock s) (n_clock s1) Np Ns Hag Wp Ws) as [A P].
  split; [exact D2|]. split; [now apply nodup_db_resolve_replica|].
  split; [exact A|]. split; [exact P|eapply same_sess_trans; eauto].
Qed.

(* [conflict_lines_apply_on_secondary] on the line as delivered *)
Theorem conflict_line_delivered s l id dbn key opid rmsg dp ds old cp :
  id < 2 ^ 64 -> simple_tok dbn -> simple_tok key -> no_nl rmsg -> no_semi_end rmsg ->
  s_auth (get_sess s l) = true -> get_db s dbn = Some ds ->
  nodup_db dp -> nodup_db ds -> vagree key dp ds -> get_value dp key = Some old ->
  rec_writable dp (rec_key key opid) -> rec_writable ds (rec_key key opid) ->
  let s' := deliver_node s l (rp_line id (rec_text dbn key opid rmsg)) in
  let dp' := db_conflict dp key old (rec_key key opid) rmsg cp in
  exists ds', get_db s' dbn = Some ds' /\ nodup_db ds' /\
    kstate dp' key = Some (v_val old, (-2)%Z) /\ kstate ds' key = kstate ds key /\
    kval dp' (rec_key key opid) = Some rmsg /\ kval ds' (rec_key key opid) = Some rmsg /\
    vagree key dp' ds' /\ same_sess s s'.
Proof.
  intros Hid Hd Hk Hrn Hrs Ha Ed Np Ns Hag Eo Wp Ws. cbv zeta.
  destruct (deliver_record_line s l id dbn ds key opid rmsg Hid Hd Hk Hrn Hrs Ha Ed Ws) as (D1 & S1 & _).
  eexists. split; [exact D1|].
  destruct (db_conflict_vagree dp ds key old (rec_key key opid) rmsg cp (n_clock s) Np Ns Hag Eo (rec_key_neq key opid) Wp Ws)
    as (A1 & A2 & A3 & A4 & _ & A6).
  split; [now apply nodup_db_set|]. exact (conj A1 (conj A2 (conj A3 (conj A4 (conj A6 S1))))).
Qed.

(* [deliver_raw] on a link whose next line is [ln]: the receiving node becomes
        [deliver_node] of it (its outboxes then moved to the links by flush_outboxes) *)
Lemma deliver_raw_node c i lk ln rest x :
  nth_error (c_links c) i = Some lk -> l_open lk = true -> l_hs lk = [] -> l_q lk = ln :: rest ->
  get_cn c (l_to lk) = Some x ->
  exists c' x', deliver_raw c i = Some c' /\ get_cn c' (l_to lk) = Some x' /\
    cn_node x' = clean_members (deliver_node (cn_node x) (l_server lk) ln).
Proof.
  intros Hn Ho Hh Hq Hx. rewrite (deliver_raw_eq c i lk ln rest x Hn Ho Hh Hq Hx). unfold deliver_node.
  destruct (step (cn_node x) (l_server lk) ln) as [n1 r]. cbv zeta. unfold drain. cbv beta iota. cbn [fst].
  do 2 eexists. split; [reflexivity|].
  split; [apply flush_get_same; unfold get_cn, put_cn; cbn [c_nodes]; apply str_get_set_same|reflexivity].
Qed.

Lemma clean_members_dbs n : n_dbs (clean_members n) = n_dbs n.
Proof. reflexivity. Qed.
Lemma clean_members_sess n : same_sess n (clean_members n).
Proof. now apply same_sess_core. Qed.

(* the primary's replication thread: a queued line "rp <id> <req>" whose request parses and can be
        logged is pushed, unchanged, on the outbox of every secondary member *)
Lemma repl_one_fans_out x id req rq b :
  id < 2 ^ 64 -> req <> "" -> no_semi_end req -> parse_request req = POk rq ->
  snd (repl_oplog x rq id) <> None ->
  cn_dead x = false -> n_role (cn_node x) = Primary -> NoDup (map fst (n_members (cn_node x))) ->
  pend_below (n_pending (cn_node x)) b -> b <= id ->
  let x' := repl_one x (rp_line id req) in
  cn_dead x' = false /\ fan_same (cn_node x) (cn_node x') /\
  pend_below (n_pending (cn_node x')) (id + 1) /\
  (forall nm q, assoc_get String.eqb nm (n_members (cn_node x)) = Some (Secondary, q) ->
     nm <> n_addr (cn_node x) -> is_nosender q = false ->
     assoc_get String.eqb nm (n_members (cn_node x')) = Some (Secondary, q ++ [rp_line id req])).
Proof.
  intros Hid Hne Hs Hp Hoid Hdead Hrole Hnd Hpb Hle.
  destruct (repl_one_fan x id req rq b Hid Hne Hs Hp Hoid Hdead Hrole Hnd Hpb Hle) as (A & _ & B & _ & C & D).
  auto.
Qed.

(* the two lines of a resolve satisfy the hypotheses of [repl_one_fan] *)
Lemma resolve_lines_loggable x opid dbn key value ver d id :
  simple_tok dbn -> simple_tok key -> no_nl value -> no_semi_end value -> is_i32 ver -> opid < 2 ^ 64 ->
  get_db (cn_node x) dbn = Some d ->
  (parse_request (rec_text dbn key opid ("resolved " +++ value)) =
     POk (RqReplicateSet dbn (rec_key key opid) ("resolved " +++ value) (-1)) /\
   snd (repl_oplog x (RqReplicateSet dbn (rec_key key opid) ("resolved " +++ value) (-1)) id) <> None) /\
  (parse_request (resolve_text opid dbn key ver value) = POk (RqResolve opid dbn key value ver) /\
   snd (repl_oplog x (RqResolve opid dbn key value ver) id) <> None).
Proof.
  intros Hd Hk Hvn Hvs Hver Hid Ed. split; split.
  - unfold rec_text. apply replicate_roundtrip;
      auto using tok_no_sp, tok_no_nl, no_sp_rec_key, no_nl_rec_key, no_nl_resolved, no_semi_resolved.
    unfold is_i32; lia.
  - cbn [repl_oplog]. destruct (key_id x (rec_key key opid)). unfold db_id_of. rewrite Ed. cbn. discriminate.
  - apply resolve_roundtrip; auto using tok_no_sp, tok_no_nl.
  - cbn. discriminate.
Qed.

(* the whole pipeline on a concrete cluster (Model/Cluster.v): p1 primary, s1 secondary.
   [settle 20] is more fuel than any of these steps needs to become quiescent; 27, 32 (conflicting writes) and
   38, 39 (queued lines) are the clock values this cluster produces *)
Definition exc_c0 : cluster :=
  mkCl [("p1", init_cnode "u" "pw" "p1" 3 Primary 10);
        ("s1", init_cnode "u" "pw" "s1" 2 Secondary 10)] [] 0.
Definition exc_cmd (c : cluster) (line : str) : cluster := fst (settle 20 (fst (client_cmd c "p1" 0 line))).
(* s1 joins; an admin client of p1 creates the arbiter database, registers as arbiter, writes k twice,
   then two stale versioned writes conflict *)
Definition exc_build : cluster :=
  let c := fst (settle 20 (add_sec exc_c0 "p1" "s1")) in
  let c := fst (client_conn c "p1") in
  fold_left exc_cmd ["auth u pw"; "create-db d tok arbiter"; "use-db d tok"; "arbiter"; "set k a"; "set k b";
                     "set-safe k 0 c"; "set-safe k 0 e"] c.
Definition exc_c : cluster := Eval vm_compute in exc_build.
Definition exc_view (c : cluster) (nm : str) : option (list (str * str * Z)) :=
  match get_cn c nm with Some x => ex_view (cn_node x) | None => None end.
Definition exc_queues (c : cluster) : list (str * str * list str) :=
  map (fun l => (l_from l, l_to l, l_q l)) (c_links c).

(* the resolve at the primary, one poll of its replication thread, two deliveries on the link p1 -> s1 *)
Definition exc_c1 : cluster := Eval vm_compute in poll_repl_c (fst (client_cmd exc_c "p1" 0 "resolve 27 d k 1 X")) "p1".
Definition exc_c2 : cluster := Eval vm_compute in opt_or exc_c1 (deliver exc_c1 0).
Definition exc_c3 : cluster := Eval vm_compute in opt_or exc_c2 (deliver exc_c2 0).

Example cluster_pipeline :
  exc_view exc_c "p1" = Some [("$$token", "tok", 0%Z); ("$connections", "1", 0%Z); ("k", "b", (-2)%Z);
                              ("$conflicts_k_27", "resolve 27 d 1 k b c", 0%Z);
                              ("$conflicts_k_32", "resolve 32 d 1 k $conflicts_k_27 e", 0%Z)] /\
  exc_view exc_c "s1" = Some [("$$token", "tok", 0%Z); ("k", "b", 1%Z);
                              ("$conflicts_k_27", "resolve 27 d 1 k b c", 0%Z);
                              ("$conflicts_k_32", "resolve 32 d 1 k $conflicts_k_27 e", 0%Z)] /\
  (* the two lines of the resolve on the link *)
  exc_queues exc_c1 = [("p1", "s1", ["rp 38 replicate d $conflicts_k_27 -1 resolved X"; "rp 39 resolve 27 d k 1 X"]);
                       ("s1", "p1", []); ("s1", "s1", [])] /\
  (* delivered: the replica holds X, in conflict like the primary (another conflict is pending) ... *)
  exc_view exc_c3 "p1" = Some [("$$token", "tok", 0%Z); ("$connections", "1", 0%Z); ("k", "X", (-2)%Z);
                               ("$conflicts_k_27", "resolved X", 1%Z);
                               ("$conflicts_k_32", "resolve 32 d 1 k $conflicts_k_27 e", 0%Z)] /\
  exc_view exc_c3 "s1" = Some [("$$token", "tok", 0%Z); ("k", "X", (-2)%Z);
                               ("$conflicts_k_27", "resolved X", 2%Z);
                               ("$conflicts_k_32", "resolve 32 d 1 k $conflicts_k_27 e", 0%Z)] /\
  (* ... and has queued the record line back to the primary *)
  exc_queues exc_c3 = [("p1", "s1", []); ("s1", "p1", ["replicate d $conflicts_k_27 -1 resolved X"]); ("s1", "s1", [])].
Proof. vm_compute. repeat split; reflexivity. Qed.

(* to quiescence, then the second resolution: both hold Y at version 2, nothing pending *)
Definition exc_c4 : cluster := Eval vm_compute in exc_cmd (fst (settle 20 exc_c3)) "resolve 32 d k 1 Y".
Example cluster_final :
  exc_view exc_c4 "p1" = Some [("$$token", "tok", 0%Z); ("$connections", "1", 0%Z); ("k", "Y", 2%Z);
                               ("$conflicts_k_27", "resolved X", 2%Z); ("$conflicts_k_32", "resolved Y", 2%Z)] /\
  exc_view exc_c4 "s1" = Some [("$$token", "tok", 0%Z); ("k", "Y", 2%Z);
                               ("$conflicts_k_27", "resolved X", 3%Z); ("$conflicts_k_32", "resolved Y", 3%Z)].
Proof. vm_compute. split; reflexivity. Qed.

Check resolve_queues_lines.
Check db_resolve_effect.
Check resolve_lines_apply_on_secondary.
Check resolve_lines_apply_lagging.
Check resolve_replicates.
Check resolve_lines_delivered.
Check conflict_queues_lines.
Check conflict_answer_inv.
Check conflict_lines_apply_on_secondary.
Check conflict_replicates.
Check conflict_line_delivered.
Check C13_replica_holds_resolution.
Check C13_replica_after_resolve.
Check C13_replica_version.
Check repl_one_fans_out.
Check deliver_raw_node.
Check key_not_own_record.
Check list_conflicts_keys_iff.
Check rec_key_matches.
Check conflict_record_pending.

Print Assumptions resolve_queues_lines.
Print Assumptions db_resolve_effect.
Print Assumptions resolve_lines_apply_on_secondary.
Print Assumptions resolve_lines_apply_lagging.
Print Assumptions resolve_replicates.
Print Assumptions resolve_lines_delivered.
Print Assumptions conflict_queues_lines.
Print Assumptions conflict_answer_inv.
Print Assumptions conflict_lines_apply_on_secondary.
Print Assumptions conflict_replicates.
Print Assumptions conflict_line_delivered.
Print Assumptions C13_replica_holds_resolution.
Print Assumptions C13_replica_after_resolve.
Print Assumptions C13_replica_version.
Print Assumptions ex_run_version.
Print Assumptions repl_one_fans_out.
Print Assumptions deliver_raw_node.
Print Assumptions list_conflicts_keys_iff.
Print Assumptions conflict_record_pending.
Print Assumptions star_key_conflicts_queue.
Print Assumptions ex_run_theorem.
Print Assumptions cluster_pipeline.
