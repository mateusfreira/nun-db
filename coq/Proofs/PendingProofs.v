(* C15: the table of pending replications (Model/Pending.v).  Three parts: a counting
   invariant over every history of registrations and acknowledgements, with the acknowledgements that
   do not count; the refinement to the specification (per op, the list of nodes that still owe an
   acknowledgement) for histories that register no node twice while it owes; what [sreg] / [sack]
   mean node by node. *)
From NunDB Require Import Model.Base Model.Pending Proofs.ListLemmas Proofs.AssocLemmas.

Local Open Scope N_scope.
Local Notation Sspec := String.eqb_spec.

(* the number of nodes flagged false: sent to, not yet acknowledged *)
Fixpoint nfalse (l : list (str * bool)) : N :=
  match l with
  | [] => 0
  | (_, b) :: r => (if b then 0 else 1) + nfalse r
  end.

Lemma nfalse_set l k b :
  nfalse (assoc_set String.eqb k b l) + (match assoc_get String.eqb k l with Some false => 1 | _ => 0 end) =
  nfalse l + (if b then 0 else 1).
Proof.
  induction l as [|[k' b'] r IH]; cbn [assoc_set assoc_get nfalse].
  - lia.
  - destruct (String.eqb k k'); cbn [nfalse]; [destruct b'|]; lia.
Qed.

(* An entry of the table.  [<=]: registering a node again raises [p_rep] but keeps its one flag.
   [<]: a fully acknowledged entry is deleted, never stored. *)
Definition entry_inv (m : pmsg) : Prop :=
  (p_ack m + nfalse (p_reps m) <= p_rep m)%N /\ (p_ack m < p_rep m)%N.

Definition table_inv (s : pstate) : Prop :=
  forall id m, assoc_get N.eqb id s = Some m -> entry_inv m.

Lemma replicated_entry_inv m node :
  (p_ack m + nfalse (p_reps m) <= p_rep m)%N -> entry_inv (replicated m node).
Proof.
  unfold entry_inv, replicated; cbn [p_ack p_rep p_reps]. intros H.
  pose proof (nfalse_set (p_reps m) node false).
  destruct (assoc_get String.eqb node (p_reps m)) as [[|]|]; lia.
Qed.

Definition acked (m : pmsg) (node : str) (a : N) : pmsg :=
  mkP (p_msg m) (p_rep m) a (assoc_set String.eqb node true (p_reps m)).

(* acknowledge, case by case: unknown op; duplicate; counted (the last one removes the entry);
   from a node the op was never sent to *)
Lemma acknowledge_cases s id node :
  acknowledge s id node =
  match assoc_get N.eqb id s with
  | None => (s, false)
  | Some m =>
      match assoc_get String.eqb node (p_reps m) with
      | Some true => (s, false)
      | Some false =>
          if N.eqb (p_rep m) (p_ack m + 1) then (assoc_del N.eqb id s, true)
          else (assoc_set N.eqb id (acked m node (p_ack m + 1)) s, true)
      | None => (assoc_set N.eqb id (acked m node (p_ack m)) s, false)
      end
  end.
Proof.
  unfold acknowledge, ack_msg. destruct (assoc_get N.eqb id s) as [m|] eqn:G; [|reflexivity].
  destruct (assoc_get String.eqb node (p_reps m)) as [[|]|]; try reflexivity.
  now rewrite (set_same_id _ _ _ _ G).
Qed.

Lemma table_inv_set s id m : table_inv s -> entry_inv m -> table_inv (assoc_set N.eqb id m s).
Proof. unfold table_inv. apply (get_set_all _ N.eqb_spec (fun _ => entry_inv)). Qed.

Lemma table_inv_del s id : table_inv s -> table_inv (assoc_del N.eqb id s).
Proof. unfold table_inv. apply (get_del_all _ N.eqb_spec (fun _ => entry_inv)). Qed.

Lemma table_inv_step s e : table_inv s -> table_inv (fst (pstep s e)).
Proof.
  unfold table_inv. intros HI. destruct e as [id msg node | id node]; cbn [pstep].
  - unfold register. destruct (assoc_get N.eqb id s) as [m|] eqn:G; cbn [fst];
      apply table_inv_set; try exact HI; apply replicated_entry_inv.
    + apply (HI _ _ G).
    + cbn. lia.
  - rewrite acknowledge_cases. destruct (assoc_get N.eqb id s) as [m|] eqn:G; [|exact HI].
    pose proof (HI _ _ G) as [Hle Hlt]. pose proof (nfalse_set (p_reps m) node true) as Hs.
    destruct (assoc_get String.eqb node (p_reps m)) as [[|]|] eqn:Gn; [exact HI| |].
    + destruct (N.eqb_spec (p_rep m) (p_ack m + 1)); cbn [fst].
      * apply table_inv_del. exact HI.
      * apply table_inv_set; [exact HI|]. unfold entry_inv; cbn. lia.
    + apply table_inv_set; [exact HI|]. unfold entry_inv; cbn. lia.
Qed.

Lemma table_inv_run s evs : table_inv s -> table_inv (fold_left (fun s e => fst (pstep s e)) evs s).
Proof.
  revert s. induction evs as [|e r IH]; cbn [fold_left]; intros s H; [exact H|].
  apply IH. now apply table_inv_step.
Qed.

(* the first conjunct follows from the second; it is the form in which DESIGN.md states C15 *)
Theorem counts_inv evs id m :
  assoc_get N.eqb id (prun evs) = Some m ->
  (p_ack m <= p_rep m)%N /\ (p_ack m < p_rep m)%N /\ (p_ack m + nfalse (p_reps m) <= p_rep m)%N.
Proof.
  intros G. assert (H : table_inv (prun evs)).
  { apply table_inv_run. intros ? ? G0. discriminate. }
  destruct (H _ _ G) as [H1 H2]. repeat split; lia.
Qed.

Lemma ack_unknown_noop s id node :
  assoc_get N.eqb id s = None -> acknowledge s id node = (s, false).
Proof. intros G. now rewrite acknowledge_cases, G. Qed.

Lemma ack_duplicate_noop s id node m :
  assoc_get N.eqb id s = Some m ->
  assoc_get String.eqb node (p_reps m) = Some true ->
  acknowledge s id node = (s, false).
Proof.
  intros G Gn. now rewrite acknowledge_cases, G, Gn.
Qed.

Definition counters (s : pstate) : list (N * (N * N)) :=
  map (fun '(id, m) => (id, (p_rep m, p_ack m))) s.

Lemma counters_set s id m m' :
  assoc_get N.eqb id s = Some m -> p_rep m' = p_rep m -> p_ack m' = p_ack m ->
  counters (assoc_set N.eqb id m' s) = counters s.
Proof.
  intros G Hr Ha. induction s as [|[k v] r IH]; cbn [assoc_get] in G; try discriminate.
  cbn [assoc_set]. destruct (N.eqb id k) eqn:E.
  - injection G as ->. cbn [counters map]. now rewrite Hr, Ha.
  - cbn [counters map]. f_equal. now apply IH.
Qed.

(* An acknowledgement from a node the op was never sent to: the reply is false and no counter moves,
   but the entry changes: the node is entered in [p_reps], flagged true. *)
Lemma ack_foreign_noop s id node m :
  assoc_get N.eqb id s = Some m ->
  assoc_get String.eqb node (p_reps m) = None ->
  snd (acknowledge s id node) = false /\
  counters (fst (acknowledge s id node)) = counters s.
Proof.
  intros G Gn. rewrite acknowledge_cases, G, Gn. cbn [fst snd]. split; auto.
  now apply (counters_set _ _ m).
Qed.

Lemma is_pending_register p id req m id' :
  is_pending (fst (register p id req m)) id' = true -> id' = id \/ is_pending p id' = true.
Proof.
  unfold register, is_pending. destruct (N.eq_dec id' id) as [->|Hne]; auto.
  destruct (assoc_get N.eqb id p); cbn [fst]; rewrite N_get_set_other by assumption; auto.
Qed.

Lemma is_pending_ack p id nm id' :
  is_pending (fst (acknowledge p id nm)) id' = true -> is_pending p id' = true.
Proof.
  unfold acknowledge, is_pending. destruct (assoc_get N.eqb id p) as [m|] eqn:E; auto.
  destruct (ack_msg m nm) as [m' r].
  destruct (N.eq_dec id' id) as [->|Hne]; [rewrite E; auto|].
  destruct r; [destruct (full_ack m')|]; cbn [fst];
    rewrite ?N_get_set_other, ?N_get_del_other by assumption; auto.
Qed.

Section Rel.
Context {V W : Type} (P : V -> W -> Prop).
(* the same keys in the same order ([rel_length] needs that), values related by [P] *)
Definition rel (s : list (N * V)) (t : list (N * W)) : Prop :=
  Forall2 (fun a b => fst a = fst b /\ P (snd a) (snd b)) s t.

Lemma rel_get s t id : rel s t ->
  match assoc_get N.eqb id s, assoc_get N.eqb id t with
  | None, None => True
  | Some v, Some w => P v w
  | _, _ => False
  end.
Proof.
  induction 1 as [|[k v] [k' w] s t [Hk Hp] _ IH]; cbn in *; auto.
  subst k'. destruct (N.eqb id k); auto.
Qed.

Lemma rel_set s t id v w : rel s t -> P v w ->
  rel (assoc_set N.eqb id v s) (assoc_set N.eqb id w t).
Proof.
  induction 1 as [|[k v0] [k' w0] s t [Hk Hp] Hr IH]; cbn in *; intros Hvw.
  - constructor; [split; auto | constructor].
  - subst k'. destruct (N.eqb id k).
    + constructor; [split; auto | exact Hr].
    + constructor; [split; auto | apply IH; exact Hvw].
Qed.

Lemma rel_del s t id : rel s t -> rel (assoc_del N.eqb id s) (assoc_del N.eqb id t).
Proof.
  induction 1 as [|[k v0] [k' w0] s t [Hk Hp] Hr IH]; cbn in *.
  - constructor.
  - subst k'. destruct (N.eqb id k); auto. constructor; [split; auto | exact IH].
Qed.

Lemma rel_length s t : rel s t -> List.length s = List.length t.
Proof. induction 1; cbn; auto. Qed.
End Rel.

(* The entry [m] against the spec's list [l] of its op: [l] lists, without repetition, exactly the nodes
   flagged false, it is not empty, and every registration is acknowledged or in [l].  The equality,
   against [<=] in [entry_inv], is what [wf] buys: no node is registered again while it owes. *)
Definition Rm (m : pmsg) (l : list str) : Prop :=
  l <> [] /\ NoDup l /\
  (forall n, mem_str n l = true <-> assoc_get String.eqb n (p_reps m) = Some false) /\
  (p_ack m + N.of_nat (List.length l) = p_rep m)%N.

Lemma mem_str_in n l : mem_str n l = true <-> In n l.
Proof. exact (existsb_eqb_In String.eqb String.eqb_spec n l). Qed.

Lemma mem_str_app n l x : mem_str n (l ++ [x]) = mem_str n l || String.eqb n x.
Proof. unfold mem_str. rewrite existsb_app. cbn. now rewrite orb_false_r. Qed.

Lemma mem_str_del n x l : mem_str n (del_str x l) = negb (String.eqb x n) && mem_str n l.
Proof.
  apply eq_iff_eq_true. rewrite andb_true_iff, !mem_str_in. unfold del_str.
  rewrite filter_In. tauto.
Qed.

Lemma del_str_length x l : NoDup l -> In x l ->
  S (List.length (del_str x l)) = List.length l.
Proof.
  induction 1 as [|y r Hnin Hnd IH]; [intros []|].
  intros Hin. change (del_str x (y :: r)) with
    (if negb (String.eqb x y) then y :: del_str x r else del_str x r).
  destruct (Sspec x y) as [->|Hn]; cbn [negb].
  - unfold del_str. rewrite filter_all_true; [reflexivity|].
    intros z Hz. destruct (Sspec y z) as [<-|]; [contradiction|reflexivity].
  - destruct Hin as [E|Hin]; [congruence|]. cbn [List.length]. f_equal. now apply IH.
Qed.

(* the test [Pending.wf_from] makes of one event; [refines_from] and [outputs_refine] rely on the two
   being convertible *)
Definition wf_ok (t : sstate) (e : pev) : bool :=
  match e with
  | Reg id _ node => negb (mem_str node (outstanding t id))
  | Ack _ _ => true
  end.

(* the outputs the spec allows; a registration answers with the text of the op's FIRST registration
   ([p_msg] is kept, Pending.v) *)
Definition out_ok (t : sstate) (e : pev) (o : pout) : Prop :=
  match e, o with
  | Ack id node, OAck b => b = snd (sack t id node)
  | Reg id msg node, OReg txt =>
      exists msg0, txt = message_to_replicate id msg0 /\
                   (outstanding t id = [] -> msg0 = msg)
  | _, _ => False
  end.

Lemma outstanding_rel s t id : rel Rm s t ->
  match assoc_get N.eqb id s with
  | Some m => Rm m (outstanding t id)
  | None => outstanding t id = []
  end.
Proof.
  intros H. pose proof (rel_get Rm s t id H) as G. unfold outstanding.
  destruct (assoc_get N.eqb id s), (assoc_get N.eqb id t); tauto.
Qed.

(* How [Rm] moves with the entry.  One more target takes three of [Rm]'s conjuncts apart, because it
   also serves the op's first registration, where the list is still empty. *)
Lemma Rm_replicated m l node :
  NoDup l -> (forall n, mem_str n l = true <-> assoc_get String.eqb n (p_reps m) = Some false) ->
  (p_ack m + N.of_nat (List.length l) = p_rep m)%N -> mem_str node l = false ->
  Rm (replicated m node) (l ++ [node]).
Proof.
  intros Hnd Hiff Hcnt Hm. unfold Rm, replicated; cbn [p_ack p_rep p_reps].
  split; [now destruct l|]. split.
  { apply nodup_snoc; auto. intros Hin. apply mem_str_in in Hin. congruence. }
  split.
  - intros n. rewrite mem_str_app. destruct (Sspec n node) as [->|Hn].
    + rewrite orb_true_r, str_get_set_same. tauto.
    + rewrite orb_false_r, str_get_set_other by assumption. apply Hiff.
  - rewrite app_length; cbn. lia.
Qed.

Lemma Rm_not_owed m l node :
  Rm m l -> assoc_get String.eqb node (p_reps m) <> Some false -> mem_str node l = false.
Proof.
  intros (_ & _ & Hiff & _) Hn. destruct (mem_str node l) eqn:E; [|reflexivity].
  now apply Hiff in E.
Qed.

Lemma Rm_ack_foreign m l node :
  Rm m l -> assoc_get String.eqb node (p_reps m) = None -> Rm (acked m node (p_ack m)) l.
Proof.
  intros (Hne & Hnd & Hiff & Hcnt) Gn. unfold Rm, acked; cbn [p_ack p_rep p_reps].
  repeat split; auto; rewrite (Hiff n); destruct (Sspec n node) as [->|Hn];
    rewrite ?str_get_set_same, ?str_get_set_other by assumption; congruence.
Qed.

(* the op's last acknowledgement is the one that leaves nobody owing *)
Lemma Rm_ack_counted m l node :
  Rm m l -> assoc_get String.eqb node (p_reps m) = Some false ->
  mem_str node l = true /\
  match del_str node l with
  | [] => p_rep m = (p_ack m + 1)%N
  | l' => p_rep m <> (p_ack m + 1)%N /\ Rm (acked m node (p_ack m + 1)) l'
  end.
Proof.
  intros (Hne & Hnd & Hiff & Hcnt) Gn.
  assert (Hm : mem_str node l = true) by now apply Hiff.
  split; [exact Hm|].
  pose proof (del_str_length node _ Hnd (proj1 (mem_str_in _ _) Hm)) as Hlen.
  destruct (del_str node l) as [|x l'] eqn:Ed; cbn [List.length] in Hlen; [lia|].
  split; [lia|]. unfold Rm, acked; cbn [p_ack p_rep p_reps]. rewrite <- Ed.
  split; [rewrite Ed; discriminate|]. split; [now apply NoDup_filter|]. split.
  - intros n. rewrite mem_str_del. destruct (Sspec node n) as [<-|Hn]; cbn.
    + rewrite str_get_set_same. split; congruence.
    + rewrite str_get_set_other by congruence. apply Hiff.
  - rewrite Ed. cbn [List.length]. lia.
Qed.

Lemma refines_ack s t id node : rel Rm s t ->
  rel Rm (fst (acknowledge s id node)) (fst (sack t id node)) /\
  snd (acknowledge s id node) = snd (sack t id node).
Proof.
  intros HR. pose proof (rel_get Rm s t id HR) as Hg.
  rewrite acknowledge_cases. unfold sack, outstanding.
  destruct (assoc_get N.eqb id s) as [m|], (assoc_get N.eqb id t) as [l|] eqn:Gt; try contradiction;
    [|split; [exact HR|reflexivity]].
  destruct (assoc_get String.eqb node (p_reps m)) as [[|]|] eqn:Gn.
  - (* duplicate *)
    rewrite (Rm_not_owed m l node Hg) by congruence. split; [exact HR|reflexivity].
  - (* counted *)
    destruct (Rm_ack_counted m l node Hg Gn) as [-> Hd]. destruct (del_str node l) as [|x l'].
    + rewrite (proj2 (N.eqb_eq _ _) Hd). split; [now apply rel_del|reflexivity].
    + destruct Hd as [Hd HR']. rewrite (proj2 (N.eqb_neq _ _) Hd).
      split; [now apply rel_set|reflexivity].
  - (* foreign *)
    rewrite (Rm_not_owed m l node Hg) by congruence. split; [|reflexivity].
    cbn [fst]. rewrite <- (set_same_id _ _ _ _ Gt). apply rel_set; [exact HR|].
    now apply Rm_ack_foreign.
Qed.

Lemma refines_step s t e : rel Rm s t -> wf_ok t e = true ->
  rel Rm (fst (pstep s e)) (sstep t e) /\ out_ok t e (snd (pstep s e)).
Proof.
  intros HR Hwf. destruct e as [id msg node | id node]; cbn [pstep sstep].
  - cbn [wf_ok] in Hwf. apply negb_true_iff in Hwf.
    unfold register, sreg. rewrite Hwf.
    pose proof (outstanding_rel s t id HR) as Ho.
    destruct (assoc_get N.eqb id s) as [m|] eqn:G; cbn [fst snd].
    + destruct Ho as (Hne & Hnd & Hiff & Hcnt). split.
      * apply rel_set; auto. now apply Rm_replicated.
      * exists (p_msg m). split; auto. intros E. now rewrite E in Hne.
    + rewrite Ho. split.
      * apply rel_set; auto. apply (Rm_replicated (mkP msg 0 0 []) [] node); try reflexivity.
        { constructor. } { intros n. cbn. split; discriminate. }
      * exists msg. split; auto.
  - pose proof (refines_ack s t id node HR) as H. destruct (acknowledge s id node). exact H.
Qed.

Lemma refines_from evs : forall s t, rel Rm s t -> wf_from t evs = true ->
  rel Rm (fold_left (fun s e => fst (pstep s e)) evs s) (fold_left sstep evs t).
Proof.
  induction evs as [|e r IH]; cbn [fold_left wf_from]; intros s t HR Hwf; [exact HR|].
  apply andb_true_iff in Hwf as [H1 H2].
  apply IH; [|exact H2]. apply refines_step; auto.
Qed.

Theorem refines evs : wf evs = true -> rel Rm (prun evs) (srun evs).
Proof. intros H. apply refines_from; [constructor | exact H]. Qed.

Definition is_nil {A} (l : list A) : bool := match l with [] => true | _ => false end.

Theorem pending_iff evs id : wf evs = true ->
  is_pending (prun evs) id = negb (is_nil (outstanding (srun evs) id)).
Proof.
  intros H. pose proof (outstanding_rel _ _ id (refines evs H)) as Ho.
  unfold is_pending. destruct (assoc_get N.eqb id (prun evs)).
  - destruct Ho as (Hne & _). now destruct (outstanding (srun evs) id).
  - now rewrite Ho.
Qed.

Theorem pending_count_spec evs : wf evs = true ->
  pending_count (prun evs) = List.length (srun evs).
Proof. intros H. apply (rel_length Rm), refines, H. Qed.

Lemma rel_all_nil s t : rel Rm s t -> (forall id, outstanding t id = []) -> s = [].
Proof.
  intros HR Hall. destruct HR as [|[k m] [k' l] s t [Hk (Hne & _)] _]; auto.
  cbn in *. subst k'. specialize (Hall k). unfold outstanding in Hall. cbn in Hall.
  rewrite N.eqb_refl in Hall. congruence.
Qed.

Theorem drained evs : wf evs = true ->
  (forall id, outstanding (srun evs) id = []) -> prun evs = [].
Proof. intros H Hall. eapply rel_all_nil; [apply refines, H | exact Hall]. Qed.

Lemma wf_from_app evs1 : forall t evs2,
  wf_from t (evs1 ++ evs2) = wf_from t evs1 && wf_from (fold_left sstep evs1 t) evs2.
Proof.
  induction evs1 as [|e r IH]; cbn [app wf_from fold_left]; intros t evs2; auto.
  now rewrite IH, andb_assoc.
Qed.

Theorem outputs_refine evs e : wf (evs ++ [e]) = true ->
  out_ok (srun evs) e (snd (pstep (prun evs) e)).
Proof.
  unfold wf. rewrite wf_from_app. intros H. apply andb_true_iff in H as [H1 H2].
  cbn [wf_from] in H2. rewrite andb_true_r in H2.
  apply refines_step; [now apply refines | exact H2].
Qed.

Lemma outstanding_set t id l id' :
  outstanding (assoc_set N.eqb id l t) id' = if N.eqb id' id then l else outstanding t id'.
Proof.
  unfold outstanding. destruct (N.eqb_spec id' id) as [->|Hn].
  - now rewrite N_get_set_same.
  - now rewrite N_get_set_other.
Qed.

Lemma outstanding_del t id id' :
  outstanding (assoc_del N.eqb id t) id' = if N.eqb id' id then [] else outstanding t id'.
Proof.
  unfold outstanding. destruct (N.eqb_spec id' id) as [->|Hn].
  - now rewrite N_get_del_same.
  - now rewrite N_get_del_other.
Qed.

Lemma spec_reg t id node id' n :
  mem_str n (outstanding (sreg t id node) id') =
  mem_str n (outstanding t id') || (N.eqb id' id && String.eqb n node).
Proof.
  unfold sreg. rewrite outstanding_set. destruct (N.eqb_spec id' id) as [->|Hn]; cbn.
  - destruct (mem_str node (outstanding t id)) eqn:E.
    + destruct (Sspec n node) as [->|]; [now rewrite E | now rewrite orb_false_r].
    + apply mem_str_app.
  - now rewrite orb_false_r.
Qed.

Lemma spec_ack t id node id' n :
  mem_str n (outstanding (fst (sack t id node)) id') =
  mem_str n (outstanding t id') && negb (N.eqb id' id && String.eqb n node).
Proof.
  unfold sack. destruct (mem_str node (outstanding t id)) eqn:E.
  - assert (H : forall l, outstanding
        (fst (match l with [] => (assoc_del N.eqb id t, true)
                         | _ :: _ => (assoc_set N.eqb id l t, true) end)) id'
        = if N.eqb id' id then l else outstanding t id').
    { intros [|x l]; cbn [fst]; [rewrite outstanding_del | rewrite outstanding_set]; reflexivity. }
    rewrite H. destruct (N.eqb_spec id' id) as [->|Hn]; cbn.
    + rewrite mem_str_del, (String.eqb_sym node n). apply andb_comm.
    + now rewrite andb_true_r.
  - cbn [fst]. destruct (N.eqb_spec id' id) as [->|Hn]; cbn; [|now rewrite andb_true_r].
    destruct (Sspec n node) as [->|]; cbn; [now rewrite E | now rewrite andb_true_r].
Qed.
