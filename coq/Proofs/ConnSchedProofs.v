(* C17 under every interleaving of use-db commands (Model/Sched.v):
   the "$connections" key and the connection counter of every database.

   A use-db thread parks at the token check (PcUseTok), in front of the write of the key
   (PcPub, carrying the count it read BEFORE parking) and in front of the notification of the
   watchers (PcPubNotify), after which the counter is read again and the publish starts over
   when it is no longer the count that was written. *)
From NunDB Require Import Model.Base Model.Pending Model.Parse Model.Node Model.Sched
  Proofs.ListLemmas Proofs.AssocLemmas Proofs.StrLemmas Proofs.NodeLemmas Proofs.ConnProofs Proofs.SchedProofs.
Local Open Scope Z_scope.

Definition usedb_line (l : str) : Prop :=
  exists tk nm u, parse_request (trim_char nl l) = POk (RqUseDb tk nm u).

Definition usedb_pc (p : pc) : Prop :=
  match p with
  | PcCmd | PcDone | PcUseTok _ _ _ | PcPub _ _ _ _ | PcPubNotify _ _ _ _ => True
  | _ => False
  end.

Definition usedb_thr (t : thr) : Prop := Forall usedb_line (t_prog t) /\ usedb_pc (t_pc t).

(* the text stored under "$connections", if any *)
Definition key_of_db (d : db) : option str :=
  match get_value d "$connections" with Some v => Some (v_val v) | None => None end.

(* the key shows the counter; a database that nobody ever selected has no key and counter 0 *)
Definition key_agrees (d : db) : Prop :=
  key_of_db d = Some (Z_to_str (d_conn d)) \/ (key_of_db d = None /\ d_conn d = 0).

(* the thread is parked in a publish of D whose outcome is still open: it is about to write,
   or it has written a count that is not the counter (the re-check will send it round again) *)
Definition wit (D : str) (conn : Z) (p : pc) : Prop :=
  match p with
  | PcPub D' _ _ _ => D' = D
  | PcPubNotify D' c _ _ => D' = D /\ c <> conn
  | _ => False
  end.

Definition PubInv1 (n : node) (ts : list thr) (D : str) : Prop :=
  forall d, get_db n D = Some d ->
    key_agrees d \/ exists j w, nth_error ts j = Some w /\ wit D (d_conn d) (t_pc w).

Definition PubInv (n : node) (ts : list thr) : Prop := forall D, PubInv1 n ts D.

(* the session was counted out of D but still carries D as its selection *)
Definition pend_of (p : pc) : option str :=
  match p with
  | PcPub D _ _ (KUseInc _ _ _) | PcPubNotify D _ _ (KUseInc _ _ _) => Some D
  | _ => None
  end.

Definition pendb (D : str) (t : thr) : bool :=
  match pend_of (t_pc t) with Some D' => String.eqb D' D | None => false end.

Definition pend (ts : list thr) (D : str) : nat := List.length (filter (pendb D) ts).

(* [op]: the open sessions *)
Definition CntInv (n : node) (ts : list thr) (op : list nat) : Prop :=
  NoDup op /\ NoDup (map t_sid ts) /\
  (forall t, In t ts -> In (t_sid t) op /\ (t_sid t < List.length (n_sess n))%nat) /\
  (forall t D, In t ts -> pend_of (t_pc t) = Some D -> s_db (get_sess n (t_sid t)) = Some D) /\
  (forall D d, get_db n D = Some d ->
     d_conn d = Z.of_nat (List.length (selected n op D)) - Z.of_nat (pend ts D)).

(* not inside a publish: at a command boundary or at the token check *)
Definition quiet (p : pc) : Prop :=
  match p with PcCmd | PcDone | PcUseTok _ _ _ => True | _ => False end.

(* [p] is a witness for no database of [n] *)
Definition nowit (n : node) (p : pc) : Prop :=
  forall D d, get_db n D = Some d -> ~ wit D (d_conn d) p.

(* the value a publish writes; [pubval d (d_conn d) o] is ConnProofs.[new_conn_value d o] by
   conversion *)
Definition pubval (d : db) (cnt : Z) (opp : N) : value :=
  match get_value d ckey with
  | Some old => mkV (Z_to_str cnt) (v_ver old + 1) opp (upd_state old) (v_vaddr old) (v_kaddr old)
  | None => mkV (Z_to_str cnt) 0 opp VNew 0 0
  end.

Lemma sdb_nth n x : s_db (get_sess n x) = nth x (sdbs n) None.
Proof. unfold get_sess, sdbs. change None with (s_db empty_sess). now rewrite map_nth. Qed.

Lemma sdbs_put_sel n c s x u : sdbs (put_sess n c (set_sel s x u)) = list_update (sdbs n) c x.
Proof. unfold sdbs, put_sess. cbn [n_sess n_set_sess]. now rewrite map_list_update_gen. Qed.

Lemma sdbs_clock n k : sdbs (n_set_clock n k) = sdbs n. Proof. reflexivity. Qed.
Lemma sdbs_put_db n D d : sdbs (put_db n D d) = sdbs n. Proof. reflexivity. Qed.

Lemma sdbs_replicate_request n rq s r : sdbs (fst (replicate_request n rq s r)) = sdbs n.
Proof. exact (proj1 (frame_replicate_request n n rq s r (frame_refl n))). Qed.

Lemma sdbs_upd_len n n' c x :
  sdbs n' = list_update (sdbs n) c x -> List.length (n_sess n') = List.length (n_sess n).
Proof.
  intros H. unfold sdbs in H.
  rewrite <- (map_length s_db (n_sess n')), H, list_update_length. apply map_length.
Qed.

Lemma conn_put_ckey d v : d_conn (put_value d ckey v) = d_conn d.
Proof. reflexivity. Qed.

Lemma key_of_put d v : key_of_db (put_value d ckey v) = Some (v_val v).
Proof. unfold key_of_db. fold ckey. now rewrite gv_put_same. Qed.

Lemma pubval_val d c o : v_val (pubval d c o) = Z_to_str c.
Proof. unfold pubval. destruct (get_value d ckey); reflexivity. Qed.

Lemma VerInv_writable B n D d : VerInv B n -> 0 <= B < i32_max -> get_db n D = Some d -> writable d.
Proof. intros Hv HB Hd v Hg. specialize (Hv _ _ _ Hd Hg). lia. Qed.

Lemma nth_error_upd_same {A} (l : list A) i x y :
  nth_error l i = Some y -> nth_error (list_update l i x) i = Some x.
Proof. apply nth_error_list_update_same. Qed.

Lemma start_publish_some n t D k d :
  get_db n D = Some d ->
  start_publish n t D k =
  (n_set_clock n (n_clock n + 1)%N, park t (PcPub D (d_conn d) (n_clock n) k) "map.write").
Proof. intros H. unfold start_publish, tick. now rewrite H. Qed.

Lemma use_inc_some n t name user rq d1 :
  get_db n name = Some d1 ->
  use_inc n t name user rq =
  (n_set_clock (put_db (sel_sess n (t_sid t) name user) name (db_set_conn d1 (d_conn d1 + 1)))
               (n_clock n + 1)%N,
   park t (PcPub name (d_conn d1 + 1) (n_clock n) (KFinish rq ROk)) "map.write").
Proof.
  intros H. unfold use_inc. fold (sel_sess n (t_sid t) name user).
  change (get_db (sel_sess n (t_sid t) name user) name) with (get_db n name). rewrite H.
  erewrite start_publish_some by apply get_db_put_same. reflexivity.
Qed.

Lemma use_inc_none n t name user rq :
  get_db n name = None ->
  use_inc n t name user rq = (sel_sess n (t_sid t) name user, finish t ROk).
Proof.
  intros H. unfold use_inc. fold (sel_sess n (t_sid t) name user).
  change (get_db (sel_sess n (t_sid t) name user) name) with (get_db n name). now rewrite H.
Qed.

Lemma finish_quiet t r : quiet (t_pc (finish t r)).
Proof. destruct (finish_boundary t r) as [E|E]; rewrite E; exact I. Qed.

Lemma quiet_pend p : quiet p -> pend_of p = None.
Proof. destruct p; cbn; try contradiction; auto. Qed.

Lemma quiet_nowit n p : quiet p -> nowit n p.
Proof. intros H D d _. destruct p; cbn in *; auto. Qed.

Lemma release_pub n t D cnt opp k d :
  t_pc t = PcPub D cnt opp k -> get_db n D = Some d -> writable d ->
  release n t = (put_db n D (put_value d ckey (pubval d cnt opp)),
                 park t (PcPubNotify D cnt (v_ver (pubval d cnt opp)) k) "watchers.read").
Proof.
  intros Hpc Hd Hw. unfold release. rewrite Hpc, Hd. fold ckey.
  rewrite (set_value_writable d _ _ Hw). fold (pubval d cnt opp).
  rewrite gv_put_same. reflexivity.
Qed.

(* What one release of a use-db thread does, seen through [n_dbs], [sdbs] and the park point.
   [US_idle]: nothing is counted or written (a command starts or ends, a token check fails);
   [US_dec]: the session is counted out of the database [prev] it had selected and parks with that
   count; [US_inc]: it selects [name], is counted in there (if [name] exists) and parks with that
   count; [US_write]: a parked publish writes the key; [US_restart]: the re-check finds the counter
   moved and parks for another publish. *)
Inductive ustep (n : node) (t : thr) (n' : node) (t' : thr) : Prop :=
| US_idle :
    n_dbs n' = n_dbs n -> sdbs n' = sdbs n -> quiet (t_pc t') ->
    nowit n (t_pc t) -> pend_of (t_pc t) = None -> ustep n t n' t'
| US_dec prev dp nm u rq o :
    quiet (t_pc t) -> s_db (get_sess n (t_sid t)) = Some prev -> get_db n prev = Some dp ->
    n_dbs n' = n_dbs (put_db n prev (db_set_conn dp (d_conn dp - 1))) -> sdbs n' = sdbs n ->
    t_pc t' = PcPub prev (d_conn dp - 1) o (KUseInc nm u rq) -> ustep n t n' t'
| US_inc name :
    nowit n (t_pc t) ->
    ((quiet (t_pc t) /\ forall p, s_db (get_sess n (t_sid t)) = Some p -> get_db n p = None) \/
     exists D, pend_of (t_pc t) = Some D) ->
    sdbs n' = list_update (sdbs n) (t_sid t) (Some name) ->
    match get_db n name with
    | Some d1 => n_dbs n' = n_dbs (put_db n name (db_set_conn d1 (d_conn d1 + 1))) /\
                 exists o rq r, t_pc t' = PcPub name (d_conn d1 + 1) o (KFinish rq r)
    | None => n_dbs n' = n_dbs n /\ quiet (t_pc t')
    end -> ustep n t n' t'
| US_write D c o k d nv :
    t_pc t = PcPub D c o k -> get_db n D = Some d ->
    n_dbs n' = n_dbs (put_db n D (put_value d ckey (pubval d c o))) -> sdbs n' = sdbs n ->
    t_pc t' = PcPubNotify D c nv k -> ustep n t n' t'
| US_restart D c nv k d o :
    t_pc t = PcPubNotify D c nv k -> get_db n D = Some d -> d_conn d <> c ->
    n_dbs n' = n_dbs n -> sdbs n' = sdbs n ->
    t_pc t' = PcPub D (d_conn d) o k -> ustep n t n' t'.

Lemma use_inc_ustep n m t name user rq :
  n_dbs m = n_dbs n -> sdbs m = sdbs n ->
  nowit n (t_pc t) ->
  ((quiet (t_pc t) /\ forall p, s_db (get_sess n (t_sid t)) = Some p -> get_db n p = None) \/
   exists D, pend_of (t_pc t) = Some D) ->
  ustep n t (fst (use_inc m t name user rq)) (snd (use_inc m t name user rq)).
Proof.
  intros Hd Hs Hw Hp. apply (US_inc _ _ _ _ name); auto.
  - destruct (get_db m name) as [d1|] eqn:E.
    + rewrite (use_inc_some _ _ _ _ _ _ E). cbn [fst]. rewrite sdbs_clock, sdbs_put_db.
      unfold sel_sess. now rewrite sdbs_put_sel, Hs.
    + rewrite (use_inc_none _ _ _ _ _ E). cbn [fst].
      unfold sel_sess. now rewrite sdbs_put_sel, Hs.
  - rewrite <- (get_db_dbs _ _ name Hd).
    destruct (get_db m name) as [d1|] eqn:E.
    + rewrite (use_inc_some _ _ _ _ _ _ E). cbn [fst snd]. split; [|do 3 eexists; reflexivity].
      unfold put_db, sel_sess. cbn [n_dbs n_set_dbs n_set_clock put_sess n_set_sess].
      now rewrite Hd.
    + rewrite (use_inc_none _ _ _ _ _ E). cbn [fst snd]. split; [exact Hd | apply finish_quiet].
Qed.

Lemma after_publish_ustep n m t k :
  n_dbs m = n_dbs n -> sdbs m = sdbs n ->
  nowit n (t_pc t) ->
  (exists D, pend_of (t_pc t) = match k with KUseInc _ _ _ => Some D | KFinish _ _ => None end) ->
  ustep n t (fst (after_publish m t k)) (snd (after_publish m t k)).
Proof.
  intros Hd Hs Hw [D Hk]. destruct k as [nm u rq | rq r]; cbn [after_publish].
  - apply use_inc_ustep; auto. right. eauto.
  - pose proof (replicate_request_dbs m rq (s_db (get_sess m (t_sid t))) r) as H1.
    pose proof (sdbs_replicate_request m rq (s_db (get_sess m (t_sid t))) r) as H2.
    destruct (replicate_request m rq _ r) as [n1 r1]. cbn [fst snd] in *.
    apply US_idle; try congruence; eauto using finish_quiet.
Qed.

Lemma ustep_quiet n t t' : quiet (t_pc t) -> quiet (t_pc t') -> ustep n t n t'.
Proof. intros Hq Hq'. apply US_idle; auto using quiet_nowit, quiet_pend. Qed.

Lemma ustep_error n t t0 rq s msg : quiet (t_pc t) ->
  ustep n t (fst (complete n t0 rq s (RError msg))) (snd (complete n t0 rq s (RError msg))).
Proof. intros Hq. apply ustep_quiet; [exact Hq | apply finish_quiet]. Qed.

Theorem release_ustep B n t :
  usedb_thr t -> VerInv B n -> 0 <= B < i32_max ->
  ustep n t (fst (release n t)) (snd (release n t)).
Proof.
  (* the park points of [usedb_pc] remain: PcCmd, PcUseTok, PcPub, PcPubNotify, PcDone *)
  intros [Hl Hp] Hv HB. unfold release. destruct (t_pc t) eqn:Hpc; try contradiction.
  - assert (Hq : quiet (t_pc t)) by (rewrite Hpc; exact I).
    unfold start_cmd. destruct (t_prog t) as [|line rest] eqn:Hpr; [apply ustep_quiet; [exact Hq | exact I]|].
    inversion Hl as [|? ? (tk & nm & u & Hparse) _]; subst. rewrite Hparse. cbn [key_of].
    destruct (get_db n nm); [apply ustep_quiet; [exact Hq | exact I]|].
    apply ustep_error, Hq.
  - assert (Hq : quiet (t_pc t)) by (rewrite Hpc; exact I).
    destruct (get_db n name) as [d|] eqn:Hd; [|apply ustep_error, Hq].
    destruct (negb _); [apply ustep_error, Hq|].
    destruct (s_db (get_sess n (t_sid t))) as [prev|] eqn:Hsel.
    + destruct (get_db n prev) as [dp|] eqn:Hdp.
      * erewrite start_publish_some by apply get_db_put_same. cbn [fst snd park t_pc d_conn db_set_conn].
        eapply US_dec; eauto; reflexivity.
      * apply use_inc_ustep; auto using quiet_nowit. left. split; [exact Hq|].
        intros p Hp'. rewrite Hsel in Hp'. injection Hp' as <-. exact Hdp.
    + apply use_inc_ustep; auto using quiet_nowit. left. split; [exact Hq|].
      intros p Hp'. rewrite Hsel in Hp'. discriminate.
  - assert (Hk : exists D, pend_of (t_pc t) = match k with KUseInc _ _ _ => Some D | KFinish _ _ => None end)
      by (exists dbn; now rewrite Hpc).
    destruct (get_db n dbn) as [d|] eqn:Hd.
    + pose proof (release_pub n t dbn cnt opp k d Hpc Hd (VerInv_writable _ _ _ _ Hv HB Hd)) as R.
      unfold release in R. rewrite Hpc, Hd in R. rewrite R. cbn [fst snd].
      eapply US_write; eauto; reflexivity.
    + apply after_publish_ustep; auto.
      intros D d Hd' Hw. rewrite Hpc in Hw. cbn in Hw. subst D. congruence.
  - assert (Hk : exists D, pend_of (t_pc t) = match k with KUseInc _ _ _ => Some D | KFinish _ _ => None end)
      by (exists dbn; now rewrite Hpc).
    destruct (get_db n dbn) as [d|] eqn:Hd.
    + set (n1 := sends n _).
      assert (H1 : n_dbs n1 = n_dbs n) by apply n_dbs_sends.
      assert (H2 : sdbs n1 = sdbs n) by apply sdbs_sends.
      destruct (Z.eqb_spec (d_conn d) cnt) as [E|Hne].
      * apply after_publish_ustep; auto.
        intros D d' Hd' Hw. rewrite Hpc in Hw. cbn in Hw. destruct Hw as [<- Hw]. congruence.
      * rewrite (start_publish_some n1 t dbn k d) by (now rewrite (get_db_dbs _ _ dbn H1)).
        cbn [fst snd]. eapply US_restart; eauto; reflexivity.
    + apply after_publish_ustep; auto.
      intros D d Hd' Hw. rewrite Hpc in Hw. cbn in Hw. destruct Hw as [<- _]. congruence.
  - apply ustep_quiet; cbn [snd]; rewrite Hpc; exact I.
Qed.

(* the cases of [ustep] under fixed names, which the proofs below use: [Hd] the databases of [n'],
   [Hs] its selections, [Hpc] / [Hpc'] the park point before / after, [Hpost] the two outcomes of
   [US_inc] *)
Ltac inv_ustep H :=
  destruct H as [ Hd Hs Hq Hnw Hpe
                | prev dp nm u rq o Hq Hsel Hdp Hd Hs Hpc'
                | name Hnw Hpe Hs Hpost
                | D0 c o k d0 nv Hpc Hdb Hd Hs Hpc'
                | D0 c nv k d0 o Hpc Hdb Hne Hd Hs Hpc' ].

(* a step changes at most one database: its counter, or its key by a publish; what holds of every
   database before ([P]) and survives these two edits (as [Q]) holds of every database afterwards *)
Lemma ustep_dbs (P Q : db -> Prop) n t n' t' : ustep n t n' t' ->
  (forall d, P d -> Q d) ->
  (forall d z, P d -> Q (db_set_conn d z)) ->
  (forall d c o, P d -> Q (put_value d ckey (pubval d c o))) ->
  (forall D d, get_db n D = Some d -> P d) -> forall D d, get_db n' D = Some d -> Q d.
Proof.
  intros Hu H0 H1 H2 Hn D d' Hd'.
  assert (Hput : forall X dX', n_dbs n' = n_dbs (put_db n X dX') -> Q dX' -> Q d').
  { intros X dX' E Hq. rewrite (eff_put _ _ _ _ E) in Hd'.
    destruct (String.eqb D X); [now injection Hd' as <- | eauto]. }
  assert (Hsame : n_dbs n' = n_dbs n -> Q d') by (intros E; rewrite (get_db_dbs _ _ D E) in Hd'; eauto).
  inv_ustep Hu; eauto.
  destruct (get_db n name) eqn:E; destruct Hpost as [H _]; eauto.
Qed.

Lemma ustep_pc n t n' t' : ustep n t n' t' -> usedb_pc (t_pc t').
Proof.
  intros Hu. inv_ustep Hu.
  - destruct (t_pc t'); cbn in *; auto.
  - rewrite Hpc'. exact I.
  - destruct (get_db n name).
    + destruct Hpost as (_ & o & rq & r & ->). exact I.
    + destruct Hpost as [_ H2]. destruct (t_pc t'); cbn in *; auto.
  - rewrite Hpc'. exact I.
  - rewrite Hpc'. exact I.
Qed.

Lemma release_usedb B n t : usedb_thr t -> VerInv B n -> 0 <= B < i32_max -> usedb_thr (snd (release n t)).
Proof.
  intros Ht Hv HB. split.
  - apply release_prog_Forall, Ht.
  - eapply ustep_pc, release_ustep; eauto.
Qed.

Lemma VerInv_weaken B B' n : B <= B' -> VerInv B n -> VerInv B' n.
Proof. intros Hle Hv D d v Hd Hg. specialize (Hv _ _ _ Hd Hg). lia. Qed.

Lemma ustep_VerInv B n t n' t' : ustep n t n' t' -> VerInv B n -> 0 <= B -> VerInv (B + 1) n'.
Proof.
  intros Hu Hv HB D d v Hd. revert v.
  apply (ustep_dbs (fun d => forall v, get_value d ckey = Some v -> 0 <= v_ver v <= B)
                   (fun d => forall v, get_value d ckey = Some v -> 0 <= v_ver v <= B + 1) n t n' t' Hu)
    with (D := D); auto.
  - intros d0 H v Hg. specialize (H v Hg). lia.
  - intros d0 z H v Hg. specialize (H v Hg). lia.
  - intros d0 c o H v. rewrite gv_put_same. intros [= <-].
    unfold pubval. destruct (get_value d0 ckey) as [old|] eqn:Hg; cbn [v_ver]; [|lia].
    specialize (H old eq_refl). lia.
  - intros D0 d0 Hd0 v. exact (Hv D0 d0 v Hd0).
Qed.

Lemma ustep_wit n t n' t' : ustep n t n' t' ->
  forall D d', get_db n' D = Some d' ->
    wit D (d_conn d') (t_pc t') \/ key_agrees d' \/
    (get_db n D = Some d' /\ ~ wit D (d_conn d') (t_pc t)).
Proof.
  intros Hu D d' Hd'. inv_ustep Hu.
  - right. right. rewrite (get_db_dbs _ _ D Hd) in Hd'. split; auto.
  - rewrite (eff_put _ _ _ _ Hd) in Hd'. destruct (String.eqb_spec D prev) as [->|Hne].
    + left. rewrite Hpc'. reflexivity.
    + right. right. split; auto. destruct (t_pc t); cbn in *; auto.
  - destruct (get_db n name) as [d1|] eqn:Hd.
    + destruct Hpost as (H2 & o & rq & r & Hpc). rewrite (eff_put _ _ _ _ H2) in Hd'.
      destruct (String.eqb_spec D name) as [->|Hne].
      * left. rewrite Hpc. reflexivity.
      * right. right. split; auto.
    + destruct Hpost as [H2 _]. right. right. rewrite (get_db_dbs _ _ D H2) in Hd'. split; auto.
  - rewrite (eff_put _ _ _ _ Hd) in Hd'. destruct (String.eqb_spec D D0) as [->|Hne].
    + injection Hd' as <-. rewrite conn_put_ckey.
      destruct (Z.eq_dec c (d_conn d0)) as [->|Hc].
      * right. left. left. now rewrite key_of_put, pubval_val.
      * left. rewrite Hpc'. split; auto.
    + right. right. split; auto. rewrite Hpc. cbn. congruence.
  - rewrite (get_db_dbs _ _ D Hd) in Hd'. destruct (String.eqb_spec D D0) as [->|Hne'].
    + left. rewrite Hpc'. reflexivity.
    + right. right. split; auto. rewrite Hpc. cbn. intros [E _]. congruence.
Qed.

(* [I] is kept by every step of a use-db thread, whichever thread of the pool takes it *)
Definition ustep_inv (I : node -> list thr -> Prop) : Prop :=
  forall n ts i t n' t', nth_error ts i = Some t -> ustep n t n' t' -> t_sid t' = t_sid t ->
    I n ts -> I n' (list_update ts i t').

Lemma PubInv_step : ustep_inv PubInv.
Proof.
  intros n ts i t n' t' Ei Hu _ Hinv D d' Hd'.
  destruct (ustep_wit _ _ _ _ Hu D d' Hd') as [Hw | [Hk | [Hd Hnw]]].
  - right. exists i, t'. split; auto. eapply nth_error_list_update_same; eauto.
  - now left.
  - destruct (Hinv D d' Hd) as [Hk | (j & w & Ej & Hw)]; [now left|].
    right. exists j, w. split; auto.
    destruct (Nat.eq_dec i j) as [->|Hij].
    + rewrite Ei in Ej. injection Ej as ->. contradiction.
    + now rewrite nth_error_list_update_other.
Qed.

Lemma selb_upd n n' c x D y :
  sdbs n' = list_update (sdbs n) c (Some x) -> (c < List.length (n_sess n))%nat ->
  selb n' D y = if Nat.eqb c y then String.eqb x D else selb n D y.
Proof.
  intros H Hc. unfold selb. rewrite !sdb_nth, H, nth_list_update, (Nat.eqb_sym y c).
  assert (E : Nat.ltb c (List.length (sdbs n)) = true).
  { apply Nat.ltb_lt. unfold sdbs. now rewrite map_length. }
  rewrite E, andb_true_r. destruct (Nat.eqb c y); reflexivity.
Qed.

Lemma sel_len_upd n n' op c D x :
  NoDup op -> In c op -> (c < List.length (n_sess n))%nat ->
  sdbs n' = list_update (sdbs n) c (Some x) ->
  Z.of_nat (List.length (selected n' op D)) =
  Z.of_nat (List.length (selected n op D)) - Z.b2z (selb n D c) + Z.b2z (String.eqb x D).
Proof.
  intros Hnd Hin Hc H.
  change (selected n' op D) with (filter (selb n' D) op).
  change (selected n op D) with (filter (selb n D) op).
  rewrite (count_split (selb n' D) c op Hnd Hin), (count_split (selb n D) c op Hnd Hin).
  assert (Hrest : filter (selb n' D) (rm c op) = filter (selb n D) (rm c op)).
  { apply filter_ext_in. intros y Hy. apply rm_In in Hy. rewrite (selb_upd _ _ _ _ _ _ H Hc).
    destruct (Nat.eqb_spec c y); [subst; tauto | reflexivity]. }
  rewrite Hrest, (selb_upd _ _ _ _ _ _ H Hc), Nat.eqb_refl.
  destruct (String.eqb x D), (selb n D c); cbn [Z.b2z]; lia.
Qed.

Lemma ustep_len n t n' t' : ustep n t n' t' -> List.length (n_sess n') = List.length (n_sess n).
Proof. intros Hu. inv_ustep Hu; eauto using sdbs_length, sdbs_upd_len. Qed.

Lemma ustep_sel_other n t n' t' : ustep n t n' t' -> (t_sid t < List.length (n_sess n))%nat ->
  forall x, x <> t_sid t -> s_db (get_sess n' x) = s_db (get_sess n x).
Proof.
  intros Hu Hc x Hx. inv_ustep Hu; try (now apply sdbs_get_sess).
  rewrite !sdb_nth, Hs, nth_list_update, (Nat.eqb_sym x (t_sid t)).
  destruct (Nat.eqb_spec (t_sid t) x); [congruence | reflexivity].
Qed.

Lemma pendb_quiet D t : quiet (t_pc t) -> pendb D t = false.
Proof. intros H. unfold pendb. now rewrite quiet_pend. Qed.

Lemma CntInv_step op : ustep_inv (fun n ts => CntInv n ts op).
Proof.
  (* by the cases of [ustep]; the first four clauses need only that t' has t's session and that the
     others keep their selection ([ustep_sel_other]); the counter clause d_conn = |selected| -
     pending moves alike on both sides, and only [US_inc] needs that t counted in D exactly when it
     was pending on D ([Heq]) *)
  intros n ts i t n' t' Ei Hu Hsid (Hnd & Hnds & Hrange & Hsel4 & Hcnt).
  assert (Hin : In t ts) by (eapply nth_error_In; eauto).
  destruct (Hrange t Hin) as [Hop Hlt].
  pose proof (ustep_len _ _ _ _ Hu) as Hlen.
  assert (Hsids : map t_sid (list_update ts i t') = map t_sid ts).
  { rewrite map_list_update_gen, Hsid. apply list_update_id. now apply map_nth_error. }
  assert (Hother : forall j w, i <> j -> nth_error ts j = Some w -> t_sid w <> t_sid t).
  { intros j w Hij Ej E. apply Hij.
    apply (proj1 (NoDup_nth_error (map t_sid ts)) Hnds).
    - rewrite map_length. apply nth_error_Some. congruence.
    - rewrite (map_nth_error t_sid _ _ Ei), (map_nth_error t_sid _ _ Ej). now rewrite E. }
  split; [exact Hnd|]. split; [now rewrite Hsids|]. split; [|split].
  - intros w Hw. apply In_nth_error in Hw. destruct Hw as [j Ej].
    rewrite Hlen. destruct (nth_error_upd _ _ _ _ _ Ej) as [[_ ->] | [_ Ej']].
    + rewrite Hsid. auto.
    + apply Hrange. eapply nth_error_In; eauto.
  - (* a pending session still carries its old selection *)
    intros w D Hw Hp. apply In_nth_error in Hw. destruct Hw as [j Ej].
    destruct (nth_error_upd _ _ _ _ _ Ej) as [[_ ->] | [Hij Ej']].
    + rewrite Hsid. inv_ustep Hu.
      * rewrite (quiet_pend _ Hq) in Hp. discriminate.
      * rewrite Hpc' in Hp. cbn in Hp. injection Hp as <-.
        now rewrite (sdbs_get_sess _ _ Hs).
      * destruct (get_db n name).
        -- destruct Hpost as (_ & o & rq & r & Hpc). rewrite Hpc in Hp. discriminate.
        -- destruct Hpost as [_ Hq]. rewrite (quiet_pend _ Hq) in Hp. discriminate.
      * rewrite (sdbs_get_sess _ _ Hs). apply Hsel4; auto.
        rewrite Hpc. rewrite Hpc' in Hp. exact Hp.
      * rewrite (sdbs_get_sess _ _ Hs). apply Hsel4; auto.
        rewrite Hpc. rewrite Hpc' in Hp. exact Hp.
    + rewrite (ustep_sel_other _ _ _ _ Hu Hlt) by eauto.
      apply Hsel4; auto. eapply nth_error_In; eauto.
  - intros D d' Hd'. unfold pend. rewrite (filter_len_upd (pendb D) ts i t' t Ei).
    fold (pend ts D). inv_ustep Hu.
    + rewrite (get_db_dbs _ _ D Hd) in Hd'. rewrite (selected_sdbs _ _ _ _ Hs), (Hcnt _ _ Hd').
      rewrite (pendb_quiet D t' Hq). unfold pendb at 1. rewrite Hpe. cbn [Z.b2z]. lia.
    + rewrite (selected_sdbs _ _ _ _ Hs). rewrite (pendb_quiet D t Hq).
      unfold pendb. rewrite Hpc'. cbn [pend_of].
      rewrite (eff_put _ _ _ _ Hd) in Hd'. rewrite (String.eqb_sym prev D).
      destruct (String.eqb_spec D prev) as [->|HneD].
      * injection Hd' as <-. cbn [d_conn db_set_conn Z.b2z]. rewrite (Hcnt _ _ Hdp). lia.
      * rewrite (Hcnt _ _ Hd'). cbn [Z.b2z]. lia.
    + rewrite (sel_len_upd n n' op (t_sid t) D name Hnd Hop Hlt Hs).
      assert (Hpt' : pendb D t' = false).
      { unfold pendb. destruct (get_db n name).
        - destruct Hpost as (_ & o & rq & r & ->). reflexivity.
        - destruct Hpost as [_ Hq]. now rewrite quiet_pend. }
      rewrite Hpt'. cbn [Z.b2z].
      (* the session counts in D before the step exactly when it was counted out of D and still
         carries D as its selection: the two terms it contributes cancel *)
      assert (Heq : forall d, get_db n D = Some d -> selb n D (t_sid t) = pendb D t).
      { intros d HdD. unfold selb, pendb. destruct Hpe as [[Hp0 Hno] | [D1 Hp1]].
        - rewrite (quiet_pend _ Hp0). destruct (s_db (get_sess n (t_sid t))) as [p|] eqn:Esel; auto.
          destruct (String.eqb_spec p D) as [->|]; auto. rewrite (Hno D eq_refl) in HdD. discriminate.
        - rewrite Hp1, (Hsel4 t D1 Hin Hp1). reflexivity. }
      destruct (get_db n name) as [d1|] eqn:Hdn.
      * destruct Hpost as (H2 & _). rewrite (eff_put _ _ _ _ H2) in Hd'.
        rewrite (String.eqb_sym name D).
        destruct (String.eqb_spec D name) as [->|HneD].
        -- injection Hd' as <-. cbn [d_conn db_set_conn Z.b2z].
           rewrite (Hcnt _ _ Hdn), (Heq _ Hdn). lia.
        -- rewrite (Hcnt _ _ Hd'), (Heq _ Hd'). cbn [Z.b2z]. lia.
      * destruct Hpost as (H2 & _). rewrite (get_db_dbs _ _ D H2) in Hd'.
        destruct (String.eqb_spec name D) as [->|HneD]; [congruence|].
        rewrite (Hcnt _ _ Hd'), (Heq _ Hd'). cbn [Z.b2z]. lia.
    + rewrite (selected_sdbs _ _ _ _ Hs).
      assert (Hpp : pendb D t' = pendb D t) by (unfold pendb; rewrite Hpc, Hpc'; reflexivity).
      rewrite Hpp. rewrite (eff_put _ _ _ _ Hd) in Hd'.
      destruct (String.eqb_spec D D0) as [->|HneD].
      * injection Hd' as <-. rewrite conn_put_ckey, (Hcnt _ _ Hdb). lia.
      * rewrite (Hcnt _ _ Hd'). lia.
    + rewrite (selected_sdbs _ _ _ _ Hs).
      assert (Hpp : pendb D t' = pendb D t) by (unfold pendb; rewrite Hpc, Hpc'; reflexivity).
      rewrite Hpp. rewrite (get_db_dbs _ _ D Hd) in Hd'. rewrite (Hcnt _ _ Hd'). lia.
Qed.

(* use-db threads over a node whose key versions are at most [B]: what makes a release a [ustep] *)
Definition UsedbInv (B : Z) (n : node) (ts : list thr) : Prop := Forall usedb_thr ts /\ VerInv B n.

Lemma release_nth_UsedbInv B n ts i :
  0 <= B < i32_max -> UsedbInv B n ts -> UsedbInv (B + 1) (fst (release_nth n ts i)) (snd (release_nth n ts i)).
Proof.
  intros HB [Ht Hv]. apply (release_nth_inv (UsedbInv (B + 1))).
  { split; [exact Ht | eapply VerInv_weaken; [|exact Hv]; lia]. }
  intros t E _. pose proof (nth_error_Forall _ _ _ _ Ht E) as Hu. split.
  - apply Forall_list_update; [exact Ht | eapply release_usedb; eauto].
  - eapply ustep_VerInv; [eapply release_ustep; eauto | exact Hv | lia].
Qed.

Lemma release_nth_ustep I B n ts i : ustep_inv I ->
  0 <= B < i32_max -> UsedbInv B n ts -> I n ts -> I (fst (release_nth n ts i)) (snd (release_nth n ts i)).
Proof.
  intros HI HB [Ht Hv] Hi. apply (release_nth_inv I); [exact Hi|]. intros t E _.
  eapply HI; eauto using release_sid. eapply release_ustep; eauto. eapply nth_error_Forall; eauto.
Qed.

(* an invariant indexed by the bound on the key versions, which every release may use up by
   one, along a schedule that the bound allows *)
Lemma run_schedule_budget (I : Z -> node -> list thr -> Prop) :
  (forall B n ts i, 0 <= B < i32_max -> I B n ts ->
     I (B + 1) (fst (release_nth n ts i)) (snd (release_nth n ts i))) ->
  forall sched B n ts, 0 <= B -> B + Z.of_nat (List.length sched) <= i32_max -> I B n ts ->
  I (B + Z.of_nat (List.length sched)) (fst (run_schedule n ts sched)) (snd (run_schedule n ts sched)).
Proof.
  intros Hstep. induction sched as [|i r IH]; intros B n ts HB Hlen Hi.
  - cbn. now replace (B + 0) with B by lia.
  - rewrite run_schedule_cons.
    replace (B + Z.of_nat (List.length (i :: r))) with (B + 1 + Z.of_nat (List.length r))
      in * by (cbn [List.length]; lia).
    apply IH; try lia. apply Hstep; auto. lia.
Qed.

Lemma run_schedule_ustep I : ustep_inv I ->
  forall sched B n ts, 0 <= B -> B + Z.of_nat (List.length sched) <= i32_max -> UsedbInv B n ts -> I n ts ->
  UsedbInv (B + Z.of_nat (List.length sched)) (fst (run_schedule n ts sched)) (snd (run_schedule n ts sched)) /\
  I (fst (run_schedule n ts sched)) (snd (run_schedule n ts sched)).
Proof.
  intros HI sched B n ts HB Hlen Hu Hi.
  apply (run_schedule_budget (fun B n ts => UsedbInv B n ts /\ I n ts)); auto.
  clear - HI. intros B n ts i HB [Hu Hi]. split; [now apply release_nth_UsedbInv | now apply (release_nth_ustep I B)].
Qed.

Definition all_done (ts : list thr) : Prop := Forall (fun t => is_done t = true) ts.

Lemma done_no_wit ts D c : all_done ts ->
  ~ exists j w, nth_error ts j = Some w /\ wit D c (t_pc w).
Proof.
  intros Hd (j & w & Ej & Hw).
  pose proof (nth_error_Forall _ _ _ _ Hd Ej) as H. cbn in H. unfold is_done in H.
  destruct (t_pc w); cbn in Hw; try contradiction; discriminate.
Qed.

(* the key: after ANY schedule that leaves every thread done, "$connections" of every
   database holds the counter.  Side condition: the key's version does not reach i32::MAX
   during the run (every release adds at most one; see [C17_sched_key_stuck_saturated]). *)
Theorem C17_sched_key_agrees n ts sched B :
  Forall usedb_thr ts ->
  VerInv B n -> 0 <= B -> B + Z.of_nat (List.length sched) <= i32_max ->
  PubInv n ts ->
  all_done (snd (run_schedule n ts sched)) ->
  forall D d, get_db (fst (run_schedule n ts sched)) D = Some d -> key_agrees d.
Proof.
  intros Ht Hv HB Hlen Hp Hdone D d Hd.
  destruct (run_schedule_ustep _ PubInv_step sched B n ts HB Hlen (conj Ht Hv) Hp) as [_ Hp'].
  destruct (Hp' D d Hd) as [Hk | Hw]; auto.
  exfalso. exact (done_no_wit _ _ _ Hdone Hw).
Qed.

Lemma key_present_put d v : key_of_db (put_value d ckey v) <> None.
Proof. rewrite key_of_put. discriminate. Qed.

Definition keys_present (n : node) : Prop := forall D d, get_db n D = Some d -> key_of_db d <> None.

Lemma ustep_keys_present : ustep_inv (fun n _ => keys_present n).
Proof.
  intros n ts i t n' t' _ Hu _ Hk. unfold keys_present.
  apply (ustep_dbs (fun d => key_of_db d <> None) (fun d => key_of_db d <> None) n t n' t' Hu); auto.
  intros d c o _. apply key_present_put.
Qed.

(* the key, once written, stays: a database whose key was there at the start ends with the key
   equal to the counter (the "absent" alternative of [key_agrees] is for databases that were
   never selected) *)
Corollary C17_sched_key_equals n ts sched B :
  Forall usedb_thr ts ->
  VerInv B n -> 0 <= B -> B + Z.of_nat (List.length sched) <= i32_max ->
  PubInv n ts -> keys_present n ->
  all_done (snd (run_schedule n ts sched)) ->
  forall D d, get_db (fst (run_schedule n ts sched)) D = Some d ->
    key_of_db d = Some (Z_to_str (d_conn d)).
Proof.
  intros Ht Hv HB Hlen Hp Hk Hdone D d Hd.
  destruct (C17_sched_key_agrees n ts sched B Ht Hv HB Hlen Hp Hdone D d Hd) as [H | [H _]]; auto.
  exfalso. exact (proj2 (run_schedule_ustep _ ustep_keys_present sched B n ts HB Hlen (conj Ht Hv) Hk) D d Hd H).
Qed.

Lemma all_done_pend ts D : all_done ts -> pend ts D = 0%nat.
Proof.
  unfold pend. induction 1 as [|t r Ht _ IH]; cbn [filter]; auto.
  cbn in Ht. unfold pendb, is_done in *. destruct (t_pc t); try discriminate. exact IH.
Qed.

Theorem C17_sched_counter_agrees n ts sched B op :
  Forall usedb_thr ts ->
  VerInv B n -> 0 <= B -> B + Z.of_nat (List.length sched) <= i32_max ->
  PubInv n ts -> CntInv n ts op ->
  let n' := fst (run_schedule n ts sched) in
  let ts' := snd (run_schedule n ts sched) in
  CntInv n' ts' op /\
  (all_done ts' ->
   forall D d, get_db n' D = Some d -> d_conn d = Z.of_nat (List.length (selected n' op D))).
Proof.
  intros Ht Hv HB Hlen _ Hc. cbn zeta.
  destruct (run_schedule_ustep _ (CntInv_step op) sched B n ts HB Hlen (conj Ht Hv) Hc) as [_ Hc'].
  split; auto. intros Hdone D d Hd.
  destruct Hc' as (_ & _ & _ & _ & Hcnt). rewrite (Hcnt _ _ Hd), (all_done_pend _ _ Hdone). lia.
Qed.

Lemma PubInv_init n ts : (forall D d, get_db n D = Some d -> key_agrees d) -> PubInv n ts.
Proof. intros H D d Hd. left. eauto. Qed.

Lemma conn_key_ok_agrees n :
  conn_key_ok n ->
  (forall D d v, get_db n D = Some d -> get_value d ckey = Some v -> v_st v <> VDeleted) ->
  (forall D d, get_db n D = Some d -> get_value d ckey = None -> d_conn d = 0) ->
  forall D d, get_db n D = Some d -> key_agrees d.
Proof.
  intros Hk Hst H0 D d Hd. unfold key_agrees, key_of_db. fold ckey.
  destruct (get_value d ckey) as [v|] eqn:Hg.
  - left. f_equal. eapply Hk; eauto.
  - right. split; auto. eauto.
Qed.

(* threads at a command boundary over a node that satisfies the sequential invariant *)
Lemma CntInv_init n ts op :
  ConnInv (n, op) -> NoDup (map t_sid ts) ->
  (forall t, In t ts -> In (t_sid t) op /\ quiet (t_pc t)) ->
  CntInv n ts op.
Proof.
  intros (Hnd & Hlt & Hcnt & _) Hs Ht.
  assert (Hp : forall D, pend ts D = 0%nat).
  { intros D. unfold pend. clear Hs. induction ts as [|t r IH]; auto. cbn [filter].
    rewrite pendb_quiet by (apply Ht; now left). apply IH. intros x Hx. apply Ht. now right. }
  split; auto. split; auto. split; [|split].
  - intros t Hin. destruct (Ht t Hin). auto.
  - intros t D Hin Hpe. destruct (Ht t Hin) as [_ Hq]. rewrite (quiet_pend _ Hq) in Hpe. discriminate.
  - intros D d Hd. rewrite (Hcnt _ _ Hd), Hp. lia.
Qed.

(* session 0 (the administrator) created database d (token t1) and selected it: counter 1,
   key "1".  Sessions 1 and 2 both run "use-db d t1". *)
Definition rx_node : node :=
  let '(n, c) := connect (init_node "u" "p" "a" 1 Primary 0) in
  let n := ex_steps n c ["auth u p"; "create-db d t1 none"; "use-db d t1"] in
  let '(n, c1) := connect n in
  let '(n, c2) := connect n in n.
Definition rx_ts : list thr := [new_thread 1 ["use-db d t1"] []; new_thread 2 ["use-db d t1"] []].
Definition rx_look (n : node) : option (option str * Z) :=
  option_map (fun d => (key_of_db d, d_conn d)) (get_db n "d").

(* schedule: thread 1 up to its map.write park (it has counted itself in: 2, and carries "2"),
   thread 2 completely (counter 3, key "3"), then thread 1: its WRITE puts the stale "2" over
   the "3" (a publish without the re-check would end here); the re-check sees 3 <> 2, and a
   second publish round writes "3". *)
Example C17_race_without_recheck :
  rx_look rx_node = Some (Some "1", 1) /\
  map t_pc (snd (run_schedule rx_node rx_ts [0; 0]%nat)) =
    [PcPub "d" 2 6 (KFinish (RqUseDb "t1" "d" None) ROk); PcCmd] /\
  rx_look (fst (run_schedule rx_node rx_ts [0; 0; 1; 1; 1; 1]%nat)) = Some (Some "3", 3) /\
  map is_done (snd (run_schedule rx_node rx_ts [0; 0; 1; 1; 1; 1]%nat)) = [false; true] /\
  (* after thread 1's write: the key says 2, the counter is 3, thread 2 is done *)
  rx_look (fst (run_schedule rx_node rx_ts [0; 0; 1; 1; 1; 1; 0]%nat)) = Some (Some "2", 3) /\
  map t_pc (snd (run_schedule rx_node rx_ts [0; 0; 1; 1; 1; 1; 0]%nat)) =
    [PcPubNotify "d" 2 2 (KFinish (RqUseDb "t1" "d" None) ROk); PcDone] /\
  (* the re-check: publish again *)
  rx_look (fst (run_schedule rx_node rx_ts [0; 0; 1; 1; 1; 1; 0; 0; 0; 0]%nat)) = Some (Some "3", 3) /\
  map (fun t => (t_pc t, t_trace t, t_replies t))
      (snd (run_schedule rx_node rx_ts [0; 0; 1; 1; 1; 1; 0; 0; 0; 0]%nat)) =
    [(PcDone, ["cmd"; "map.read"; "map.write"; "watchers.read"; "map.write"; "watchers.read"], [ROk]);
     (PcDone, ["cmd"; "map.read"; "map.write"; "watchers.read"], [ROk])] /\
  (* run_par from the same prefix ends in the same state *)
  rx_look (fst (run_par rx_node rx_ts [0; 0; 1; 1; 1; 1]%nat)) = Some (Some "3", 3).
Proof. vm_compute. repeat split. Qed.

(* the version side condition of the key theorems is necessary: with the key's version at
   i32::MAX the write is refused (set_value answers a version error that the publish drops),
   the re-check passes (the counter did not move), and the key stays behind *)
Definition sx_node : node := fst (connect (fst kx_sat)).
Definition sx_ts : list thr := [new_thread 1 ["use-db $admin p"] []].

Example C17_sched_key_stuck_saturated :
  Forall usedb_thr sx_ts /\ PubInv sx_node sx_ts /\
  all_done (snd (run_schedule sx_node sx_ts [0; 0; 0; 0]%nat)) /\
  option_map (fun d => (key_of_db d, d_conn d, option_map v_ver (get_value d ckey)))
             (get_db (fst (run_schedule sx_node sx_ts [0; 0; 0; 0]%nat)) "$admin") =
    Some (Some "1", 2, Some i32_max).
Proof.
  split; [|split; [|split]].
  - repeat constructor. exists "p", "$admin", None. vm_compute. reflexivity.
  - apply PubInv_init. refine (all_dbs _ _ _ _ _); [vm_compute; reflexivity|].
    repeat apply Forall_cons; try apply Forall_nil. left. vm_compute. reflexivity.
  - vm_compute. repeat constructor.
  - vm_compute. reflexivity.
Qed.

Fixpoint run_alone (k : nat) (n : node) (t : thr) : node * thr :=
  match k with
  | O => (n, t)
  | S k' => let '(n1, t1) := release n t in run_alone k' n1 t1
  end.

Lemma run_alone_S k n t : run_alone (S k) n t = run_alone k (fst (release n t)) (snd (release n t)).
Proof. cbn [run_alone]. now destruct (release n t). Qed.

Lemma run_alone_app a : forall b n t,
  run_alone (a + b) n t = run_alone b (fst (run_alone a n t)) (snd (run_alone a n t)).
Proof.
  induction a as [|a IH]; intros b n t; [reflexivity|]. cbn [Nat.add]. rewrite !run_alone_S. apply IH.
Qed.

(* the same thread but for its park point and its trace *)
Definition same_thr (t0 t : thr) : Prop :=
  t_sid t0 = t_sid t /\ t_prog t0 = t_prog t /\ t_replies t0 = t_replies t /\ t_hints t0 = t_hints t.

Lemma same_thr_trans a b c : same_thr a b -> same_thr b c -> same_thr a c.
Proof. unfold same_thr. intuition congruence. Qed.

(* [t'] is [t] with its command finished with reply [r] *)
Definition fin_of (t : thr) (r : resp) (t' : thr) : Prop := exists t0, same_thr t0 t /\ t' = finish t0 r.

Lemma fin_of_same t0 t r t' : same_thr t0 t -> fin_of t0 r t' -> fin_of t r t'.
Proof. intros H (tx & Hx & E). exists tx. eauto using same_thr_trans. Qed.

Lemma fin_of_refl t r : fin_of t r (finish t r).
Proof. exists t. repeat split. Qed.

(* a publish that nobody disturbs: two releases after the one that called start_publish the
   node is what set_connection_counter makes of it and the thread goes on with the
   continuation: the re-check succeeds at once *)
Lemma publish_alone m t D k d :
  get_db m D = Some d -> writable d ->
  exists t2, same_thr t2 t /\
    run_alone 2 (fst (start_publish m t D k)) (snd (start_publish m t D k)) =
    after_publish (set_connection_counter m D) t2 k.
Proof.
  intros Hd Hw. rewrite (start_publish_some _ _ _ _ _ Hd). cbn [fst snd].
  set (o := n_clock m). set (m1 := n_set_clock m (o + 1)%N).
  set (t1 := park t (PcPub D (d_conn d) o k) "map.write").
  set (v := pubval d (d_conn d) o).
  exists (park t1 (PcPubNotify D (d_conn d) (v_ver v) k) "watchers.read"). split; [repeat split|].
  rewrite run_alone_S, (release_pub m1 t1 D (d_conn d) o k d eq_refl Hd Hw). cbn [fst snd run_alone]. fold v.
  unfold release. cbn [t_pc park]. rewrite get_db_put_same, conn_put_ckey, Z.eqb_refl, (scc_eq m D d Hd Hw).
  now destruct (after_publish _ _ _).
Qed.

Lemma replicate_usedb n tok nm u s :
  (forall p, s = Some p -> get_db n p <> None) ->
  replicate_request n (RqUseDb tok nm u) s ROk = (n, ROk).
Proof.
  intros H. unfold replicate_request. destruct s as [p|]; [|reflexivity].
  unfold has_db. specialize (H p eq_refl). destruct (get_db n p); [reflexivity | congruence].
Qed.

Lemma scc_sdbs m D : sdbs (set_connection_counter m D) = sdbs m.
Proof. exact (proj1 (frame_set_connection_counter m m D (frame_refl m))). Qed.

Lemma scc_mono m D : dbs_mono m (set_connection_counter m D).
Proof. apply frame_mono, frame_set_connection_counter, frame_refl. Qed.

Lemma VerInv_client_left B n c :
  VerInv B n -> 0 <= B < i32_max -> VerInv (B + 1) (client_left n c).
Proof.
  intros Hv HB. unfold client_left.
  destruct (s_db _) as [D|]; [|eapply VerInv_weaken; [|exact Hv]; lia].
  destruct (get_db n D) as [d|] eqn:Hd; [|eapply VerInv_weaken; [|exact Hv]; lia].
  set (d' := db_set_conn d (d_conn d - 1)).
  assert (Hw : writable d').
  { intros v Hg. change (get_value d ckey = Some v) in Hg. specialize (Hv _ _ _ Hd Hg). lia. }
  intros x dx v. rewrite (scc_get_db _ _ _ _ (get_db_put_same n D d') Hw).
  destruct (String.eqb_spec x D) as [->|Hne].
  - intros [= <-]. rewrite gv_put_same. intros [= <-].
    unfold new_conn_value. change (get_value d' ckey) with (get_value d ckey).
    destruct (get_value d ckey) as [old|] eqn:Hg; cbn [v_ver]; [|lia].
    specialize (Hv _ _ _ Hd Hg). lia.
  - rewrite get_db_put_other by auto. intros Hx Hg. specialize (Hv _ _ _ Hx Hg). lia.
Qed.

(* a valid use-db parked at its token check and released alone, first part: the session is
   counted out of the database it had selected, as [client_left] does it *)
Lemma dec_alone B n t tok name user d :
  let c := t_sid t in
  t_pc t = PcUseTok tok name user -> get_db n name = Some d ->
  match get_value d (match user return string with Some u => "$$user_" +++ u | None => "$$token" end) with
  | Some v => String.eqb (v_val v) tok | None => false end = true ->
  VerInv B n -> 0 <= B < i32_max ->
  (forall p, s_db (get_sess n c) = Some p -> get_db n p <> None) ->
  exists t3, same_thr t3 t /\
    run_alone (match s_db (get_sess n c) with Some _ => 3 | None => 1 end) n t =
    use_inc (client_left n c) t3 name user (RqUseDb tok name user).
Proof.
  intros c Hpc Hd Hval Hv HB Hsel. unfold client_left. fold c.
  destruct (s_db (get_sess n c)) as [prev|] eqn:Hs.
  - destruct (get_db n prev) as [dp|] eqn:Hdp; [|destruct (Hsel prev eq_refl Hdp)].
    rewrite run_alone_S. unfold release. rewrite Hpc, Hd. cbn zeta. fold c. rewrite Hval, Hs, Hdp. cbn [negb].
    eapply publish_alone; [apply get_db_put_same|].
    intros v Hg. change (get_value dp ckey = Some v) in Hg. specialize (Hv _ _ _ Hdp Hg). lia.
  - exists t. split; [repeat split|].
    cbn [run_alone]. unfold release. rewrite Hpc, Hd. cbn zeta. fold c. rewrite Hval, Hs. cbn [negb].
    now destruct (use_inc _ _ _ _ _).
Qed.

(* second part: the session selects the database and is counted in *)
Lemma inc_alone n0 t tok name user d1 :
  let c := t_sid t in
  let rq := RqUseDb tok name user in
  let n1 := sel_sess n0 c name user in
  get_db n0 name = Some d1 -> writable d1 -> (c < List.length (n_sess n0))%nat ->
  exists t', run_alone 2 (fst (use_inc n0 t name user rq)) (snd (use_inc n0 t name user rq)) =
             (set_connection_counter (put_db n1 name (db_set_conn d1 (d_conn d1 + 1))) name, t') /\
             fin_of t ROk t'.
Proof.
  intros c rq n1 Hd Hw Hc.
  set (m := put_db n1 name (db_set_conn d1 (d_conn d1 + 1))).
  destruct (publish_alone m t name (KFinish rq ROk) _ (get_db_put_same _ _ _) Hw) as (t2 & Hs2 & R).
  assert (Hui : use_inc n0 t name user rq = start_publish m t name (KFinish rq ROk)).
  { unfold use_inc. fold c. fold (sel_sess n0 c name user). fold n1.
    change (get_db n1 name) with (get_db n0 name). now rewrite Hd. }
  rewrite Hui, R. cbn [after_publish]. unfold rq. rewrite replicate_usedb.
  - eexists. split; [reflexivity|]. exists t2. auto.
  - intros p Hp. rewrite (proj1 Hs2) in Hp. fold c in Hp.
    rewrite (sdbs_get_sess _ _ (scc_sdbs m name)) in Hp.
    change (s_db (get_sess n1 c) = Some p) in Hp. unfold n1, sel_sess in Hp.
    rewrite get_sess_put_sess, Nat.eqb_refl in Hp.
    assert (E : Nat.ltb c (List.length (n_sess n0)) = true) by now apply Nat.ltb_lt.
    rewrite E in Hp. cbn in Hp. injection Hp as <-.
    apply scc_mono. unfold m. now rewrite get_db_put_same.
Qed.

(* a use-db released alone does what Node.step does *)
Theorem usedb_sequential n t line rest tok name user B :
  let c := t_sid t in
  t_pc t = PcCmd -> t_prog t = line :: rest ->
  parse_request (trim_char nl line) = POk (RqUseDb tok name user) ->
  VerInv B n -> 0 <= B -> B + 1 < i32_max ->
  (c < List.length (n_sess n))%nat ->
  (forall p, s_db (get_sess n c) = Some p -> get_db n p <> None) ->
  exists k t', (k <= 6)%nat /\
    run_alone k n t = (fst (step n c line), t') /\
    t_replies t' = t_replies t ++ [snd (step n c line)] /\
    t_prog t' = rest /\ at_boundary t' /\ t_sid t' = c /\ t_hints t' = t_hints t /\
    (* number of releases: 1 unknown database, 2 wrong token, 4 no previous selection,
       6 with a previous selection: each publish takes its two releases and no more *)
    k = match get_db n name with
        | None => 1%nat
        | Some d =>
            if match get_value d (match user with Some u => "$$user_" +++ u | None => "$$token" end) with
               | Some v => String.eqb (v_val v) tok | None => false end
            then match s_db (get_sess n c) with Some _ => 6%nat | None => 4%nat end
            else 2%nat
        end.
Proof.
  intros c Hpc Hprog Hparse Hv HB0 HB Hc Hsel.
  set (t0 := mkThr (t_sid t) rest (t_pc t) (t_replies t) (t_trace t) (t_hints t)).
  assert (Hfin : forall r t', fin_of t0 r t' ->
            t_replies t' = t_replies t ++ [r] /\ t_prog t' = rest /\ at_boundary t' /\
            t_sid t' = c /\ t_hints t' = t_hints t).
  { intros r t' (tx & (H1 & H2 & H3 & H4) & ->).
    rewrite finish_replies, finish_prog, finish_sid, finish_hints, H1, H2, H3, H4.
    repeat split; auto using finish_boundary. }
  rewrite (step_eq n c line _ Hparse) by discriminate.
  rewrite (surjective_pairing (handle n c (RqUseDb tok name user))). cbv beta iota.
  assert (R0 : release n t =
               match get_db n name with
               | None => (n, finish t0 (RError "Not a valid database name"))
               | Some _ => (n, park t0 (PcUseTok tok name user) "map.read")
               end).
  { unfold release. rewrite Hpc. unfold start_cmd. rewrite Hprog, Hparse. cbn [key_of]. fold t0.
    destruct (get_db n name); reflexivity. }
  unfold handle, release_previous. fold c.
  destruct (get_db n name) as [d|] eqn:Hd.
  2:{ exists 1%nat, (finish t0 (RError "Not a valid database name")). cbn [fst snd run_alone]. rewrite R0.
      destruct (Hfin _ _ (fin_of_refl t0 (RError "Not a valid database name"))) as (A & B' & C & D' & E).
      repeat split; auto. lia. }
  set (t1 := park t0 (PcUseTok tok name user) "map.read") in *.
  assert (H01 : same_thr t1 t0) by (repeat split).
  destruct (match get_value d _ with Some v => String.eqb (v_val v) tok | None => false end) eqn:Hval.
  2:{ exists 2%nat, (finish t1 (RError "Invalid token")). cbn [fst snd]. split; [lia|]. split.
      - rewrite run_alone_S, R0. cbn [fst snd run_alone]. unfold release. cbn [t_pc park t1].
        now rewrite Hd, Hval.
      - destruct (Hfin _ _ (fin_of_same _ _ _ _ H01 (fin_of_refl t1 (RError "Invalid token"))))
          as (A & B' & C & D' & E). repeat split; auto. }
  (* the session is counted out of its database ... *)
  destruct (dec_alone B n t1 tok name user d eq_refl Hd Hval Hv ltac:(lia) Hsel) as (t3 & Hs3 & Hrun).
  change (t_sid t1) with c in Hrun. set (n0 := client_left n c) in *.
  (* ... and into the new one *)
  assert (Hd0 : get_db n0 name <> None) by (apply client_left_mono; congruence).
  change (get_db (put_sess n0 c _) name) with (get_db n0 name).
  destruct (get_db n0 name) as [d1|] eqn:Hd1; [|congruence]. cbn [fst snd].
  assert (Hw1 : writable d1).
  { eapply VerInv_writable; [apply (VerInv_client_left B n c Hv)| |exact Hd1]; lia. }
  destruct (inc_alone n0 t3 tok name user d1 Hd1 Hw1) as (t' & R4 & Hf).
  { rewrite (proj1 Hs3). unfold n0. now rewrite (sdbs_length _ _ (client_left_sdbs n c)). }
  cbn zeta in R4. rewrite (proj1 Hs3) in R4. change (t_sid t1) with c in R4.
  (* the answer: the database selected before is still there *)
  rewrite replicate_usedb.
  2:{ intros p Hp. apply scc_mono, put_db_mono. change (get_db n0 p <> None).
      apply client_left_mono, Hsel, Hp. }
  cbn [fst snd].
  exists (S ((match s_db (get_sess n c) with Some _ => 3 | None => 1 end) + 2)), t'.
  split; [destruct (s_db _); lia|]. split.
  - rewrite run_alone_S, R0. cbn [fst snd]. now rewrite run_alone_app, Hrun.
  - destruct (Hfin _ _ (fin_of_same _ _ _ _ (same_thr_trans _ _ _ Hs3 H01) Hf)) as (A & B' & C & D' & E).
    repeat split; auto. now destruct (s_db _).
Qed.

Lemma boundary_quiet t : at_boundary t -> quiet (t_pc t).
Proof. intros [E|E]; rewrite E; exact I. Qed.

(* only the start of a command leads to a quiet park point inside the command *)
Lemma pc_next_quiet n prog p p' : p <> PcCmd -> pc_next n prog p p' -> ~ quiet p'.
Proof.
  intros Hc H. destruct H as [| ? ? ? Hg| | | | | | | | | | | ]; cbn; auto.
  destruct Hg; cbn; auto.
Qed.

Lemma release_shape n t : t_pc t <> PcCmd ->
  t_prog (snd (release n t)) = t_prog t /\
  (quiet (t_pc (snd (release n t))) -> at_boundary (snd (release n t))).
Proof.
  intros Hc. destruct (release_post n t Hc) as (_ & _ & Hp & [Hb|Hn]); (split; [exact Hp|]); [auto|].
  intros Hq. destruct (pc_next_quiet _ _ _ _ Hc Hn Hq).
Qed.

(* the count [c] that a publish of D carries is still the counter of D (or D is gone) *)
Definition fresh_count (n : node) (D : str) (c : Z) : bool :=
  match get_db n D with Some d => Z.eqb (d_conn d) c | None => true end.

Definition cont_cost (k : pubk) : nat := match k with KUseInc _ _ _ => 3 | KFinish _ _ => 1 end.

(* a bound, going down with every release, on the releases a thread still needs for its command:
   a publish takes two (write, notify) and two more when its count is stale; [cont_cost]: what comes
   after it (the second publish of a use-db that left a database, and the last release) *)
Definition pc_cost (n : node) (p : pc) : nat :=
  match p with
  | PcCmd => 1
  | PcUseTok _ _ _ => 6
  | PcPub D c _ k => (if fresh_count n D c then 2 else 4) + cont_cost k
  | PcPubNotify D c _ k => (if fresh_count n D c then 1 else 3) + cont_cost k
  | _ => 0
  end.

Definition thr_cost (n : node) (t : thr) : nat := 8 * List.length (t_prog t) + pc_cost n (t_pc t).

Lemma pc_cost_le n p : (pc_cost n p <= 7)%nat.
Proof. destruct p; cbn; try lia; destruct (fresh_count _ _ _), k; cbn; lia. Qed.

Lemma pc_cost_boundary n t : at_boundary t -> (pc_cost n (t_pc t) <= 1)%nat.
Proof. intros [E|E]; rewrite E; cbn; lia. Qed.

Lemma fresh_count_put n n' D d' c :
  n_dbs n' = n_dbs (put_db n D d') -> fresh_count n' D c = Z.eqb (d_conn d') c.
Proof. intros H. unfold fresh_count. now rewrite (eff_put _ _ _ _ H), String.eqb_refl. Qed.

Lemma fresh_count_dbs n n' D c : n_dbs n' = n_dbs n -> fresh_count n' D c = fresh_count n D c.
Proof. intros H. unfold fresh_count. now rewrite (get_db_dbs _ _ D H). Qed.

Lemma release_thr_cost B n t :
  usedb_thr t -> VerInv B n -> 0 <= B < i32_max -> is_done t = false ->
  (thr_cost (fst (release n t)) (snd (release n t)) < thr_cost n t)%nat.
Proof.
  intros Ht Hv HB Hnd. unfold thr_cost.
  destruct (pc_cmd_dec t) as [Hc|Hc].
  - (* a command starts: its line goes *)
    unfold release. rewrite Hc. destruct (t_prog t) as [|l rest] eqn:Hp.
    + rewrite (start_cmd_nil n t Hp). cbn. lia.
    + destruct (start_cmd_post n t l rest Hp) as (_ & _ & -> & _).
      pose proof (pc_cost_le (fst (start_cmd n t)) (t_pc (snd (start_cmd n t)))). cbn [t_prog List.length pc_cost]. lia.
  - pose proof (release_ustep B n t Ht Hv HB) as Hu.
    destruct (release_shape n t Hc) as [Hprog Hb].
    destruct (release n t) as [n' t']. cbn [fst snd] in *.
    rewrite Hprog. apply Nat.add_lt_mono_l.
    destruct Ht as [_ Hup].
    assert (Hsrc : quiet (t_pc t) -> exists a b c, t_pc t = PcUseTok a b c).
    { unfold is_done in Hnd. destruct (t_pc t); cbn; try contradiction; try congruence; eauto. }
    inv_ustep Hu.
    + specialize (Hb Hq). pose proof (pc_cost_boundary n' t' Hb).
      unfold is_done in Hnd. destruct (t_pc t); cbn in *; try contradiction; try congruence; try lia;
        destruct (fresh_count _ _ _), k; cbn; lia.
    + destruct (Hsrc Hq) as (a & b & c0 & E). rewrite E, Hpc'. cbn [pc_cost cont_cost].
      rewrite (fresh_count_put _ _ _ _ _ Hd). cbn [d_conn db_set_conn]. rewrite Z.eqb_refl. lia.
    + assert (Hsrc' : (4 <= pc_cost n (t_pc t))%nat).
      { destruct Hpe as [[Hq _] | [D1 Hp1]].
        - destruct (Hsrc Hq) as (a & b & c0 & E). rewrite E. cbn. lia.
        - destruct (t_pc t); cbn in Hp1; try discriminate; destruct k; try discriminate;
            cbn; destruct (fresh_count _ _ _); lia. }
      destruct (get_db n name) as [d1|].
      * destruct Hpost as (H2 & o & rq & r & E). rewrite E. cbn [pc_cost cont_cost].
        rewrite (fresh_count_put _ _ _ _ _ H2). cbn [d_conn db_set_conn]. rewrite Z.eqb_refl. lia.
      * destruct Hpost as [_ Hq]. pose proof (pc_cost_boundary n' t' (Hb Hq)). lia.
    + rewrite Hpc, Hpc'. cbn [pc_cost]. rewrite (fresh_count_put _ _ _ _ _ Hd), conn_put_ckey.
      unfold fresh_count. rewrite Hdb. destruct (Z.eqb _ _); lia.
    + rewrite Hpc, Hpc'. cbn [pc_cost]. rewrite (fresh_count_dbs _ _ _ _ Hd).
      unfold fresh_count. rewrite Hdb, Z.eqb_refl.
      destruct (Z.eqb_spec (d_conn d0) c); [contradiction | lia].
Qed.

Definition thr_cost_max (t : thr) : nat := 8 * List.length (t_prog t) + 8.
Definition tail_cost (l : list thr) : nat := fold_right (fun t a => (thr_cost_max t + a)%nat) 0%nat l.

Lemma thr_cost_lt_max n t : (thr_cost n t + 1 <= thr_cost_max t)%nat.
Proof. unfold thr_cost, thr_cost_max. pose proof (pc_cost_le n (t_pc t)). lia. Qed.

(* threads before position i are done and stay as they are; from position i on, the fuel
   covers what each thread can still need *)
Lemma run_out_done fuel : forall B n ts i,
  0 <= B -> B + Z.of_nat fuel <= i32_max -> UsedbInv B n ts ->
  all_done (firstn i ts) ->
  (match nth_error ts i with
   | Some t => thr_cost n t + 1 + tail_cost (skipn (S i) ts)
   | None => 0
   end <= fuel)%nat ->
  all_done (snd (run_out fuel n ts i)).
Proof.
  induction fuel as [|f IH]; intros B n ts i HB Hf Hi Hpre Hfuel; cbn [run_out].
  - destruct (nth_error ts i) eqn:E; [lia|]. cbn [snd].
    rewrite <- (firstn_all2 ts (n := i)); auto. apply nth_error_None. exact E.
  - destruct (nth_error ts i) as [t|] eqn:E.
    2:{ cbn [snd]. rewrite <- (firstn_all2 ts (n := i)); auto. apply nth_error_None. exact E. }
    destruct (is_done t) eqn:Hdn.
    + apply (IH (B + 1)); try lia.
      * split; [apply Hi | eapply VerInv_weaken; [|apply Hi]; lia].
      * rewrite (firstn_S_nth _ _ _ E). apply Forall_app. split; auto.
      * destruct (nth_error ts (S i)) as [t2|] eqn:E2; [|lia].
        rewrite (skipn_nth _ _ _ E2) in Hfuel. cbn [tail_cost fold_right] in Hfuel.
        fold (tail_cost (skipn (S (S i)) ts)) in Hfuel.
        pose proof (thr_cost_lt_max n t2). lia.
    + pose proof (release_nth_UsedbInv B n ts i ltac:(lia) Hi) as H1.
      rewrite (release_nth_live n ts i t E Hdn) in *. cbn [fst snd] in *.
      pose proof (release_thr_cost B n t (nth_error_Forall _ _ _ _ (proj1 Hi) E) (proj2 Hi) ltac:(lia) Hdn) as Hmu.
      apply (IH (B + 1)); auto; try lia.
      * now rewrite firstn_list_update.
      * rewrite (nth_error_list_update_same _ _ _ _ E), skipn_list_update by lia. lia.
Qed.

(* run_out with enough fuel finishes every thread: nothing is assumed about the threads being
   done -- they are *)
Theorem C17_run_out_all_done n ts fuel B :
  Forall usedb_thr ts -> VerInv B n -> 0 <= B -> B + Z.of_nat fuel <= i32_max ->
  (tail_cost ts <= fuel)%nat ->
  all_done (snd (run_out fuel n ts 0)).
Proof.
  intros Ht Hv HB Hf Hfuel.
  apply (run_out_done fuel B n ts 0 HB Hf (conj Ht Hv)); [constructor|].
  destruct ts as [|t r]; cbn [nth_error]; [lia|].
  unfold tail_cost in *. cbn [skipn fold_right] in *. pose proof (thr_cost_lt_max n t). lia.
Qed.

Definition lines_left (l : list thr) : nat := fold_right (fun t a => (List.length (t_prog t) + a)%nat) 0%nat l.

Lemma thread_fuel_eq ts : thread_fuel ts = (5 * List.length ts + 64 * lines_left ts)%nat.
Proof.
  unfold thread_fuel.
  assert (H : forall l a, fold_left (fun a t => (a + 4 + 64 * List.length (t_prog t))%nat) l a =
                          (a + 4 * List.length l + 64 * lines_left l)%nat).
  { induction l as [|t r IH]; intros a; cbn [fold_left lines_left fold_right List.length]; [lia|].
    rewrite IH. fold (lines_left r). lia. }
  rewrite H. lia.
Qed.

Lemma tail_cost_eq ts : tail_cost ts = (8 * List.length ts + 8 * lines_left ts)%nat.
Proof.
  induction ts as [|t r IH]; cbn [tail_cost fold_right lines_left List.length]; [lia|].
  fold (tail_cost r). fold (lines_left r). unfold thr_cost_max. lia.
Qed.

Lemma lines_left_list_update l : forall i t t',
  nth_error l i = Some t -> (List.length (t_prog t') <= List.length (t_prog t))%nat ->
  (lines_left (list_update l i t') <= lines_left l)%nat.
Proof.
  induction l as [|a r IH]; intros [|i] t t' E H; try discriminate; cbn [list_update lines_left fold_right nth_error] in *.
  - injection E as ->. fold (lines_left r). lia.
  - fold (lines_left (list_update r i t')). fold (lines_left r). specialize (IH i t t' E H). lia.
Qed.

Lemma release_nth_lines_left n ts i :
  List.length (snd (release_nth n ts i)) = List.length ts /\
  (lines_left (snd (release_nth n ts i)) <= lines_left ts)%nat.
Proof.
  unfold release_nth. destruct (nth_error ts i) as [t|] eqn:E; auto.
  destruct (is_done t); auto.
  pose proof (release_thr n t) as [_ Hp]. destruct (release n t) as [n1 t1]. cbn [snd] in *.
  split; [apply list_update_length|]. eapply lines_left_list_update; eauto.
  destruct Hp as [-> | (l & ->)]; cbn [List.length]; lia.
Qed.

Lemma run_schedule_lines_left sched : forall n ts,
  List.length (snd (run_schedule n ts sched)) = List.length ts /\
  (lines_left (snd (run_schedule n ts sched)) <= lines_left ts)%nat.
Proof.
  induction sched as [|i r IH]; intros n ts; [cbn; auto|].
  rewrite run_schedule_cons.
  destruct (IH (fst (release_nth n ts i)) (snd (release_nth n ts i))) as [H1 H2].
  destruct (release_nth_lines_left n ts i) as [H3 H4]. split; lia.
Qed.

(* C17 for run_par, nothing assumed about termination.  The fuel of run_par allows 5 releases
   for a command that is under way, a use-db may need 7 (a stale write, the re-check, two
   publishes); the slack of 64 covers this for up to 21 threads (or any number of threads
   that have enough lines left: 3 * threads <= 64 + 56 * lines_left) *)
Theorem C17_run_par n ts sched B op :
  Forall usedb_thr ts -> VerInv B n -> 0 <= B ->
  B + Z.of_nat (List.length sched + thread_fuel ts + 64) <= i32_max ->
  PubInv n ts -> CntInv n ts op ->
  (3 * List.length ts <= 64)%nat ->
  let n' := fst (run_par n ts sched) in
  let ts' := snd (run_par n ts sched) in
  all_done ts' /\
  forall D d, get_db n' D = Some d ->
    key_agrees d /\ d_conn d = Z.of_nat (List.length (selected n' op D)).
Proof.
  intros Ht Hv HB Hbud Hp Hc Hk. cbn zeta.
  destruct (run_schedule_lines_left sched n ts) as [Hlen Hlines].
  assert (Hfl : (thread_fuel (snd (run_schedule n ts sched)) <= thread_fuel ts)%nat)
    by (rewrite !thread_fuel_eq; lia).
  assert (Hdone : all_done (snd (run_par n ts sched))).
  { unfold run_par.
    destruct (run_schedule_budget UsedbInv release_nth_UsedbInv sched B n ts HB ltac:(lia) (conj Ht Hv)) as [A V].
    destruct (run_schedule n ts sched) as [n1 ts1]. cbn [fst snd] in *.
    apply (C17_run_out_all_done n1 ts1 _ (B + Z.of_nat (List.length sched)) A V); try lia.
    rewrite tail_cost_eq, thread_fuel_eq. lia. }
  (* the whole run is one schedule: the two theorems about schedules apply *)
  destruct (run_par_schedule n ts sched) as (s & Hs & E & _). rewrite E in *.
  assert (Hb : B + Z.of_nat (List.length (sched ++ s)) <= i32_max) by (rewrite app_length; lia).
  split; [exact Hdone|]. intros D d Hd. split.
  - exact (C17_sched_key_agrees n ts _ B Ht Hv HB Hb Hp Hdone D d Hd).
  - exact (proj2 (C17_sched_counter_agrees n ts _ B op Ht Hv HB Hb Hp Hc) Hdone D d Hd).
Qed.

(* the bound on the number of threads in [C17_run_par] is about run_par's fuel, not about
   use-db: 66 threads that are all parked at their token check (previous selection d, so each
   needs 5 more releases) exhaust it -- the last thread is left parked *)
Definition fx_node (k : nat) : node :=
  let '(n, c) := connect (init_node "u" "p" "a" 1 Primary 0) in
  let n := ex_steps n c ["auth u p"; "create-db d t1 none"] in
  fold_left (fun n _ => let '(n1, c1) := connect n in fst (step n1 c1 "use-db d t1")) (seq 0 k) n.
Definition fx_ts (k : nat) : list thr := map (fun i => new_thread (S i) ["use-db d t1"] []) (seq 0 k).

Example C17_run_par_fuel_short :
  forallb is_done (snd (run_par (fx_node 65) (fx_ts 65) (seq 0 65))) = true /\
  forallb is_done (snd (run_par (fx_node 66) (fx_ts 66) (seq 0 66))) = false.
Proof. vm_compute. split; reflexivity. Qed.

Definition rx_st : node * list nat :=
  fold_left nstep [EConnect; ECmd 0 "auth u p"; ECmd 0 "create-db d t1 none"; ECmd 0 "use-db d t1";
                   EConnect; EConnect] (init_node "u" "p" "a" 1 Primary 0, []).

(* the hypotheses are satisfiable: the two sessions of [rx_node], EVERY schedule *)
Example C17_two_sessions_any_schedule : forall sched,
  Z.of_nat (List.length sched) <= 2000000000 ->
  let n' := fst (run_par rx_node rx_ts sched) in
  all_done (snd (run_par rx_node rx_ts sched)) /\
  forall D d, get_db n' D = Some d ->
    key_agrees d /\ d_conn d = Z.of_nat (List.length (selected n' [0; 1; 2]%nat D)).
Proof.
  intros sched Hlen.
  assert (Hst : rx_st = (rx_node, [0; 1; 2]%nat)) by (vm_compute; reflexivity).
  assert (HC : ConnInv (rx_node, [0; 1; 2]%nat)).
  { rewrite <- Hst. unfold rx_st. apply conn_run; [apply conn_init | vm_compute; reflexivity]. }
  apply (C17_run_par rx_node rx_ts sched 1 [0; 1; 2]%nat).
  - repeat constructor; exists "t1", "d", None; vm_compute; reflexivity.
  - intros D d v Hd. revert v. revert D d Hd.
    refine (all_dbs _ _ _ _ _); [vm_compute; reflexivity|].
    repeat apply Forall_cons; try apply Forall_nil; intros v Hg; vm_compute in Hg; try discriminate Hg.
    injection Hg as <-. cbn. lia.
  - lia.
  - assert (E : thread_fuel rx_ts = 138%nat) by (vm_compute; reflexivity).
    rewrite E. unfold i32_max. lia.
  - apply PubInv_init. refine (all_dbs _ _ _ _ _); [vm_compute; reflexivity|].
    repeat apply Forall_cons; try apply Forall_nil.
    + right. split; reflexivity.
    + left. reflexivity.
  - apply CntInv_init; auto.
    + vm_compute. repeat constructor; cbn; intuition discriminate.
    + intros t [<- | [<- | []]]; cbn; intuition.
  - cbn. lia.
Qed.

Check C17_sched_key_agrees.
Print Assumptions C17_sched_key_agrees.
Check C17_sched_key_equals.
Print Assumptions C17_sched_key_equals.
Check C17_sched_counter_agrees.
Print Assumptions C17_sched_counter_agrees.
Check usedb_sequential.
Print Assumptions usedb_sequential.
Check C17_run_out_all_done.
Print Assumptions C17_run_out_all_done.
Check C17_run_par.
Print Assumptions C17_run_par.
Check C17_race_without_recheck.
Check C17_run_par_fuel_short.
Check C17_two_sessions_any_schedule.
Print Assumptions C17_two_sessions_any_schedule.
Check C17_sched_key_stuck_saturated.
