(* Association lists of Model/Base ([assoc_get], [assoc_set], [assoc_del]) over any key type with a
   reflected equality test: a lookup after a change, the keys after a change, NoDup of the keys, membership
   against lookup.  A name reads <what is observed>_<the change>_<the case>: get_set_same,
   keys_set_absent, nodup_del, in_get.
   Once the section closes, a lemma whose proof does not use [eqb_spec] does not take it as an
   argument (get_del_same, set_same_id, keys_set_present, del_incl, del_keys_incl, nodup_del; and
   nodup_filter_keys, map_fst_filter, which take no [eqb] either); the others do, as
   [(get_map _ String.eqb_spec)].  The str_* and N_* instances at the
   end take neither; where one exists it is the form to use. *)
From NunDB Require Import Model.Base.
From NunDB Require Import Proofs.ListLemmas.

Section Assoc.
Context {A B : Type} (eqb : A -> A -> bool).
Hypothesis eqb_spec : forall a b, reflect (a = b) (eqb a b).

Lemma reflect_eqb_refl a : eqb a a = true.
Proof. destruct (eqb_spec a a); congruence. Qed.

Lemma reflect_eqb_neq a b : a <> b -> eqb a b = false.
Proof. destruct (eqb_spec a b); congruence. Qed.

Lemma get_set_same k (v : B) l : assoc_get eqb k (assoc_set eqb k v l) = Some v.
Proof.
  induction l as [|[k' v'] r IH]; cbn.
  - now rewrite reflect_eqb_refl.
  - destruct (eqb k k') eqn:E; cbn; rewrite E; auto.
Qed.

Lemma get_set_other k k' (v : B) l : k <> k' ->
  assoc_get eqb k (assoc_set eqb k' v l) = assoc_get eqb k l.
Proof.
  intros Hn. induction l as [|[k2 v2] r IH]; cbn.
  - now rewrite (reflect_eqb_neq _ _ Hn).
  - destruct (eqb k' k2) eqn:E; cbn.
    + destruct (eqb_spec k' k2) as [->|]; try discriminate.
      now rewrite (reflect_eqb_neq _ _ Hn).
    + now rewrite IH.
Qed.

Lemma get_del_same k (l : list (A * B)) : assoc_get eqb k (assoc_del eqb k l) = None.
Proof.
  induction l as [|[k' v'] r IH]; cbn; auto.
  destruct (eqb k k') eqn:E; cbn; auto. now rewrite E.
Qed.

Lemma get_del_other k k' (l : list (A * B)) : k <> k' ->
  assoc_get eqb k (assoc_del eqb k' l) = assoc_get eqb k l.
Proof.
  intros Hn. induction l as [|[k2 v2] r IH]; cbn; auto.
  destruct (eqb k' k2) eqn:E; cbn.
  - destruct (eqb_spec k' k2) as [->|]; try discriminate.
    now rewrite (reflect_eqb_neq _ _ Hn).
  - now rewrite IH.
Qed.

Lemma get_in k (v : B) l : assoc_get eqb k l = Some v -> In (k, v) l.
Proof.
  induction l as [|[k' v'] r IH]; cbn; try discriminate.
  destruct (eqb_spec k k') as [->|].
  - intros [= ->]. now left.
  - intros H. right. auto.
Qed.

Lemma get_none_notin k (l : list (A * B)) : assoc_get eqb k l = None -> ~ In k (map fst l).
Proof.
  induction l as [|[k' v'] r IH]; cbn; auto.
  destruct (eqb_spec k k') as [->|]; try discriminate.
  intros H [E|Hin]; [congruence | now apply IH].
Qed.

Lemma in_keys_get k (l : list (A * B)) : In k (map fst l) <-> assoc_get eqb k l <> None.
Proof.
  split; [intros Hin E; exact (get_none_notin _ _ E Hin)|].
  destruct (assoc_get eqb k l) as [v|] eqn:E; [|congruence]. intros _. exact (in_map fst _ (k, v) (get_in _ _ _ E)).
Qed.

Lemma in_get k (v : B) l : NoDup (map fst l) -> In (k, v) l -> assoc_get eqb k l = Some v.
Proof.
  induction l as [|[k' v'] r IH]; cbn; [tauto|].
  intros H Hin. inversion H as [|? ? Hn Hr]; subst.
  destruct (eqb_spec k k') as [->|Hne].
  - destruct Hin as [E|Hin]; [congruence|].
    exfalso. apply Hn. change k' with (fst (k', v)). now apply in_map.
  - destruct Hin as [E|Hin]; [congruence|]. auto.
Qed.

Lemma set_same_id k (v : B) l : assoc_get eqb k l = Some v -> assoc_set eqb k v l = l.
Proof.
  induction l as [|[k' v'] r IH]; cbn; try discriminate.
  destruct (eqb k k') eqn:E.
  - intros [= ->]. reflexivity.
  - intros H. now rewrite IH.
Qed.

Lemma set_set k (a b : B) l : assoc_set eqb k b (assoc_set eqb k a l) = assoc_set eqb k b l.
Proof.
  induction l as [|[k' v'] r IH]; cbn [assoc_set].
  - now rewrite reflect_eqb_refl.
  - destruct (eqb k k') eqn:E; cbn [assoc_set]; rewrite E; [reflexivity | now rewrite IH].
Qed.

Lemma set_notin k (v : B) l : ~ In k (map fst l) -> assoc_set eqb k v l = l ++ [(k, v)].
Proof.
  induction l as [|[k' v'] r IH]; intros Hni; cbn [assoc_set app]; [reflexivity|].
  destruct (eqb_spec k k') as [->|Hne].
  - exfalso. apply Hni. now left.
  - f_equal. apply IH. intros Hin. apply Hni. now right.
Qed.

Lemma get_app_skip k (v : B) P rest : ~ In k (map fst P) ->
  assoc_get eqb k (P ++ (k, v) :: rest) = Some v.
Proof.
  induction P as [|[k' v'] P IH]; cbn; intros H.
  - now rewrite reflect_eqb_refl.
  - destruct (eqb_spec k k') as [->|Hne]; [tauto|]. apply IH. tauto.
Qed.

Lemma set_app_skip k (v v' : B) P rest : ~ In k (map fst P) ->
  assoc_set eqb k v' (P ++ (k, v) :: rest) = P ++ (k, v') :: rest.
Proof.
  induction P as [|[k' v0] P IH]; cbn; intros H.
  - now rewrite reflect_eqb_refl.
  - destruct (eqb_spec k k') as [->|Hne]; [tauto|]. f_equal. apply IH. tauto.
Qed.

Lemma in_set k (v : B) l p : In p (assoc_set eqb k v l) -> p = (k, v) \/ In p l.
Proof.
  induction l as [|[k' v'] r IH]; cbn.
  - intros [<-|[]]. now left.
  - destruct (eqb_spec k k') as [->|Hne]; cbn; intros [<-|H]; auto.
    apply IH in H as [H|H]; auto.
Qed.

Lemma in_keys_set k (v : B) l x : In x (map fst (assoc_set eqb k v l)) -> x = k \/ In x (map fst l).
Proof.
  rewrite !in_map_iff. intros (p & <- & Hp).
  apply in_set in Hp as [->|Hp]; [now left | right; eauto].
Qed.

Lemma keys_set_present k (v v0 : B) l : assoc_get eqb k l = Some v0 ->
  map fst (assoc_set eqb k v l) = map fst l.
Proof.
  induction l as [|[k' v'] r IH]; cbn; try discriminate.
  destruct (eqb k k') eqn:E; cbn; auto.
  intros H. now rewrite IH.
Qed.

Lemma keys_set_absent k (v : B) l : assoc_get eqb k l = None ->
  map fst (assoc_set eqb k v l) = map fst l ++ [k].
Proof. intros H. rewrite set_notin by (now apply get_none_notin). now rewrite map_app. Qed.

Lemma nodup_set k (v : B) l : NoDup (map fst l) -> NoDup (map fst (assoc_set eqb k v l)).
Proof.
  intros Hnd. destruct (assoc_get eqb k l) eqn:E.
  - now rewrite (keys_set_present _ _ _ _ E).
  - rewrite (keys_set_absent _ _ _ E). apply nodup_snoc; auto. now apply get_none_notin.
Qed.

Lemma in_set_nodup k0 (v : B) l : NoDup (map fst l) ->
  forall k h, In (k, h) (assoc_set eqb k0 v l) -> (k = k0 /\ h = v) \/ (k <> k0 /\ In (k, h) l).
Proof.
  intros Hnd k h Hin. apply in_get in Hin; [|now apply nodup_set].
  destruct (eqb_spec k k0) as [->|Hne].
  - rewrite get_set_same in Hin. left. split; congruence.
  - rewrite get_set_other in Hin by assumption. right. split; [assumption | now apply get_in].
Qed.

Lemma del_incl k (l : list (A * B)) p : In p (assoc_del eqb k l) -> In p l.
Proof. induction l as [|[k' v'] r IH]; cbn; auto. destruct (eqb k k'); cbn; intuition. Qed.

Lemma del_keys_incl k x (l : list (A * B)) : In x (map fst (assoc_del eqb k l)) -> In x (map fst l).
Proof. rewrite !in_map_iff. intros (p & E & Hp). exists p. eauto using del_incl. Qed.

Lemma nodup_del k (l : list (A * B)) : NoDup (map fst l) -> NoDup (map fst (assoc_del eqb k l)).
Proof.
  induction l as [|[k' v'] r IH]; cbn; auto.
  intros H. inversion H as [|? ? Hn Hr]; subst.
  destruct (eqb k k'); cbn; auto.
  constructor; auto. intros Hin. apply Hn. eapply del_keys_incl; eauto.
Qed.

Lemma nodup_filter_keys (f : A * B -> bool) (l : list (A * B)) :
  NoDup (map fst l) -> NoDup (map fst (filter f l)).
Proof.
  induction l as [|[k v] r IH]; cbn; auto.
  intros H. inversion H as [|? ? Hn Hr]; subst.
  destruct (f (k, v)); cbn; auto.
  constructor; auto. intros Hin. apply Hn.
  apply in_map_iff in Hin. destruct Hin as (p & <- & Hp).
  apply filter_In in Hp. apply in_map. tauto.
Qed.

Lemma map_fst_filter (P : A -> bool) (l : list (A * B)) :
  map fst (filter (fun kv => P (fst kv)) l) = filter P (map fst l).
Proof. induction l as [|[k v] r IH]; cbn; auto. destruct (P k); cbn; now rewrite IH. Qed.

(* a property of all bindings survives a change *)
Lemma get_set_all (P : A -> B -> Prop) k0 v0 l :
  (forall k v, assoc_get eqb k l = Some v -> P k v) -> P k0 v0 ->
  forall k v, assoc_get eqb k (assoc_set eqb k0 v0 l) = Some v -> P k v.
Proof.
  intros Hl H0 k v G. destruct (eqb_spec k k0) as [->|Hne].
  - rewrite get_set_same in G. now injection G as <-.
  - rewrite get_set_other in G by assumption. auto.
Qed.

Lemma get_del_all (P : A -> B -> Prop) k0 l :
  (forall k v, assoc_get eqb k l = Some v -> P k v) ->
  forall k v, assoc_get eqb k (assoc_del eqb k0 l) = Some v -> P k v.
Proof.
  intros Hl k v G. destruct (eqb_spec k k0) as [->|Hne].
  - now rewrite get_del_same in G.
  - rewrite get_del_other in G by assumption. auto.
Qed.

Lemma get_map {C} (f : A * B -> A * C) k l : (forall p, fst (f p) = fst p) ->
  assoc_get eqb k (map f l) =
  match assoc_get eqb k l with Some v => Some (snd (f (k, v))) | None => None end.
Proof.
  intros Hf. induction l as [|[k' v'] l IH]; cbn [map assoc_get]; auto.
  pose proof (Hf (k', v')) as Hk. destruct (f (k', v')) as [k2 v2] eqn:E. cbn [fst] in Hk. subst k2.
  destruct (eqb_spec k k') as [->|Hne].
  - now rewrite E.
  - exact IH.
Qed.

Lemma get_map_snd {C} (g : B -> C) k l :
  assoc_get eqb k (map (fun kv => (fst kv, g (snd kv))) l) =
  match assoc_get eqb k l with Some v => Some (g v) | None => None end.
Proof. exact (get_map (fun kv => (fst kv, g (snd kv))) k l (fun _ => eq_refl)). Qed.

Lemma get_filter (P : A -> bool) k (l : list (A * B)) : P k = true ->
  assoc_get eqb k (filter (fun kv => P (fst kv)) l) = assoc_get eqb k l.
Proof.
  intros Hk. induction l as [|[k' v] r IH]; cbn [filter fst]; auto.
  destruct (P k') eqn:E; cbn [assoc_get].
  - now rewrite IH.
  - destruct (eqb_spec k k') as [->|Hn]; [congruence|exact IH].
Qed.
End Assoc.

Section StrAssoc.
Context {B : Type}.
Implicit Types (k : str) (v : B) (l : list (str * B)).

Lemma str_get_set_same k v l : assoc_get String.eqb k (assoc_set String.eqb k v l) = Some v.
Proof. exact (get_set_same _ String.eqb_spec k v l). Qed.

Lemma str_get_set_other k k' v l : k <> k' ->
  assoc_get String.eqb k (assoc_set String.eqb k' v l) = assoc_get String.eqb k l.
Proof. exact (get_set_other _ String.eqb_spec k k' v l). Qed.

Lemma str_get_del_same k l : assoc_get String.eqb k (assoc_del String.eqb k l) = None.
Proof. exact (get_del_same _ k l). Qed.

Lemma str_get_del_other k k' l : k <> k' ->
  assoc_get String.eqb k (assoc_del String.eqb k' l) = assoc_get String.eqb k l.
Proof. exact (get_del_other _ String.eqb_spec k k' l). Qed.

Lemma str_set_same_id k v l : assoc_get String.eqb k l = Some v -> assoc_set String.eqb k v l = l.
Proof. exact (set_same_id _ k v l). Qed.

Lemma str_get_in k v l : assoc_get String.eqb k l = Some v -> In (k, v) l.
Proof. exact (get_in _ String.eqb_spec k v l). Qed.

Lemma str_get_none_notin k l : assoc_get String.eqb k l = None -> ~ In k (map fst l).
Proof. exact (get_none_notin _ String.eqb_spec k l). Qed.

Lemma str_in_keys_get k l : In k (map fst l) <-> assoc_get String.eqb k l <> None.
Proof. exact (in_keys_get _ String.eqb_spec k l). Qed.

Lemma str_nodup_set k v l : NoDup (map fst l) -> NoDup (map fst (assoc_set String.eqb k v l)).
Proof. exact (nodup_set _ String.eqb_spec k v l). Qed.

Lemma str_in_get k v l : NoDup (map fst l) -> In (k, v) l -> assoc_get String.eqb k l = Some v.
Proof. exact (in_get _ String.eqb_spec k v l). Qed.
End StrAssoc.

Section NAssoc.
Context {B : Type}.
Implicit Types (k : N) (v : B) (l : list (N * B)).

Lemma N_get_set_same k v l : assoc_get N.eqb k (assoc_set N.eqb k v l) = Some v.
Proof. exact (get_set_same _ N.eqb_spec k v l). Qed.

Lemma N_get_set_other k k' v l : k <> k' ->
  assoc_get N.eqb k (assoc_set N.eqb k' v l) = assoc_get N.eqb k l.
Proof. exact (get_set_other _ N.eqb_spec k k' v l). Qed.

Lemma N_get_del_same k l : assoc_get N.eqb k (assoc_del N.eqb k l) = None.
Proof. exact (get_del_same _ k l). Qed.

Lemma N_get_del_other k k' l : k <> k' ->
  assoc_get N.eqb k (assoc_del N.eqb k' l) = assoc_get N.eqb k l.
Proof. exact (get_del_other _ N.eqb_spec k k' l). Qed.
End NAssoc.
