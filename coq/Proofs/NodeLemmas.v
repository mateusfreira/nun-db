(* Equations about Model/Node.v that need no invariant: what each setter and helper leaves alone,
   the guards, [replicate_request] and [step] characterised.  The summaries of the compound
   functions ([apply_change], [resolve_conflict], ...) build on these: DbProofs ([writes],
   [effect]: which database, which keys, who is notified) and Footprint ([edits]: closure under
   the primitive edits). *)
From NunDB Require Import Model.Base Model.Parse Model.Pending Model.Node Proofs.AssocLemmas.
Local Open Scope Z_scope.

Lemma list_update_length {A} (l : list A) i x : List.length (list_update l i x) = List.length l.
Proof. revert i; induction l as [|y r IH]; intros [|j]; cbn; auto. Qed.

Lemma list_update_oob {A} (l : list A) i x : (List.length l <= i)%nat -> list_update l i x = l.
Proof. revert i; induction l as [|y r IH]; intros [|i] H; cbn in *; auto; try lia. f_equal. apply IH. lia. Qed.

Lemma nth_list_update {A} (l : list A) i x j d :
  nth j (list_update l i x) d = if Nat.eqb j i && Nat.ltb i (List.length l) then x else nth j l d.
Proof.
  revert i j. induction l as [|a l IH]; intros i j.
  - cbn [list_update List.length]. replace (Nat.ltb i 0) with false by (destruct i; reflexivity).
    rewrite andb_false_r. now destruct i.
  - destruct i as [|i], j as [|j]; cbn [list_update nth List.length]; try reflexivity.
    rewrite IH. reflexivity.
Qed.

Lemma nth_error_list_update {A} (l : list A) i x j :
  nth_error (list_update l i x) j =
  if Nat.eqb j i && Nat.ltb i (List.length l) then Some x else nth_error l j.
Proof.
  revert i j. induction l as [|a l IH]; intros i j.
  - cbn [list_update List.length]. replace (Nat.ltb i 0) with false by (destruct i; reflexivity).
    now rewrite andb_false_r.
  - destruct i as [|i], j as [|j]; cbn [list_update nth_error List.length]; try reflexivity.
    rewrite IH. reflexivity.
Qed.

Lemma nth_error_upd {A} (l : list A) i j x w :
  nth_error (list_update l i x) j = Some w ->
  (i = j /\ w = x) \/ (i <> j /\ nth_error l j = Some w).
Proof.
  rewrite nth_error_list_update. destruct (Nat.eqb_spec j i) as [->|Hne]; [|intros E; right; auto].
  destruct (Nat.ltb_spec i (List.length l)) as [_|Hle]; cbn [andb]; [intros [= <-]; auto|].
  intros E. apply nth_error_None in Hle. congruence.
Qed.

Lemma list_update_nth_id {A} (l : list A) i d : list_update l i (nth i l d) = l.
Proof. revert i; induction l as [|y r IH]; intros [|i]; cbn; auto. f_equal. apply IH. Qed.

Lemma list_update_id {A} (l : list A) i x : nth_error l i = Some x -> list_update l i x = l.
Proof. intros H. rewrite <- (nth_error_nth l i x H). apply list_update_nth_id. Qed.

Lemma map_list_update_gen {A B} (f : A -> B) (l : list A) : forall i x,
  map f (list_update l i x) = list_update (map f l) i (f x).
Proof. induction l as [|y r IH]; intros [|i] x; cbn; auto. now rewrite IH. Qed.

Lemma map_list_update {A B} (f : A -> B) (l : list A) i x d :
  f x = f (nth i l d) -> map f (list_update l i x) = map f l.
Proof. intros H. rewrite map_list_update_gen, H, <- map_nth. apply list_update_nth_id. Qed.

Lemma Forall_list_update {A} (P : A -> Prop) l : forall i x,
  Forall P l -> P x -> Forall P (list_update l i x).
Proof.
  induction l as [|y r IH]; intros i x H Hx; cbn; auto.
  inversion H; subst. destruct i; constructor; auto.
Qed.

Lemma skipn_list_update {A} (l : list A) : forall i j x, (i < j)%nat -> skipn j (list_update l i x) = skipn j l.
Proof.
  induction l as [|a r IH]; intros i j x H; destruct j; try lia; destruct i; cbn; auto.
  apply IH. lia.
Qed.

Lemma firstn_list_update {A} (l : list A) : forall i j x, (j <= i)%nat -> firstn j (list_update l i x) = firstn j l.
Proof.
  induction l as [|a r IH]; intros i j x H; destruct j; cbn; auto; destruct i; try lia.
  cbn. f_equal. apply IH. lia.
Qed.

Lemma filter_len_upd {A} (f : A -> bool) (l : list A) : forall i x y,
  nth_error l i = Some y ->
  Z.of_nat (List.length (filter f (list_update l i x))) =
  Z.of_nat (List.length (filter f l)) - Z.b2z (f y) + Z.b2z (f x).
Proof.
  induction l as [|a r IH]; intros [|i] x y E; try discriminate; cbn [list_update filter nth_error] in *.
  - injection E as ->. destruct (f y), (f x); cbn [List.length Z.b2z]; lia.
  - specialize (IH i x y E). destruct (f a); cbn [List.length]; lia.
Qed.

Lemma get_sess_put_sess n c s x :
  get_sess (put_sess n c s) x =
  if Nat.eqb x c && Nat.ltb c (List.length (n_sess n)) then s else get_sess n x.
Proof. apply nth_list_update. Qed.

Lemma put_sess_get_id n c : put_sess n c (get_sess n c) = n.
Proof. unfold put_sess, get_sess. rewrite list_update_nth_id. now destruct n. Qed.

Lemma put_sess_len n c s : List.length (n_sess (put_sess n c s)) = List.length (n_sess n).
Proof. apply list_update_length. Qed.

Lemma get_sess_send n c m s :
  get_sess (send n c m) s =
  if Nat.eqb s c && Nat.ltb c (List.length (n_sess n)) then sess_push (get_sess n c) m else get_sess n s.
Proof. apply get_sess_put_sess. Qed.

Lemma get_sess_send_other n c m s : s <> c -> get_sess (send n c m) s = get_sess n s.
Proof.
  intros H. rewrite get_sess_send. destruct (Nat.eqb_spec s c); [contradiction|reflexivity].
Qed.

Lemma sess_len_send n c m : List.length (n_sess (send n c m)) = List.length (n_sess n).
Proof. apply put_sess_len. Qed.

Lemma sess_len_sends msgs : forall n, List.length (n_sess (sends n msgs)) = List.length (n_sess n).
Proof.
  unfold sends. induction msgs as [|p r IH]; intros n; cbn [fold_left]; [reflexivity|].
  rewrite IH. apply sess_len_send.
Qed.

Lemma sends_sess_congr l : forall n1 n, n_sess n1 = n_sess n -> n_sess (sends n1 l) = n_sess (sends n l).
Proof.
  unfold sends. induction l as [|p r IH]; cbn [fold_left]; intros n1 n E; auto.
  apply IH. unfold send, put_sess, get_sess. cbn [n_sess n_set_sess]. now rewrite E.
Qed.

Lemma get_sess_sends_other msgs : forall n s,
  (forall p, In p msgs -> fst p <> s) -> get_sess (sends n msgs) s = get_sess n s.
Proof.
  unfold sends. induction msgs as [|p r IH]; intros n s H; cbn [fold_left]; [reflexivity|].
  rewrite IH by (intros q Hq; apply H; now right).
  apply get_sess_send_other. intros E. apply (H p); [now left | auto].
Qed.

Lemma get_sess_connect n x : get_sess (fst (connect n)) x = get_sess n x.
Proof.
  unfold connect, get_sess. cbn.
  destruct (Nat.lt_ge_cases x (List.length (n_sess n))) as [Hlt|Hge].
  - now apply app_nth1.
  - rewrite app_nth2 by lia. rewrite (nth_overflow (n_sess n)) by lia.
    destruct (x - List.length (n_sess n))%nat as [|[|k]]; reflexivity.
Qed.

Lemma inbox_send n c m s :
  s_inbox (get_sess (send n c m) s) =
  s_inbox (get_sess n s) ++ (if Nat.eqb s c && Nat.ltb c (List.length (n_sess n)) then [m] else []).
Proof.
  rewrite get_sess_send. destruct (Nat.eqb_spec s c) as [E|Hne]; cbn [andb].
  - rewrite E. destruct (Nat.ltb c _); [reflexivity | now rewrite app_nil_r].
  - now rewrite app_nil_r.
Qed.

Lemma inbox_sends msgs : forall n s, (s < List.length (n_sess n))%nat ->
  s_inbox (get_sess (sends n msgs) s) =
  s_inbox (get_sess n s) ++ map snd (filter (fun p => Nat.eqb (fst p) s) msgs).
Proof.
  unfold sends. induction msgs as [|[c m] r IH]; intros n s Hs; cbn [fold_left filter map fst snd].
  - now rewrite app_nil_r.
  - rewrite IH by (now rewrite sess_len_send). rewrite inbox_send, <- app_assoc. f_equal.
    rewrite (Nat.eqb_sym c s). destruct (Nat.eqb_spec s c) as [E|Hne]; cbn [andb]; [|reflexivity].
    apply Nat.ltb_lt in Hs. rewrite <- E, Hs. reflexivity.
Qed.

(* the parts of a session other than its inbox *)
Definition same_attrs (s s' : sess) : Prop :=
  s_auth s = s_auth s' /\ s_db s = s_db s' /\ s_user s = s_user s' /\ s_member s = s_member s'.

Lemma same_attrs_refl s : same_attrs s s. Proof. repeat split. Qed.
Lemma same_attrs_trans a b c : same_attrs a b -> same_attrs b c -> same_attrs a c.
Proof. unfold same_attrs. intuition congruence. Qed.

Lemma same_attrs_send n i m c : same_attrs (get_sess (send n i m) c) (get_sess n c).
Proof.
  rewrite get_sess_send. destruct (Nat.eqb_spec c i) as [->|]; [|apply same_attrs_refl].
  destruct (Nat.ltb _ _); [repeat split|apply same_attrs_refl].
Qed.

Lemma same_attrs_sends l : forall n c, same_attrs (get_sess (sends n l) c) (get_sess n c).
Proof.
  unfold sends. induction l as [|p l IH]; intros n c; cbn [fold_left]; [apply same_attrs_refl|].
  eapply same_attrs_trans; [apply IH|apply same_attrs_send].
Qed.

Lemma sends_frame msgs : forall n, sends n msgs = n_set_sess n (n_sess (sends n msgs)).
Proof.
  unfold sends. induction msgs as [|p r IH]; intros n; cbn [fold_left].
  - now destruct n.
  - rewrite IH at 1. reflexivity.
Qed.

Lemma n_dbs_sends n msgs : n_dbs (sends n msgs) = n_dbs n.
Proof. now rewrite sends_frame. Qed.
Lemma n_role_sends n msgs : n_role (sends n msgs) = n_role n.
Proof. now rewrite sends_frame. Qed.
Lemma n_clock_sends n msgs : n_clock (sends n msgs) = n_clock n.
Proof. now rewrite sends_frame. Qed.
Lemma n_repl_sends n msgs : n_repl (sends n msgs) = n_repl n.
Proof. now rewrite sends_frame. Qed.
Lemma n_sup_sends n msgs : n_sup (sends n msgs) = n_sup n.
Proof. now rewrite sends_frame. Qed.
Lemma n_snap_sends n msgs : n_snap (sends n msgs) = n_snap n.
Proof. now rewrite sends_frame. Qed.
Lemma n_pending_sends n msgs : n_pending (sends n msgs) = n_pending n.
Proof. now rewrite sends_frame. Qed.
Lemma n_idmap_sends n msgs : n_idmap (sends n msgs) = n_idmap n.
Proof. now rewrite sends_frame. Qed.
Lemma n_members_sends n msgs : n_members (sends n msgs) = n_members n.
Proof. now rewrite sends_frame. Qed.
Lemma is_primary_sends n msgs : is_primary (sends n msgs) = is_primary n.
Proof. now rewrite sends_frame. Qed.
Lemma get_db_sends n msgs x : get_db (sends n msgs) x = get_db n x.
Proof. now rewrite sends_frame. Qed.

Lemma n_dbs_put_sess n c s : n_dbs (put_sess n c s) = n_dbs n.
Proof. reflexivity. Qed.
Lemma n_dbs_send n c m : n_dbs (send n c m) = n_dbs n.
Proof. reflexivity. Qed.
Lemma get_db_put_sess n c s x : get_db (put_sess n c s) x = get_db n x.
Proof. reflexivity. Qed.
Lemma get_db_send n c m x : get_db (send n c m) x = get_db n x.
Proof. reflexivity. Qed.
Lemma get_db_set_clock n c x : get_db (n_set_clock n c) x = get_db n x.
Proof. reflexivity. Qed.
Lemma get_sess_put_db n x d c : get_sess (put_db n x d) c = get_sess n c.
Proof. reflexivity. Qed.

Lemma fst_tick n : fst (tick n) = n_set_clock n (n_clock n + 1)%N.
Proof. reflexivity. Qed.
Lemma snd_tick n : snd (tick n) = n_clock n.
Proof. reflexivity. Qed.

Lemma n_dbs_replicate_web n m : n_dbs (replicate_web n m) = n_dbs n.
Proof. reflexivity. Qed.
Lemma get_sess_replicate_web n m c : get_sess (replicate_web n m) c = get_sess n c.
Proof. reflexivity. Qed.
Lemma n_clock_replicate_web n m : n_clock (replicate_web n m) = (n_clock n + 1)%N.
Proof. reflexivity. Qed.
Lemma n_repl_replicate_web n m :
  n_repl (replicate_web n m) = n_repl n ++ ["rp " +++ N_to_str (n_clock n) +++ " " +++ m].
Proof. reflexivity. Qed.
Lemma n_dbs_send_to_primary n m : n_dbs (send_to_primary n m) = n_dbs n.
Proof. reflexivity. Qed.

Lemma n_dbs_replicate_change n dbn ch : n_dbs (replicate_change n dbn ch) = n_dbs n.
Proof. unfold replicate_change. now destruct (_ || _). Qed.
Lemma get_sess_replicate_change n dbn ch c : get_sess (replicate_change n dbn ch) c = get_sess n c.
Proof. unfold replicate_change. now destruct (_ || _). Qed.
Lemma n_sess_replicate_change n dbn ch : n_sess (replicate_change n dbn ch) = n_sess n.
Proof. unfold replicate_change. now destruct (_ || _). Qed.

Lemma get_db_dbs n n' x : n_dbs n' = n_dbs n -> get_db n' x = get_db n x.
Proof. unfold get_db. now intros ->. Qed.

Lemma has_db_dbs n n' x : n_dbs n' = n_dbs n -> has_db n' x = has_db n x.
Proof. intros H. unfold has_db. now rewrite (get_db_dbs _ _ x H). Qed.

(* for a concrete node: [l] is its table of databases, evaluated once *)
Lemma all_dbs (P : db -> Prop) n l :
  n_dbs n = l -> Forall (fun p => P (snd p)) l -> forall D d, get_db n D = Some d -> P d.
Proof.
  unfold get_db. intros ->. induction 1 as [|[x dx] r Hx _ IH]; cbn [assoc_get]; intros D d E; [discriminate|].
  destruct (String.eqb D x); [now injection E as <- | eauto].
Qed.

Lemma init_node_shape u p a pid r c0 :
  exists v1 v2, n_dbs (init_node u p a pid r c0) = [("$admin", mkDb [("$$token", v1); ("$admin", v2)] [] 0 0 SNewer)] /\
                n_sess (init_node u p a pid r c0) = [].
Proof. do 2 eexists. vm_compute. split; reflexivity. Qed.

Lemma get_db_put_same n x d : get_db (put_db n x d) x = Some d.
Proof. apply str_get_set_same. Qed.

Lemma get_db_put_other n x y d : x <> y -> get_db (put_db n y d) x = get_db n x.
Proof. apply str_get_set_other. Qed.

Lemma get_db_put n dbn d x :
  get_db (put_db n dbn d) x = if String.eqb x dbn then Some d else get_db n x.
Proof.
  destruct (String.eqb_spec x dbn) as [->|Hne]; [apply get_db_put_same | now apply get_db_put_other].
Qed.

Lemma put_db_same n x d : get_db n x = Some d -> put_db n x d = n.
Proof. intros H. unfold put_db. rewrite (str_set_same_id _ _ _ H). now destruct n. Qed.

Lemma put_db_put_db n x a b : put_db (put_db n x a) x b = put_db n x b.
Proof. unfold put_db, n_set_dbs. cbn. now rewrite (set_set _ String.eqb_spec). Qed.

Lemma gv_put_same d k v : get_value (put_value d k v) k = Some v.
Proof. apply str_get_set_same. Qed.

Lemma gv_put_other d k k' v : k' <> k -> get_value (put_value d k v) k' = get_value d k'.
Proof. apply str_get_set_other. Qed.

Lemma gv_del_same d k : get_value (db_set_map d (assoc_del String.eqb k (d_map d))) k = None.
Proof. apply str_get_del_same. Qed.

Lemma gv_del_other d k k' : k' <> k ->
  get_value (db_set_map d (assoc_del String.eqb k (d_map d))) k' = get_value d k'.
Proof. apply str_get_del_other. Qed.

Lemma vstate_eqb_spec a b : reflect (a = b) (vstate_eqb a b).
Proof. destruct a, b; cbn; constructor; congruence. Qed.

Lemma upd_state_live v : upd_state v <> VDeleted.
Proof. unfold upd_state. destruct (v_st v); discriminate. Qed.

Lemma upd_state_eqb v : vstate_eqb (upd_state v) VDeleted = false.
Proof. unfold upd_state. destruct (v_st v); reflexivity. Qed.

Lemma sat_succ_lt z : z < i32_max -> sat_succ z = z + 1.
Proof. intros H. unfold sat_succ. destruct (Z.ltb_spec z i32_max); lia. Qed.

Lemma sat_succ_le z : sat_succ z <= z + 1.
Proof. unfold sat_succ. destruct (Z.ltb_spec z i32_max); lia. Qed.

Lemma sat_succ_le_max z : sat_succ z <= i32_max.
Proof. unfold sat_succ. destruct (Z.ltb_spec z i32_max); lia. Qed.

Lemma sat_succ_ge z : z <= i32_max -> z <= sat_succ z.
Proof. unfold sat_succ. destruct (Z.ltb_spec z i32_max); lia. Qed.

Lemma sat_succ_gt z : z < i32_max -> z < sat_succ z.
Proof. unfold sat_succ. destruct (Z.ltb_spec z i32_max); lia. Qed.

Lemma set_value_present d ch old : get_value d (c_key ch) = Some old ->
  set_value d ch =
  if Z.leb (next_version ch old) (v_ver old) && negb (Z.eqb (c_ver ch) (-2)) then
    (d, RVersionError (c_key ch) (v_ver old) (c_ver ch) old ch (upd_state old), [])
  else
    (put_value d (c_key ch)
       (mkV (c_val ch) (next_version ch old) (c_opp ch) (upd_state old) (v_vaddr old) (v_kaddr old)),
     RSet (c_key ch) (c_val ch), notify_msgs d (c_key ch) (c_val ch) (next_version ch old)).
Proof. intros H. unfold set_value. rewrite H. reflexivity. Qed.

Lemma set_value_absent d ch : get_value d (c_key ch) = None ->
  set_value d ch =
  (put_value d (c_key ch) (mkV (c_val ch) (sat_succ (c_ver ch)) (c_opp ch) VNew 0 0),
   RSet (c_key ch) (c_val ch), notify_msgs d (c_key ch) (c_val ch) (sat_succ (c_ver ch))).
Proof. intros H. unfold set_value. rewrite H. reflexivity. Qed.

(* a plain write: client version -1, no resolve *)
Lemma set_value_plain d k val opp :
  match get_value d k with Some old => v_ver old <> -2 /\ v_ver old < i32_max | None => True end ->
  set_value d (mkCh k val (-1) opp false) =
  (put_value d k (match get_value d k with
                  | Some old => mkV val (v_ver old + 1) opp (upd_state old) (v_vaddr old) (v_kaddr old)
                  | None => mkV val 0 opp VNew 0 0 end),
   RSet k val,
   notify_msgs d k val (match get_value d k with Some old => v_ver old + 1 | None => 0 end)).
Proof.
  unfold set_value. cbn [c_key c_val c_ver c_opp c_resolve].
  destruct (get_value d k) as [old|]; [|reflexivity]. intros [H2 Hmax].
  unfold next_version, in_conflict. cbn [c_key c_val c_ver c_opp c_resolve].
  change (Z.eqb (-1) (-2)) with false. change (Z.eqb (-1) (-1)) with true. cbn [negb andb].
  destruct (Z.eqb_spec (v_ver old) (-2)) as [|_]; [contradiction|].
  unfold sat_succ. destruct (Z.ltb_spec (v_ver old) i32_max) as [_|]; [|lia].
  destruct (Z.leb_spec (v_ver old + 1) (v_ver old)) as [|_]; [lia|]. reflexivity.
Qed.

Lemma set_value_cases d ch :
  (exists d1 msgs, set_value d ch = (d1, RSet (c_key ch) (c_val ch), msgs)) \/
  (exists old, get_value d (c_key ch) = Some old /\
     set_value d ch = (d, RVersionError (c_key ch) (v_ver old) (c_ver ch) old ch (upd_state old), [])).
Proof.
  destruct (get_value d (c_key ch)) as [old|] eqn:E.
  - rewrite (set_value_present _ _ _ E). destruct (_ && _); eauto.
  - rewrite (set_value_absent _ _ E). eauto.
Qed.

Lemma inc_value_cases d k i opp :
  (exists d1 msgs, inc_value d k i opp = (d1, ROk, msgs)) \/
  inc_value d k i opp = (d, RError "Key is not numeric", []).
Proof.
  unfold inc_value. destruct (parse_i32 _); [destruct (_ && _)|]; auto.
  left. eexists _, _. reflexivity.
Qed.

(* The version stored under a key after one of the three writes.  [P] holds of the versions stored
   before, [Q] is wanted after, [vin] holds of the version a set carries.  A write leaves a version as
   it is, stores the successor of a stored or of the carried version, or stores the carried -2 (inc_value
   also 1, on an absent key): so four facts about P, Q and vin suffice. *)
Definition ver_at (R : Z -> Prop) (d : db) (k : str) : Prop := forall v, get_value d k = Some v -> R (v_ver v).

Section VersionRange.
Variables vin P Q : Z -> Prop.
Hypothesis PQ : forall z, P z -> Q z.
Hypothesis P_succ : forall z, P z -> Q (sat_succ z).
Hypothesis in_succ : forall z, vin z -> Q (sat_succ z).
Hypothesis in_m2 : vin (-2) -> Q (-2).

Lemma next_version_range ch old : vin (c_ver ch) -> P (v_ver old) -> Q (next_version ch old).
Proof.
  intros Hc Ho. unfold next_version, in_conflict.
  destruct (Z.eqb_spec (c_ver ch) (-2)) as [E|_]; [rewrite E in *; auto|].
  destruct (c_resolve ch), (Z.eqb (v_ver old) (-2)); auto.
  destruct (Z.eqb (c_ver ch) (-1)); auto.
Qed.

Lemma ver_at_keep d d' k : get_value d' k = get_value d k -> ver_at P d k -> ver_at Q d' k.
Proof. intros E H v. rewrite E. intros Hv. apply PQ, H, Hv. Qed.

Lemma ver_at_put d key nv k : (k = key -> Q (v_ver nv)) -> ver_at P d k -> ver_at Q (put_value d key nv) k.
Proof.
  intros Hn H. destruct (String.eqb_spec k key) as [->|Hne].
  - intros v. rewrite gv_put_same. intros [= <-]. auto.
  - apply (ver_at_keep d); auto. now apply gv_put_other.
Qed.

Lemma set_value_range d ch k : vin (c_ver ch) -> ver_at P d k -> ver_at Q (fst (fst (set_value d ch))) k.
Proof.
  intros Hc H. unfold set_value.
  destruct (get_value d (c_key ch)) as [old|] eqn:Hg; [destruct (_ && _)|]; cbn [fst];
    try (now apply (ver_at_keep d)); apply ver_at_put; auto; intros ->; cbn [v_ver]; auto.
  apply next_version_range; auto.
Qed.

Lemma remove_value_range d key k : ver_at P d k -> ver_at Q (fst (fst (remove_value d key))) k.
Proof.
  intros H. unfold remove_value. destruct (String.eqb key "$$token"); cbn [fst]; [now apply (ver_at_keep d)|].
  destruct (get_value d key) as [old|] eqn:Hg; [|now apply (ver_at_keep d)].
  destruct (v_st old); try (apply ver_at_put; auto; intros ->; cbn [v_ver]; auto).
  intros v Hv. destruct (String.eqb_spec k key) as [->|Hne].
  - now rewrite gv_del_same in Hv.
  - rewrite gv_del_other in Hv by auto. apply PQ, H, Hv.
Qed.

Lemma inc_value_range d key i opp k : Q 1 -> ver_at P d k -> ver_at Q (fst (fst (inc_value d key i opp))) k.
Proof.
  intros Q1 H. unfold inc_value. destruct (parse_i32 _); [destruct (_ && _)|]; cbn [fst];
    try (now apply (ver_at_keep d)). apply ver_at_put; auto. intros ->.
  destruct (get_value d key) as [old|] eqn:Hg; cbn [v_ver]; auto.
Qed.
End VersionRange.

Lemma db_set_map_id d : db_set_map d (d_map d) = d.
Proof. now destruct d. Qed.

Lemma set_value_frame d ch :
  fst (fst (set_value d ch)) = db_set_map d (d_map (fst (fst (set_value d ch)))).
Proof.
  unfold set_value. destruct (get_value d (c_key ch)); [destruct (_ && _)|];
    cbn [fst]; auto using db_set_map_id.
Qed.

Lemma remove_value_frame d k :
  fst (fst (remove_value d k)) = db_set_map d (d_map (fst (fst (remove_value d k)))).
Proof.
  unfold remove_value. destruct (String.eqb k "$$token"); cbn [fst]; auto using db_set_map_id.
  destruct (get_value d k) as [v|]; [destruct (v_st v)|]; auto using db_set_map_id.
Qed.

Lemma inc_value_frame d k i opp :
  fst (fst (inc_value d k i opp)) = db_set_map d (d_map (fst (fst (inc_value d k i opp)))).
Proof.
  unfold inc_value. destruct (parse_i32 _); [destruct (_ && _)|];
    cbn [fst]; auto using db_set_map_id.
Qed.

Lemma set_value_frame' d ch d' r m : set_value d ch = (d', r, m) -> d' = db_set_map d (d_map d').
Proof. intros H. generalize (set_value_frame d ch). now rewrite H. Qed.

Lemma remove_value_frame' d k d' r m : remove_value d k = (d', r, m) -> d' = db_set_map d (d_map d').
Proof. intros H. generalize (remove_value_frame d k). now rewrite H. Qed.

Lemma inc_value_frame' d k i opp d' r m :
  inc_value d k i opp = (d', r, m) -> d' = db_set_map d (d_map d').
Proof. intros H. generalize (inc_value_frame d k i opp). now rewrite H. Qed.

Lemma watchers_watch_key d k c k' :
  watchers_of (watch_key d k c) k' = if String.eqb k k' then watchers_of d k ++ [c] else watchers_of d k'.
Proof.
  unfold watch_key, watchers_of at 1. cbn [d_watch db_set_watch].
  destruct (String.eqb_spec k k') as [<-|Hne].
  - now rewrite str_get_set_same.
  - rewrite str_get_set_other by congruence. reflexivity.
Qed.

Lemma watchers_unwatch_key d k c k' :
  watchers_of (unwatch_key d k c) k' =
  if String.eqb k k' then filter (fun x => negb (Nat.eqb x c)) (watchers_of d k) else watchers_of d k'.
Proof.
  unfold unwatch_key, watchers_of at 1. cbn [d_watch db_set_watch].
  destruct (String.eqb_spec k k') as [<-|Hne].
  - now rewrite str_get_set_same.
  - rewrite str_get_set_other by congruence. reflexivity.
Qed.

Lemma unwatch_all_frame d c : unwatch_all d c = db_set_watch d (d_watch (unwatch_all d c)).
Proof.
  unfold unwatch_all. generalize (map fst (d_watch d)). intros ks. revert d.
  induction ks as [|k r IH]; intros d; cbn [fold_left].
  - now destruct d.
  - rewrite IH at 1. reflexivity.
Qed.

Lemma notify_in d k v ver p : In p (notify_msgs d k v ver) -> In (fst p) (watchers_of d k).
Proof.
  unfold notify_msgs. rewrite in_flat_map. intros (x & Hx & [<-|[<-|[]]]); exact Hx.
Qed.

(* the share of session s in [notify_msgs]: the two lines, once per subscription of s *)
Lemma msgs_for_flat2 (l : list nat) s (a b : str) :
  map snd (filter (fun p => Nat.eqb (fst p) s) (flat_map (fun x => [(x, a); (x, b)]) l)) =
  concat (repeat [a; b] (count_occ Nat.eq_dec l s)).
Proof.
  induction l as [|x l IH]; [reflexivity|].
  cbn [flat_map app filter fst map snd count_occ]. destruct (Nat.eq_dec x s) as [->|Hne].
  - rewrite Nat.eqb_refl. cbn [map snd repeat concat app]. now rewrite IH.
  - destruct (Nat.eqb_spec x s); [contradiction|]. exact IH.
Qed.

Definition secure_msg : str := "To read security keys you must auth as an admin!".

Lemma guard_db_name_go_iff n c dbn key req dbn' d :
  guard_db_name n c dbn key req = GGo dbn' d <->
  dbn' = dbn /\ get_db n dbn = Some d /\
  match key with Some k => has_permission n c k d req = true | None => True end.
Proof.
  unfold guard_db_name, reject_no_db.
  destruct (get_db n dbn) as [d0|]; [|split; [discriminate | intros (_ & [=] & _)]].
  destruct key as [k|]; [destruct (has_permission n c k d0 req) eqn:E|].
  all: split; [try discriminate; intros [= <- <-]; auto | intros (-> & [= <-] & H); congruence].
Qed.

Lemma guard_db_name_go n c dbn key req dbn' d :
  guard_db_name n c dbn key req = GGo dbn' d -> dbn' = dbn /\ get_db n dbn = Some d.
Proof. intros H. apply guard_db_name_go_iff in H. tauto. Qed.

Lemma guard_safe_go_iff n c key req dbn d :
  guard_safe n c key req = GGo dbn d <->
  s_db (get_sess n c) = Some dbn /\ get_db n dbn = Some d /\ has_permission n c key d req = true /\
  (starts_with key "$$" = true -> s_auth (get_sess n c) = true).
Proof.
  unfold guard_safe, reject_no_db.
  destruct (starts_with key "$$" && negb (s_auth (get_sess n c))) eqn:E.
  - split; [discriminate|]. intros (_ & _ & _ & H).
    apply andb_true_iff in E as [E1 E2]. rewrite (H E1) in E2. discriminate.
  - destruct (s_db (get_sess n c)) as [x|]; [|split; [discriminate | intros ([=] & _)]].
    rewrite guard_db_name_go_iff. split.
    + intros (-> & Hd & Hp). repeat split; auto.
      intros Hk. rewrite Hk in E. now destruct (s_auth _).
    + intros ([= ->] & Hd & Hp & _). auto.
Qed.

Lemma guard_safe_go n c key req dbn d :
  guard_safe n c key req = GGo dbn d -> s_db (get_sess n c) = Some dbn /\ get_db n dbn = Some d.
Proof. intros H. apply guard_safe_go_iff in H. tauto. Qed.

Lemma guard_safe_intro n c key req dbn d :
  s_db (get_sess n c) = Some dbn -> get_db n dbn = Some d ->
  has_permission n c key d req = true ->
  (starts_with key "$$" = true -> s_auth (get_sess n c) = true) ->
  guard_safe n c key req = GGo dbn d.
Proof. intros. apply guard_safe_go_iff. auto. Qed.

Lemma guard_db_go n c dbn d :
  guard_db n c = GGo dbn d <-> s_db (get_sess n c) = Some dbn /\ get_db n dbn = Some d.
Proof.
  unfold guard_db, reject_no_db.
  destruct (s_db (get_sess n c)) as [x|]; [|split; [discriminate | intros [[=] _]]].
  rewrite guard_db_name_go_iff. split.
  - intros (-> & Hd & _). auto.
  - intros [[= ->] Hd]. auto.
Qed.

Lemma guard_safe_secure n c key req :
  starts_with key "$$" = true -> s_auth (get_sess n c) = false ->
  guard_safe n c key req = GStop n (RError secure_msg).
Proof. intros Hk Ha. unfold guard_safe. now rewrite Hk, Ha. Qed.

Lemma guard_db_name_stop n c dbn key req n' r :
  guard_db_name n c dbn key req = GStop n' r ->
  (n' = send n c no_db_msg /\ r = RError no_db_msg) \/ (n' = send n c denied_msg /\ r = RError denied_msg).
Proof.
  unfold guard_db_name, reject_no_db. destruct (get_db n dbn) as [d|]; [|intros [= <- <-]; auto].
  destruct key as [k|]; [|discriminate].
  destruct (has_permission n c k d req); [discriminate | intros [= <- <-]; auto].
Qed.

Lemma guard_safe_stop n c key req n' r :
  guard_safe n c key req = GStop n' r ->
  (n' = n /\ r = RError secure_msg) \/
  (n' = send n c no_db_msg /\ r = RError no_db_msg) \/ (n' = send n c denied_msg /\ r = RError denied_msg).
Proof.
  unfold guard_safe, reject_no_db. destruct (_ && _).
  - intros [= <- <-]; auto.
  - destruct (s_db _).
    + intros H. right. eapply guard_db_name_stop; eauto.
    + intros [= <- <-]; auto.
Qed.

Lemma guard_db_stop n c n' r :
  guard_db n c = GStop n' r ->
  n' = send n c no_db_msg /\ r = RError no_db_msg /\
  (forall dbn, s_db (get_sess n c) = Some dbn -> get_db n dbn = None).
Proof.
  unfold guard_db, guard_db_name, reject_no_db.
  destruct (s_db (get_sess n c)) as [x|]; [|intros [= <- <-]; repeat split; discriminate].
  destruct (get_db n x) as [d0|] eqn:E; [discriminate|].
  intros [= <- <-]. repeat split. now intros dbn [= <-].
Qed.

(* Case analysis on a guard, for a goal that speaks of the guard's result.  The Go branch forgets
   [has_permission], the Stop branch which message it is: [guard_safe_go_iff] and [guard_safe_stop]
   keep them. *)
Lemma guard_safe_elim (P : guard -> Prop) n c key req :
  (forall dbn d, s_db (get_sess n c) = Some dbn -> get_db n dbn = Some d ->
     (s_auth (get_sess n c) = false -> starts_with key "$$" = false) -> P (GGo dbn d)) ->
  (forall n' m, n' = n \/ n' = send n c m -> P (GStop n' (RError m))) ->
  P (guard_safe n c key req).
Proof.
  intros Hgo Hstop. destruct (guard_safe n c key req) as [dbn d|n' r] eqn:G.
  - apply guard_safe_go_iff in G. destruct G as (Hs & Hd & _ & Hk). apply Hgo; auto.
    intros Ha. destruct (starts_with key "$$"); auto. rewrite Hk in Ha; auto.
  - apply guard_safe_stop in G. destruct G as [[-> ->]|[[-> ->]|[-> ->]]]; apply Hstop; auto.
Qed.

Lemma guard_db_elim (P : guard -> Prop) n c :
  (forall dbn d, s_db (get_sess n c) = Some dbn -> get_db n dbn = Some d -> P (GGo dbn d)) ->
  (forall m, P (GStop (send n c m) (RError m))) ->
  P (guard_db n c).
Proof.
  intros Hgo Hstop. destruct (guard_db n c) as [dbn d|n' r] eqn:G.
  - apply guard_db_go in G. destruct G. now apply Hgo.
  - apply guard_db_stop in G. destruct G as (-> & -> & _). apply Hstop.
Qed.

(* the text that [replicate_request] queues for the other nodes, if any: the inner match of
   [replicate_request] with the queueing taken out; [replicate_request_eq] ties the two *)
Definition wire (rq : request) (sel : str) : option str :=
  match rq with
  | RqCreateDb token name strategy => Some ("create-db " +++ name +++ " " +++ token +++ " " +++ strat_to_str strategy)
  | RqSnapshot reclaim names =>
      Some ("replicate-snapshot " +++ join "|" (match names with [] => [sel] | _ => names end) +++ " "
            +++ (if reclaim then "true" else "false"))
  | RqReplicateSnapshot reclaim names =>
      Some ("replicate-snapshot " +++ join "|" names +++ " " +++ (if reclaim then "true" else "false"))
  | RqSet key value version => Some (replicate_msg sel key value version)
  | RqResolve opp_id dbn key value version =>
      Some ("resolve " +++ N_to_str opp_id +++ " " +++ dbn +++ " " +++ key +++ " " +++ Z_to_str version +++ " " +++ value)
  | RqReplicateSet dbn key value version => Some (replicate_msg dbn key value version)
  | RqRemove key => Some ("replicate-remove " +++ sel +++ " " +++ key)
  | RqReplicateRemove dbn key => Some ("replicate-remove " +++ dbn +++ " " +++ key)
  | RqElection id name => Some ("election candidate " +++ N_to_str id +++ " " +++ name)
  | RqElectionActive name => Some ("election active " +++ name)
  | RqLeave name => Some ("replicate-leave " +++ name)
  | RqReplicateIncrement dbn key inc => Some ("replicate-increment " +++ dbn +++ " " +++ key +++ " " +++ Z_to_str inc)
  | RqIncrement key inc => Some ("replicate-increment " +++ sel +++ " " +++ key +++ " " +++ Z_to_str inc)
  | RqCreateUser token user_name => Some (replicate_msg sel ("$$user_" +++ user_name) token (-1))
  | RqSetPermissions user perms =>
      Some (replicate_msg sel ("$$permission_$" +++ user) (permissions_to_str_value perms) (-1))
  | _ => None
  end.

Lemma replicate_request_eq n rq sd r : replicate_request n rq sd r =
  match r with
  | RError _ | RVersionError _ _ _ _ _ _ | RPanic => (n, r)
  | _ => if match sd with Some nm => negb (has_db n nm) | None => false end
         then (n, RError ("Database " +++ or_empty sd +++ " not found"))
         else match wire rq (or_empty sd) with Some m => (replicate_web n m, ROk) | None => (n, r) end
  end.
Proof.
  unfold replicate_request. destruct r; try reflexivity;
    destruct (match sd with Some nm => negb (has_db n nm) | None => false end); try reflexivity;
    destruct rq; reflexivity.
Qed.

Lemma replicate_request_cases n rq sel r :
  (exists r', replicate_request n rq sel r = (n, r')) \/
  (exists m, replicate_request n rq sel r = (replicate_web n m, ROk)).
Proof.
  rewrite replicate_request_eq.
  destruct r; eauto;
    (destruct (match sel with Some nm => negb (has_db n nm) | None => false end); [eauto|]);
    destruct (wire rq (or_empty sel)); eauto.
Qed.

Lemma replicate_request_dbs n rq sel r : n_dbs (fst (replicate_request n rq sel r)) = n_dbs n.
Proof. destruct (replicate_request_cases n rq sel r) as [[r' ->]|[m ->]]; reflexivity. Qed.

Lemma replicate_request_resp n rq sel r :
  snd (replicate_request n rq sel r) = r \/ (exists m, snd (replicate_request n rq sel r) = RError m) \/
  snd (replicate_request n rq sel r) = ROk.
Proof.
  rewrite replicate_request_eq.
  destruct r; auto;
    (destruct (match sel with Some nm => negb (has_db n nm) | None => false end); [cbn; eauto|]);
    destruct (wire rq (or_empty sel)); auto.
Qed.

Lemma replicate_request_refused n rq sel r :
  match r with RError _ | RVersionError _ _ _ _ _ _ | RPanic => True | _ => False end ->
  replicate_request n rq sel r = (n, r).
Proof. destruct r; intros []; reflexivity. Qed.

Lemma replicate_request_unwatch_all n sel r : fst (replicate_request n RqUnWatchAll sel r) = n.
Proof.
  rewrite replicate_request_eq. destruct r; try reflexivity;
    destruct (match sel with Some nm => negb (has_db n nm) | None => false end); reflexivity.
Qed.

(* Stated for a variable line, so that the fuel of [process] is never evaluated. *)
Lemma step_eq n c line rq :
  parse_request (trim_char nl line) = POk rq ->
  (forall i o, rq <> RqReplicateRequest i o) ->
  step n c line = let '(n1, r) := handle n c rq in replicate_request n1 rq (s_db (get_sess n c)) r.
Proof.
  intros Hp Hr. unfold step. cbn [process]. rewrite Hp.
  destruct rq; try reflexivity. exfalso. eapply Hr; eauto.
Qed.

Lemma step_parse_error n c line e :
  parse_request (trim_char nl line) = PErr e -> step n c line = (n, RError e).
Proof. intros Hp. unfold step. cbn [process]. now rewrite Hp. Qed.

Lemma step_refused n c line rq n' r :
  parse_request (trim_char nl line) = POk rq ->
  (forall i o, rq <> RqReplicateRequest i o) ->
  handle n c rq = (n', r) ->
  match r with RError _ | RVersionError _ _ _ _ _ _ | RPanic => True | _ => False end ->
  step n c line = (n', r).
Proof.
  intros Hp Hrp Hh Hr. rewrite (step_eq n c line rq Hp Hrp), Hh.
  now apply replicate_request_refused.
Qed.

Definition is_rp (rq : request) : bool := match rq with RqReplicateRequest _ _ => true | _ => false end.

Lemma step_user n c line : s_auth (get_sess n c) = false ->
  step n c line =
  match parse_request (trim_char nl line) with
  | POk rq => let '(n1, r) := if is_rp rq then (n, not_auth) else handle n c rq in
              replicate_request n1 rq (s_db (get_sess n c)) r
  | PErr e => (n, RError e)
  | PPanic => (n, RPanic)
  end.
Proof.
  intros Ha. unfold step. cbn [process]. rewrite Ha.
  destruct (parse_request (trim_char nl line)) as [rq| |]; try reflexivity. now destruct rq.
Qed.

Lemma parse_unwatch_all : parse_request (trim_char nl "unwatch-all") = POk RqUnWatchAll.
Proof. vm_compute. reflexivity. Qed.

Lemma step_unwatch_all n c : fst (step n c "unwatch-all") = fst (handle n c RqUnWatchAll).
Proof.
  rewrite (step_eq n c _ _ parse_unwatch_all) by discriminate.
  destruct (handle n c RqUnWatchAll) as [n1 r]. apply replicate_request_unwatch_all.
Qed.

Lemma disconnect_eq n c : disconnect n c = client_left (fst (handle n c RqUnWatchAll)) c.
Proof. unfold disconnect. now rewrite step_unwatch_all. Qed.

Lemma disconnect_sel n c dbn d : s_db (get_sess n c) = Some dbn -> get_db n dbn = Some d ->
  disconnect n c = set_connection_counter (put_db n dbn (db_set_conn (unwatch_all d c) (d_conn d - 1))) dbn.
Proof.
  intros Hs Hd. rewrite disconnect_eq. cbn [handle]. unfold guard_db, guard_db_name. rewrite Hs, Hd. cbn [fst].
  unfold client_left. rewrite get_sess_put_db, Hs, get_db_put_same, put_db_put_db.
  now rewrite (unwatch_all_frame d c) at 2.
Qed.

Lemma disconnect_no_db n c :
  (s_db (get_sess n c) = None \/ exists dbn, s_db (get_sess n c) = Some dbn /\ get_db n dbn = None) ->
  disconnect n c = send n c no_db_msg.
Proof.
  intros H. rewrite disconnect_eq. cbn [handle]. unfold guard_db, guard_db_name, reject_no_db, client_left.
  assert (E : s_db (get_sess (send n c no_db_msg) c) = s_db (get_sess n c)).
  { rewrite get_sess_send, Nat.eqb_refl. now destruct (Nat.ltb c _). }
  destruct H as [H|(dbn & H & Hd)]; rewrite H in *; [|rewrite Hd]; cbn [fst]; rewrite E; [reflexivity|].
  now rewrite get_db_send, Hd.
Qed.

(* a successful use-db in the order of [handle_usedb]: the token check; c's selection (and user)
   replaced; the database counted in and its "$connections" key rewritten *)
Definition usedb_valid (d : db) (t : str) (u : option str) : bool :=
  match get_value d (match u with Some x => "$$user_" +++ x | None => "$$token" end) with
  | Some v => String.eqb (v_val v) t
  | None => false
  end.

Definition sel_sess (n : node) (c : nat) (nm : str) (u : option str) : node :=
  put_sess n c (set_sel (get_sess n c) (Some nm) (match u with Some x => Some x | None => s_user (get_sess n c) end)).

Definition count_in (n : node) (nm : str) : node :=
  match get_db n nm with
  | Some d => set_connection_counter (put_db n nm (db_set_conn d (d_conn d + 1))) nm
  | None => n
  end.

Lemma handle_usedb n c t nm u :
  handle n c (RqUseDb t nm u) =
  match get_db n nm with
  | None => (n, RError "Not a valid database name")
  | Some d => if usedb_valid d t u then (count_in (sel_sess (client_left n c) c nm u) nm, ROk)
              else (n, RError "Invalid token")
  end.
Proof.
  cbn [handle]. unfold release_previous, count_in, sel_sess, usedb_valid.
  destruct (get_db n nm) as [d|]; [|reflexivity].
  destruct (match get_value d _ with Some v => _ | None => _ end); [|reflexivity].
  now destruct (get_db _ nm).
Qed.
