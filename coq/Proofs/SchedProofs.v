(* The interleaving model of Model/Sched.v for sessions that run the scheduled commands (set,
   get, get-safe, remove, increment, watch, unwatch, unwatch-all, keys).  [release] is walked once:
   [release_post] (with [start_cmd_post] for the start of a command) says that the thread ends at
   the command boundary or at a successor of its park point in the table [pc_next], and, outside a
   use-db, that the table of databases is that of [apply_op n (step_op n t)].  The proofs use its
   two faces: [release_form] (the thread) and [release_dbs] with [release_get_db] (the node: one
   equation for [get_db] after a release, by the operation [step_op] it performs).  What a release
   keeps is lifted to [release_nth] and to schedules once ([release_nth_inv], [run_schedule_inv]);
   [run_out] and [run_par] are schedules too ([run_par_schedule]), so that the theorems about
   schedules (C02: the database is the replay of the log; C03: subscriptions; C19: strategy
   newer) hold of them as well. *)
From NunDB Require Import Model.Base Model.Pending Model.Parse Model.Node Model.Sched
  Proofs.ListLemmas Proofs.AssocLemmas Proofs.StrLemmas Proofs.NodeLemmas Proofs.DbProofs.
Local Open Scope Z_scope.

Lemma dbs_send n c m : n_dbs (send n c m) = n_dbs n.
Proof. exact (n_dbs_send n c m). Qed.

Lemma dbs_sends l : forall n, n_dbs (sends n l) = n_dbs n.
Proof. intros n. apply n_dbs_sends. Qed.

Lemma dbs_put_sess n c s : n_dbs (put_sess n c s) = n_dbs n.
Proof. exact (n_dbs_put_sess n c s). Qed.

Lemma dbs_tick n n1 id : tick n = (n1, id) -> n_dbs n1 = n_dbs n /\ id = n_clock n.
Proof. unfold tick. intros [= <- <-]. auto. Qed.

Lemma dbs_send_to_primary n m : n_dbs (send_to_primary n m) = n_dbs n.
Proof. exact (n_dbs_send_to_primary n m). Qed.

(* a secondary forwards the write to the primary *)
Lemma dbs_forward n m : n_dbs (if is_primary n then n else send_to_primary n m) = n_dbs n.
Proof. now destruct (is_primary n). Qed.

Lemma dbs_replicate_web n m : n_dbs (replicate_web n m) = n_dbs n.
Proof. exact (n_dbs_replicate_web n m). Qed.

Lemma dbs_replicate_request n rq s r : n_dbs (fst (replicate_request n rq s r)) = n_dbs n.
Proof. exact (replicate_request_dbs n rq s r). Qed.

Lemma complete_fst n t rq s r : fst (complete n t rq s r) = fst (replicate_request n rq s r).
Proof. unfold complete. destruct (replicate_request n rq s r); reflexivity. Qed.

Lemma complete_snd n t rq s r : snd (complete n t rq s r) = finish t (snd (replicate_request n rq s r)).
Proof. unfold complete. destruct (replicate_request n rq s r); reflexivity. Qed.

Lemma dbs_complete n t rq s r : n_dbs (fst (complete n t rq s r)) = n_dbs n.
Proof. rewrite complete_fst. apply replicate_request_dbs. Qed.

Lemma dbs_guard_db_name n c dbn key req n' r :
  guard_db_name n c dbn key req = GStop n' r -> n_dbs n' = n_dbs n.
Proof. intros H. now destruct (guard_db_name_stop _ _ _ _ _ _ _ H) as [[-> _]|[-> _]]. Qed.

Lemma dbs_guard_safe n c key req n' r :
  guard_safe n c key req = GStop n' r -> n_dbs n' = n_dbs n.
Proof. intros H. destruct (guard_safe_stop _ _ _ _ _ _ H) as [[-> _]|[[-> _]|[-> _]]]; reflexivity. Qed.

Lemma dbs_guard_db n c n' r : guard_db n c = GStop n' r -> n_dbs n' = n_dbs n.
Proof. intros H. now destruct (guard_db_stop _ _ _ _ H) as [-> _]. Qed.

(* data operations, with the resolve flag of a change *)
Inductive dop' :=
| DSet' (k v : str) (ver : Z) (opp : N) (resolving : bool)
| DRemove' (k : str)
| DInc' (k : str) (i : Z) (opp : N).

Definition db_apply' (d : db) (o : dop') : db :=
  match o with
  | DSet' k v ver opp rs => fst (fst (set_value d (mkCh k v ver opp rs)))
  | DRemove' k => fst (fst (remove_value d k))
  | DInc' k i opp => fst (fst (inc_value d k i opp))
  end.

Definition dop_resp' (d : db) (o : dop') : resp :=
  match o with
  | DSet' k v ver opp rs => snd (fst (set_value d (mkCh k v ver opp rs)))
  | DRemove' k => snd (fst (remove_value d k))
  | DInc' k i opp => snd (fst (inc_value d k i opp))
  end.

Definition dop_key' (o : dop') : str :=
  match o with DSet' k _ _ _ _ => k | DRemove' k => k | DInc' k _ _ => k end.

Definition of_dop (o : dop) : dop' :=
  match o with
  | DSet k v ver opp => DSet' k v ver opp false
  | DRemove k => DRemove' k
  | DInc k i opp => DInc' k i opp
  end.

Definition to_dop (o : dop') : dop :=
  match o with
  | DSet' k v ver opp _ => DSet k v ver opp
  | DRemove' k => DRemove k
  | DInc' k i opp => DInc k i opp
  end.

(* not a resolving set: what DbProofs' [db_apply] knows *)
Definition plain (o : dop') : Prop :=
  match o with DSet' _ _ _ _ rs => rs = false | _ => True end.

Lemma db_apply_of_dop d o : db_apply' d (of_dop o) = db_apply d o.
Proof. destruct o; reflexivity. Qed.

Lemma db_apply_to_dop d o : plain o -> db_apply' d o = db_apply d (to_dop o).
Proof. destruct o; cbn; intros H; subst; reflexivity. Qed.

(* everything a release can do to a database: a data operation or a subscription step *)
Inductive lop :=
| LData (o : dop')
| LWatch (k : str) (s : nat)
| LUnwatch (k : str) (s : nat).

Definition lop_apply (d : db) (l : lop) : db :=
  match l with
  | LData o => db_apply' d o
  | LWatch k s => watch_key d k s
  | LUnwatch k s => unwatch_key d k s
  end.

(* the operation a release of [t] performs, and on which database *)
Definition step_op (n : node) (t : thr) : option (str * lop) :=
  match t_pc t with
  | PcSetWrite dbn key value ver opp rs _ => Some (dbn, LData (DSet' key value ver opp rs))
  | PcRemoveWrite dbn key => Some (dbn, LData (DRemove' key))
  | PcIncWrite dbn key inc _ => Some (dbn, LData (DInc' key inc (n_clock n)))
  | PcWatch dbn key => Some (dbn, LWatch key (t_sid t))
  | PcUnwatch dbn key => Some (dbn, LUnwatch key (t_sid t))
  | PcUnwatchAllKeys dbn (k :: _) => Some (dbn, LUnwatch k (t_sid t))
  | _ => None
  end.

Definition data_op (n : node) (t : thr) : option (str * dop') :=
  match t_pc t with
  | PcSetWrite dbn key value ver opp rs _ => Some (dbn, DSet' key value ver opp rs)
  | PcRemoveWrite dbn key => Some (dbn, DRemove' key)
  | PcIncWrite dbn key inc _ => Some (dbn, DInc' key inc (n_clock n))
  | _ => None
  end.

Lemma data_op_step n t :
  data_op n t = match step_op n t with Some (dbn, LData o) => Some (dbn, o) | _ => None end.
Proof.
  unfold data_op, step_op. destruct (t_pc t); try reflexivity.
  destruct keys; reflexivity.
Qed.

Definition sched_rq (rq : request) : bool :=
  match rq with
  | RqSet _ _ _ | RqGet _ | RqGetSafe _ | RqRemove _ | RqIncrement _ _
  | RqWatch _ | RqUnWatch _ | RqUnWatchAll | RqKeys _ => true
  | _ => false
  end.

Definition sched_line (l : str) : Prop :=
  match parse_request (trim_char nl l) with
  | POk rq => sched_rq rq = true
  | _ => True
  end.

(* a scheduled thread is never parked inside a use-db (use-db lines are not scheduled
   commands, so these park points are unreachable for such a thread) *)
Definition sched_pc (p : pc) : Prop :=
  match p with
  | PcUseTok _ _ _ | PcPub _ _ _ _ | PcPubNotify _ _ _ _ => False
  | _ => True
  end.

Definition sched_thr (t : thr) : Prop := Forall sched_line (t_prog t) /\ sched_pc (t_pc t).

Lemma db_set_watch_id d : db_set_watch d (d_watch d) = d.
Proof. destruct d; reflexivity. Qed.

Lemma set_value_watch d ch : d_watch (fst (fst (set_value d ch))) = d_watch d.
Proof. now rewrite set_value_frame. Qed.

Lemma remove_value_watch d k : d_watch (fst (fst (remove_value d k))) = d_watch d.
Proof. now rewrite remove_value_frame. Qed.

Lemma inc_value_watch d k i opp : d_watch (fst (fst (inc_value d k i opp))) = d_watch d.
Proof. now rewrite inc_value_frame. Qed.

Lemma set_value_strat d ch : d_strat (fst (fst (set_value d ch))) = d_strat d.
Proof. now rewrite set_value_frame. Qed.

Lemma remove_value_strat d k : d_strat (fst (fst (remove_value d k))) = d_strat d.
Proof. now rewrite remove_value_frame. Qed.

Lemma inc_value_strat d k i opp : d_strat (fst (fst (inc_value d k i opp))) = d_strat d.
Proof. now rewrite inc_value_frame. Qed.

Lemma db_apply_frame d o : db_apply' d o = db_set_map d (d_map (db_apply' d o)).
Proof. destruct o; cbn [db_apply']; auto using set_value_frame, remove_value_frame, inc_value_frame. Qed.

Lemma db_apply_watch d o : d_watch (db_apply' d o) = d_watch d.
Proof. now rewrite db_apply_frame. Qed.

Lemma lop_apply_strat d l : d_strat (lop_apply d l) = d_strat d.
Proof. destruct l as [o| |]; cbn [lop_apply]; [now rewrite db_apply_frame | reflexivity | reflexivity]. Qed.

Lemma finish_sid t r : t_sid (finish t r) = t_sid t.
Proof. unfold finish. destruct (t_prog t); reflexivity. Qed.

Lemma finish_prog t r : t_prog (finish t r) = t_prog t.
Proof. unfold finish. destruct (t_prog t) eqn:E; cbn [t_prog]; auto. Qed.

Lemma finish_replies t r : t_replies (finish t r) = t_replies t ++ [r].
Proof. unfold finish. destruct (t_prog t); reflexivity. Qed.

Lemma finish_hints t r : t_hints (finish t r) = t_hints t.
Proof. unfold finish. destruct (t_prog t); reflexivity. Qed.

Lemma pc_cmd_dec t : t_pc t = PcCmd \/ t_pc t <> PcCmd.
Proof. destruct (t_pc t); auto; right; discriminate. Qed.

Definition at_boundary (t : thr) : Prop := t_pc t = PcCmd \/ t_pc t = PcDone.

Lemma finish_boundary t r : at_boundary (finish t r).
Proof. unfold finish, at_boundary. destruct (t_prog t); cbn [t_pc]; auto. Qed.

(* The successor table of the program counter: every park point a release can reach, by the
   park point it starts from.  [guard_next]: where a request parks once the guard has let it
   through; [cmd_next]: the first park point of a command; [pc_next]: all of [release]. *)
Inductive guard_next (dbn : str) : request -> pc -> Prop :=
| GN_set key value ver id :
    guard_next dbn (RqSet key value ver) (PcSetWrite dbn key value ver id false ver)
| GN_get key : guard_next dbn (RqGet key) (PcGetRead dbn key false)
| GN_get_safe key : guard_next dbn (RqGetSafe key) (PcGetRead dbn key true)
| GN_remove key : guard_next dbn (RqRemove key) (PcRemoveWrite dbn key)
| GN_inc key inc : guard_next dbn (RqIncrement key inc) (PcIncWrite dbn key inc (RqIncrement key inc))
| GN_watch key : guard_next dbn (RqWatch key) (PcWatch dbn key).

Inductive cmd_next : request -> pc -> Prop :=
| CN_perm rq kk : key_of rq = Some kk -> cmd_next rq (PcPerm rq)
| CN_guard rq dbn p : guard_next dbn rq p -> cmd_next rq p
| CN_unwatch key dbn : cmd_next (RqUnWatch key) (PcUnwatch dbn key)
| CN_unwatch_all dbn : cmd_next RqUnWatchAll (PcUnwatchAllClone dbn)
| CN_keys pattern dbn : cmd_next (RqKeys pattern) (PcKeys dbn pattern)
| CN_use_db token name user : cmd_next (RqUseDb token name user) (PcUseTok token name user).

Definition head_rq (prog : list str) (rq : request) : Prop :=
  exists line rest, prog = line :: rest /\ parse_request (trim_char nl line) = POk rq.

Inductive pc_next (n : node) (prog : list str) : pc -> pc -> Prop :=
| PN_cmd rq p : head_rq prog rq -> cmd_next rq p -> pc_next n prog PcCmd p
| PN_guard rq dbn p : guard_next dbn rq p -> pc_next n prog (PcPerm rq) p
| PN_stuck rq : key_of rq = None -> pc_next n prog (PcPerm rq) (PcPerm rq)
| PN_set dbn key value ver opp rs orig nv :
    pc_next n prog (PcSetWrite dbn key value ver opp rs orig)
            (PcNotify dbn key value nv (RqSet key value orig))
(* the stored change is older, the database is "newer": the write comes again, resolving *)
| PN_resolve dbn key value ver opp rs orig d old id :
    get_db n dbn = Some d -> d_strat d = SNewer -> get_value d key = Some old ->
    pc_next n prog (PcSetWrite dbn key value ver opp rs orig)
            (PcSetWrite dbn key value (v_ver old) id true orig)
| PN_remove dbn key : pc_next n prog (PcRemoveWrite dbn key) (PcRemoveNotify dbn key (RqRemove key))
| PN_inc dbn key inc rq txt :
    pc_next n prog (PcIncWrite dbn key inc rq) (PcNotify dbn key txt (-1) rq)
| PN_clone dbn ks : pc_next n prog (PcUnwatchAllClone dbn) (PcUnwatchAllKeys dbn ks)
| PN_keys dbn k rest : pc_next n prog (PcUnwatchAllKeys dbn (k :: rest)) (PcUnwatchAllKeys dbn rest)
| PN_tok token name user D c o k : pc_next n prog (PcUseTok token name user) (PcPub D c o k)
| PN_pub D c o k nv : pc_next n prog (PcPub D c o k) (PcPubNotify D c nv k)
| PN_pub_on D c o k D' c' o' k' : pc_next n prog (PcPub D c o k) (PcPub D' c' o' k')
| PN_notify_on D c nv k D' c' o' k' : pc_next n prog (PcPubNotify D c nv k) (PcPub D' c' o' k').

(* the node after the operation [o] of a release, as far as its databases go *)
Definition apply_op (n : node) (o : option (str * lop)) : node :=
  match o with
  | Some (dbn, l) => match get_db n dbn with Some d => put_db n dbn (lop_apply d l) | None => n end
  | None => n
  end.

Lemma get_db_apply_op n o x :
  get_db (apply_op n o) x =
  match o with
  | Some (dbn, l) => if String.eqb x dbn then option_map (fun d => lop_apply d l) (get_db n x) else get_db n x
  | None => get_db n x
  end.
Proof.
  destruct o as [[dbn l]|]; [|reflexivity]. cbn [apply_op].
  destruct (get_db n dbn) as [d|] eqn:E; [rewrite get_db_put|];
    (destruct (String.eqb_spec x dbn) as [->|]; [now rewrite E | reflexivity]).
Qed.

(* The outcome [r] of a release of [t], or of a part of one.  The thread is [t] further on in
   the same command: at the command boundary, or parked at a program counter that [P] allows.
   The node: if [H] holds, its databases are those of [m]. *)
Definition rpost (P : pc -> Prop) (H : Prop) (m : node) (t : thr) (r : node * thr) : Prop :=
  (H -> n_dbs (fst r) = n_dbs m) /\
  t_sid (snd r) = t_sid t /\ t_prog (snd r) = t_prog t /\ (at_boundary (snd r) \/ P (t_pc (snd r))).

Lemma rpost_finish P (H : Prop) m n t r : (H -> n_dbs n = n_dbs m) -> rpost P H m t (n, finish t r).
Proof. unfold rpost. cbn [fst snd]. auto using finish_sid, finish_prog, finish_boundary. Qed.

Lemma rpost_complete P (H : Prop) m n t rq s r :
  (H -> n_dbs n = n_dbs m) -> rpost P H m t (complete n t rq s r).
Proof.
  intros E. rewrite (surjective_pairing (complete _ _ _ _ _)), complete_snd.
  apply rpost_finish. intros Hh. rewrite dbs_complete. auto.
Qed.

Lemma rpost_park (P : pc -> Prop) (H : Prop) m n t p s :
  (H -> n_dbs n = n_dbs m) -> P p -> rpost P H m t (n, park t p s).
Proof. unfold rpost. cbn [fst snd]. auto. Qed.

Lemma rpost_impl (P Q : pc -> Prop) H m t r : rpost P H m t r -> (forall p, P p -> Q p) -> rpost Q H m t r.
Proof. intros (A & B & C & [D|D]) Hpq; repeat split; auto. Qed.

Lemma rpost_same_thr P H m t0 t r : rpost P H m t0 r -> t_sid t0 = t_sid t -> t_prog t0 = t_prog t -> rpost P H m t r.
Proof. unfold rpost. intros (A & B & C & D) <- <-. auto. Qed.

Lemma after_guard_post H n t rq dbn kk :
  key_of rq = Some kk -> rpost (guard_next dbn rq) H n t (after_guard n t rq dbn).
Proof.
  unfold after_guard, tick. destruct rq; try discriminate; intros _;
    try (apply rpost_park; [easy | constructor]).
  - destruct (String.eqb _ _); [now apply rpost_complete | apply rpost_park; [easy | constructor]].
  - destruct (is_primary n); [apply rpost_park; [easy | constructor] | now apply rpost_complete].
Qed.

(* [release] and [start_cmd] call [after_guard] for requests with a key only *)
Lemma after_guard_cases H n t rq dbn :
  rpost (guard_next dbn rq) H n t (after_guard n t rq dbn) \/ after_guard n t rq dbn = (n, t).
Proof.
  destruct (key_of rq) eqn:Hk; [left; eapply after_guard_post, Hk|].
  right. destruct rq; try discriminate Hk; reflexivity.
Qed.

Lemma dbs_after_guard n t rq dbn : n_dbs (fst (after_guard n t rq dbn)) = n_dbs n.
Proof. destruct (after_guard_cases True n t rq dbn) as [[A _]| ->]; [exact (A I) | reflexivity]. Qed.

Lemma after_guard_thr n t rq dbn :
  t_sid (snd (after_guard n t rq dbn)) = t_sid t /\ t_prog (snd (after_guard n t rq dbn)) = t_prog t.
Proof. destruct (after_guard_cases True n t rq dbn) as [(_ & A & B & _)| ->]; auto. Qed.

(* the use-db continuations: nothing is said of the node *)
Definition is_pub (p : pc) : Prop := match p with PcPub _ _ _ _ => True | _ => False end.

Lemma start_publish_post m n t dbn k d :
  get_db n dbn = Some d -> rpost is_pub False m t (start_publish n t dbn k).
Proof. intros H. unfold start_publish, tick. rewrite H. now apply rpost_park. Qed.

Lemma use_inc_post m n t name user rq : rpost is_pub False m t (use_inc n t name user rq).
Proof.
  unfold use_inc. destruct (get_db _ name); [|now apply rpost_finish].
  eapply start_publish_post. rewrite get_db_put, String.eqb_refl. reflexivity.
Qed.

Lemma after_publish_post m n t k : rpost is_pub False m t (after_publish n t k).
Proof.
  destruct k; cbn [after_publish]; [apply use_inc_post|].
  destruct (replicate_request _ _ _ _). now apply rpost_finish.
Qed.

Lemma start_cmd_nil n t : t_prog t = [] ->
  start_cmd n t = (n, mkThr (t_sid t) [] PcDone (t_replies t) (t_trace t) (t_hints t)).
Proof. intros H. unfold start_cmd. now rewrite H. Qed.

(* a command starts: its line is taken off the program *)
Lemma start_cmd_post n t line rest : t_prog t = line :: rest ->
  rpost (pc_next n (t_prog t) PcCmd) (sched_line line) n
        (mkThr (t_sid t) rest (t_pc t) (t_replies t) (t_trace t) (t_hints t)) (start_cmd n t).
Proof.
  intros Hp. unfold start_cmd, sched_line. rewrite Hp.
  generalize (mkThr (t_sid t) rest (t_pc t) (t_replies t) (t_trace t) (t_hints t)). intros t0.
  destruct (parse_request (trim_char nl line)) as [rq| |] eqn:Hq; try now apply rpost_finish.
  assert (Hn : forall p, cmd_next rq p -> pc_next n (line :: rest) PcCmd p).
  { intros p. apply PN_cmd. exists line, rest. auto. }
  destruct (key_of rq) as [[key kind]|] eqn:Hk.
  - destruct (perm_yields _ _ _); [apply rpost_park; [easy | eapply Hn, CN_perm, Hk]|].
    destruct (guard_safe _ _ _ _) eqn:Hg; [|apply rpost_complete; intros _; eapply dbs_guard_safe; eauto].
    eapply rpost_impl; [eapply after_guard_post, Hk|]. intros p Hgn. eapply Hn, CN_guard, Hgn.
  - (* requests without a key: unwatch, unwatch-all and keys pass [guard_db], use-db looks its
       database up; every other request is run in one go by [step] and is not a scheduled line *)
    destruct rq; try discriminate Hk; cbn [sched_rq];
      try (destruct (step n (t_sid t) line); now apply rpost_finish);
      first [destruct (guard_db _ _) eqn:Hg | destruct (get_db _ _)];
      first [apply rpost_park; [easy | apply Hn; constructor]
            | apply rpost_complete; first [easy | intros _; eapply dbs_guard_db; eauto]].
Qed.

Theorem release_post n t : t_pc t <> PcCmd ->
  rpost (pc_next n (t_prog t) (t_pc t)) (sched_pc (t_pc t)) (apply_op n (step_op n t)) t (release n t).
Proof.
  (* one bullet per constructor of [pc], in their order *)
  intros Hc. unfold release, step_op. destruct (t_pc t) eqn:Hpc; cbn [apply_op sched_pc].
  - contradiction.
  - destruct (key_of rq) as [[key kind]|] eqn:Hk.
    + destruct (guard_safe _ _ _ _) eqn:Hg; [|apply rpost_complete; intros _; eapply dbs_guard_safe; eauto].
      eapply rpost_impl; [eapply after_guard_post, Hk|]. apply PN_guard.
    + repeat split. right. cbn [snd]. rewrite Hpc. now apply PN_stuck.
  - (* PcSetWrite: a refused write leaves the database as it is *)
    destruct (get_db n dbn) as [d|] eqn:Hd; [|now apply rpost_complete].
    cbn [lop_apply db_apply'].
    destruct (set_value_cases d (mkCh key value ver opp resolving)) as [(d1 & msgs & E) | (old & Hg & E)];
      rewrite E; cbn [fst].
    + apply rpost_park; [easy | apply PN_set].
    + rewrite (put_db_same _ _ _ Hd).
      destruct (d_strat d) eqn:Hs; try now apply rpost_complete.
      destruct (N.ltb _ _).
      * unfold tick. apply rpost_park; [easy | eapply PN_resolve; eauto].
      * apply rpost_complete. now destruct (is_primary n).
  - destruct rq; apply rpost_complete; intros _;
      rewrite ?dbs_forward; apply n_dbs_sends.
  - destruct (get_db n dbn); [destruct (get_key_value_new _ _)|]; now apply rpost_complete.
  - destruct (get_db n dbn) as [d|] eqn:Hd; [|now apply rpost_complete].
    cbn [lop_apply db_apply']. pose proof (remove_value_frame d key) as Hw.
    destruct (remove_value d key) as [[d1 r] msgs]. cbn [fst snd] in *.
    apply rpost_park; [now rewrite Hw | apply PN_remove].
  - apply rpost_complete. intros _.
    rewrite dbs_forward. apply n_dbs_sends.
  - destruct (get_db n dbn) as [d|] eqn:Hd; [|now apply rpost_complete].
    unfold tick. cbn [lop_apply db_apply'].
    destruct (inc_value_cases d key inc (n_clock n)) as [(d1 & msgs & E) | E]; rewrite E; cbn [fst].
    + apply rpost_park; [easy | apply PN_inc].
    + rewrite (put_db_same _ _ _ Hd). now apply rpost_complete.
  - destruct (get_db n dbn); now apply rpost_complete.
  - destruct (get_db n dbn); now apply rpost_complete.
  - (* PcUnwatchAllClone: the thread goes on without the hint it used *)
    destruct (get_db n dbn); [|now apply rpost_complete].
    destruct (t_hints t); destruct (reorder _ _);
      (eapply rpost_same_thr;
       [first [now apply rpost_complete | apply rpost_park; [easy | apply PN_clone]] | reflexivity | reflexivity]).
  - destruct keys as [|k rest]; [now apply rpost_complete|]. cbn [apply_op].
    destruct (get_db n dbn); (destruct rest; [now apply rpost_complete | apply rpost_park; [easy | apply PN_keys]]).
  - destruct (get_db n dbn); now apply rpost_complete.
  - destruct (get_db n name); [|now apply rpost_complete].
    destruct (negb _); [now apply rpost_complete|].
    assert (Hn : forall p, is_pub p -> pc_next n (t_prog t) (PcUseTok token name user) p).
    { intros p Hp. destruct p; try contradiction. apply PN_tok. }
    destruct (s_db _) as [prev|]; [destruct (get_db n prev)|];
      (eapply rpost_impl; [|exact Hn]); try apply use_inc_post.
    eapply start_publish_post. rewrite get_db_put, String.eqb_refl. reflexivity.
  - destruct (get_db n dbn); [destruct (set_value _ _) as [[? ?] ?]; apply rpost_park; [easy | apply PN_pub]|].
    eapply rpost_impl; [apply after_publish_post|].
    intros p Hp. destruct p; try contradiction. apply PN_pub_on.
  - assert (Hn : forall p, is_pub p -> pc_next n (t_prog t) (PcPubNotify dbn cnt nv k) p).
    { intros p Hp. destruct p; try contradiction. apply PN_notify_on. }
    destruct (get_db n dbn) eqn:Hd; [destruct (Z.eqb _ _)|];
      (eapply rpost_impl; [|exact Hn]); try apply after_publish_post.
    eapply start_publish_post. rewrite (get_db_dbs n) by apply n_dbs_sends. exact Hd.
  - repeat split. left. now right.
Qed.

(* [t'] is [t] later in its program: the same session, the same lines left or one fewer *)
Definition thr_le (t' t : thr) : Prop :=
  t_sid t' = t_sid t /\ (t_prog t' = t_prog t \/ exists l, t_prog t = l :: t_prog t').

Lemma thr_le_refl t : thr_le t t.
Proof. split; auto. Qed.

Lemma thr_le_finish t0 t r : thr_le t0 t -> thr_le (finish t0 r) t.
Proof. unfold thr_le. now rewrite finish_sid, finish_prog. Qed.

Lemma thr_le_complete n t0 t rq s r : thr_le t0 t -> thr_le (snd (complete n t0 rq s r)) t.
Proof. rewrite complete_snd. apply thr_le_finish. Qed.

Lemma thr_le_park t0 t p s : thr_le t0 t -> thr_le (park t0 p s) t.
Proof. auto. Qed.

Lemma thr_le_after_guard n t0 t rq dbn : thr_le t0 t -> thr_le (snd (after_guard n t0 rq dbn)) t.
Proof. unfold thr_le. destruct (after_guard_thr n t0 rq dbn) as [-> ->]. auto. Qed.

Lemma thr_le_start_publish n t0 t dbn k : thr_le t0 t -> thr_le (snd (start_publish n t0 dbn k)) t.
Proof. unfold start_publish, tick. destruct (get_db n dbn); auto. Qed.

Lemma thr_le_use_inc n t0 t name user rq : thr_le t0 t -> thr_le (snd (use_inc n t0 name user rq)) t.
Proof. unfold thr_le. destruct (use_inc_post n n t0 name user rq) as (_ & -> & -> & _). auto. Qed.

Lemma thr_le_after_publish n t0 t k : thr_le t0 t -> thr_le (snd (after_publish n t0 k)) t.
Proof. unfold thr_le. destruct (after_publish_post n n t0 k) as (_ & -> & -> & _). auto. Qed.

Lemma start_cmd_next n t :
  thr_le (snd (start_cmd n t)) t /\
  (at_boundary (snd (start_cmd n t)) \/ pc_next n (t_prog t) PcCmd (t_pc (snd (start_cmd n t)))).
Proof.
  destruct (t_prog t) as [|line rest] eqn:Hp.
  - rewrite (start_cmd_nil n t Hp). split; [split; auto|]. left. now right.
  - destruct (start_cmd_post n t line rest Hp) as (_ & A & B & C). rewrite Hp in C.
    split; [split; [exact A | right; exists line; now rewrite B] | exact C].
Qed.

Lemma start_cmd_thr n t : thr_le (snd (start_cmd n t)) t.
Proof. apply start_cmd_next. Qed.

Lemma release_form n t :
  thr_le (snd (release n t)) t /\
  (at_boundary (snd (release n t)) \/ pc_next n (t_prog t) (t_pc t) (t_pc (snd (release n t)))).
Proof.
  destruct (pc_cmd_dec t) as [Hc|Hc].
  - unfold release. rewrite Hc. apply start_cmd_next.
  - destruct (release_post n t Hc) as (_ & A & B & C). split; [split; auto | exact C].
Qed.

Lemma release_thr n t : thr_le (snd (release n t)) t.
Proof. apply release_form. Qed.

Lemma release_sid n t : t_sid (snd (release n t)) = t_sid t.
Proof. apply release_thr. Qed.

Lemma Forall_tl {A} (P : A -> Prop) l x r : Forall P l -> l = x :: r -> Forall P r.
Proof. intros H ->. now inversion H. Qed.

Lemma release_prog_Forall (L : str -> Prop) n t :
  Forall L (t_prog t) -> Forall L (t_prog (snd (release n t))).
Proof.
  intros H. destruct (release_thr n t) as [_ [E | (l & E)]].
  - now rewrite E.
  - exact (Forall_tl _ _ _ _ H E).
Qed.

Lemma head_rq_Forall (L : str -> Prop) prog rq :
  Forall L prog -> head_rq prog rq -> exists line, L line /\ parse_request (trim_char nl line) = POk rq.
Proof. intros H (line & rest & -> & Hq). inversion H. eauto. Qed.

Lemma boundary_sched_pc t : at_boundary t -> sched_pc (t_pc t).
Proof. intros [E|E]; rewrite E; exact I. Qed.

Lemma guard_next_sched dbn rq p : guard_next dbn rq p -> sched_pc p.
Proof. destruct 1; exact I. Qed.

Lemma pc_next_sched n prog p p' :
  Forall sched_line prog -> sched_pc p -> pc_next n prog p p' -> sched_pc p'.
Proof.
  intros Hl Hp H. destruct H as [rq p Hh Hc| | | | | | | | | | | | ];
    try exact I; try contradiction; eauto using guard_next_sched.
  destruct (head_rq_Forall _ _ _ Hl Hh) as (line & Hs & Hq). unfold sched_line in Hs. rewrite Hq in Hs.
  destruct Hc; try exact I; [eapply guard_next_sched; eassumption | discriminate Hs].
Qed.

Lemma finish_sched_pc t r : sched_pc (t_pc (finish t r)).
Proof. apply boundary_sched_pc, finish_boundary. Qed.

Lemma complete_sched_pc n t rq s r : sched_pc (t_pc (snd (complete n t rq s r))).
Proof. rewrite complete_snd. apply finish_sched_pc. Qed.

Lemma after_guard_sched_pc n t rq dbn :
  sched_pc (t_pc t) -> sched_pc (t_pc (snd (after_guard n t rq dbn))).
Proof.
  intros Hp. destruct (after_guard_cases True n t rq dbn) as [(_ & _ & _ & [H|H])| ->];
    eauto using boundary_sched_pc, guard_next_sched.
Qed.

Lemma start_cmd_sched_pc n t :
  sched_pc (t_pc t) -> Forall sched_line (t_prog t) -> sched_pc (t_pc (snd (start_cmd n t))).
Proof.
  intros _ Hl. destruct (start_cmd_next n t) as [_ [Hb|Hn]];
    [now apply boundary_sched_pc | exact (pc_next_sched _ _ PcCmd _ Hl I Hn)].
Qed.

Lemma release_sched_pc n t : sched_thr t -> sched_pc (t_pc (snd (release n t))).
Proof.
  intros [Hl Hp]. destruct (release_form n t) as [_ [Hb|Hn]].
  - now apply boundary_sched_pc.
  - eapply pc_next_sched; eauto.
Qed.

Lemma release_sched n t : sched_thr t -> sched_thr (snd (release n t)).
Proof. intros H. split; [apply release_prog_Forall, H | now apply release_sched_pc]. Qed.

Definition unchanged (n' n : node) : Prop := n_dbs n' = n_dbs n.

Lemma start_cmd_dbs n t : sched_thr t -> n_dbs (fst (start_cmd n t)) = n_dbs n.
Proof.
  intros [Hl _]. destruct (t_prog t) as [|line rest] eqn:E; [now rewrite (start_cmd_nil n t E)|].
  apply (start_cmd_post n t line rest E). now inversion Hl.
Qed.

Lemma release_dbs n t : sched_thr t -> n_dbs (fst (release n t)) = n_dbs (apply_op n (step_op n t)).
Proof.
  intros Hs. destruct (pc_cmd_dec t) as [Hc|Hc]; [|exact (proj1 (release_post n t Hc) (proj2 Hs))].
  unfold release, step_op. rewrite Hc. now apply start_cmd_dbs.
Qed.

Lemma eff_put n n' dbn d' :
  n_dbs n' = n_dbs (put_db n dbn d') ->
  forall x, get_db n' x = if String.eqb x dbn then Some d' else get_db n x.
Proof. intros H x. rewrite (get_db_dbs _ _ x H). apply get_db_put. Qed.

Lemma eff_same n n' dbn d :
  n_dbs n' = n_dbs n -> get_db n dbn = Some d ->
  forall x, get_db n' x = if String.eqb x dbn then Some d else get_db n x.
Proof. intros H Hd. apply eff_put. now rewrite (put_db_same _ _ _ Hd). Qed.

Theorem release_effect n t : sched_thr t ->
  match step_op n t with
  | Some (dbn, l) =>
      match get_db n dbn with
      | Some d => forall x, get_db (fst (release n t)) x =
                            if String.eqb x dbn then Some (lop_apply d l) else get_db n x
      | None => n_dbs (fst (release n t)) = n_dbs n
      end
  | None => n_dbs (fst (release n t)) = n_dbs n
  end.
Proof.
  intros Hs. pose proof (release_dbs n t Hs) as H. destruct (step_op n t) as [[dbn l]|]; [|exact H].
  cbn [apply_op] in H. destruct (get_db n dbn); [now apply eff_put | exact H].
Qed.

Corollary release_get_db n t x : sched_thr t ->
  get_db (fst (release n t)) x =
  match step_op n t with
  | Some (dbn, l) =>
      if String.eqb x dbn then option_map (fun d => lop_apply d l) (get_db n x) else get_db n x
  | None => get_db n x
  end.
Proof. intros Hs. rewrite (get_db_dbs _ _ x (release_dbs n t Hs)). apply get_db_apply_op. Qed.

Lemma release_keeps {A} (F : db -> A) n t : sched_thr t ->
  (forall dbn l d, step_op n t = Some (dbn, l) -> F (lop_apply d l) = F d) ->
  forall x, option_map F (get_db (fst (release n t)) x) = option_map F (get_db n x).
Proof.
  intros Hs HF x. rewrite release_get_db by exact Hs.
  destruct (step_op n t) as [[dbn l]|]; [|reflexivity].
  destruct (String.eqb x dbn); [|reflexivity].
  destruct (get_db n x); cbn [option_map]; [|reflexivity]. f_equal. now apply (HF dbn).
Qed.

(* [release_get_db] split by the cases of [data_op] *)
Theorem release_data n t : sched_thr t ->
  (forall dbn o d, data_op n t = Some (dbn, o) -> get_db n dbn = Some d ->
     (exists d', get_db (fst (release n t)) dbn = Some d' /\ d' = db_apply' d o /\
                 d_map d' = d_map (db_apply' d o) /\ d_watch d' = d_watch d) /\
     forall x, x <> dbn -> get_db (fst (release n t)) x = get_db n x) /\
  (forall dbn o, data_op n t = Some (dbn, o) -> get_db n dbn = None ->
     forall x, get_db (fst (release n t)) x = get_db n x) /\
  (data_op n t = None ->
     forall x, option_map d_map (get_db (fst (release n t)) x) = option_map d_map (get_db n x)).
Proof.
  intros Hs. rewrite data_op_step. split; [|split].
  - intros dbn o d H Hd. split; [|intros x Hx]; rewrite release_get_db by exact Hs;
      destruct (step_op n t) as [[dbn0 [o0| |]]|]; try discriminate; injection H as -> ->.
    + exists (db_apply' d o). rewrite String.eqb_refl, Hd. repeat split; auto using db_apply_watch.
    + now destruct (String.eqb_spec x dbn).
  - intros dbn o H Hn x. rewrite release_get_db by exact Hs.
    destruct (step_op n t) as [[dbn0 [o0| |]]|]; try discriminate. injection H as -> ->.
    destruct (String.eqb_spec x dbn) as [->|]; [now rewrite Hn | reflexivity].
  - intros H. apply release_keeps; [exact Hs|]. intros dbn l d E. rewrite E in H.
    destruct l; [discriminate | reflexivity | reflexivity].
Qed.

(* the operations of a log on database [dbn], in order *)
Definition ops_on {A} (dbn : str) (l : list (str * A)) : list A :=
  map snd (filter (fun p => String.eqb (fst p) dbn) l).

Lemma ops_on_app {A} dbn (a b : list (str * A)) : ops_on dbn (a ++ b) = ops_on dbn a ++ ops_on dbn b.
Proof. unfold ops_on. now rewrite filter_app, map_app. Qed.

Definition step_log (n : node) (ts : list thr) (i : nat) : list (str * lop) :=
  match nth_error ts i with
  | Some t => match step_op n t with Some p => [p] | None => [] end
  | None => []
  end.

(* the log of all database operations of a run, in the order of the releases *)
Fixpoint full_log (n : node) (ts : list thr) (sched : list nat) : list (str * lop) :=
  match sched with
  | [] => []
  | i :: r => step_log n ts i ++ full_log (fst (release_nth n ts i)) (snd (release_nth n ts i)) r
  end.

Definition data_of (l : list (str * lop)) : list (str * dop') :=
  flat_map (fun p => match snd p with LData o => [(fst p, o)] | _ => [] end) l.

Definition data_log (n : node) (ts : list thr) (sched : list nat) : list (str * dop') :=
  data_of (full_log n ts sched).

(* the same log computed directly alongside the run *)
Fixpoint data_log_direct (n : node) (ts : list thr) (sched : list nat) : list (str * dop') :=
  match sched with
  | [] => []
  | i :: r =>
      match nth_error ts i with
      | Some t => match data_op n t with Some p => [p] | None => [] end
      | None => []
      end ++ data_log_direct (fst (release_nth n ts i)) (snd (release_nth n ts i)) r
  end.

Lemma data_of_app a b : data_of (a ++ b) = data_of a ++ data_of b.
Proof. unfold data_of. apply flat_map_app. Qed.

Lemma data_log_direct_eq sched : forall n ts, data_log_direct n ts sched = data_log n ts sched.
Proof.
  unfold data_log. induction sched as [|i r IH]; intros n ts; cbn [data_log_direct full_log]; auto.
  rewrite data_of_app, IH. f_equal.
  unfold step_log. destruct (nth_error ts i) as [t|]; auto.
  rewrite data_op_step. destruct (step_op n t) as [[dbn [o| |]]|]; reflexivity.
Qed.

Lemma run_schedule_cons n ts i r :
  run_schedule n ts (i :: r) = run_schedule (fst (release_nth n ts i)) (snd (release_nth n ts i)) r.
Proof. unfold run_schedule. cbn [fold_left fst snd]. now destruct (release_nth n ts i). Qed.

Lemma run_schedule_app n ts a b :
  run_schedule n ts (a ++ b) =
  run_schedule (fst (run_schedule n ts a)) (snd (run_schedule n ts a)) b.
Proof.
  unfold run_schedule. rewrite fold_left_app.
  now destruct (fold_left _ a (n, ts)).
Qed.

Lemma release_nth_inv (I : node -> list thr -> Prop) n ts i :
  I n ts ->
  (forall t, nth_error ts i = Some t -> is_done t = false ->
     I (fst (release n t)) (list_update ts i (snd (release n t)))) ->
  I (fst (release_nth n ts i)) (snd (release_nth n ts i)).
Proof.
  intros H0 H. unfold release_nth. destruct (nth_error ts i) as [t|] eqn:E; [|exact H0].
  destruct (is_done t) eqn:Hd; [exact H0|]. specialize (H t eq_refl Hd). now destruct (release n t).
Qed.

Lemma run_schedule_inv (I : node -> list thr -> Prop) :
  (forall n ts i, I n ts -> I (fst (release_nth n ts i)) (snd (release_nth n ts i))) ->
  forall sched n ts, I n ts -> I (fst (run_schedule n ts sched)) (snd (run_schedule n ts sched)).
Proof.
  intros Hstep. induction sched as [|i r IH]; intros n ts H; [exact H|].
  rewrite run_schedule_cons. apply IH, Hstep, H.
Qed.

Lemma release_nth_sched n ts i : Forall sched_thr ts -> Forall sched_thr (snd (release_nth n ts i)).
Proof.
  intros H. apply (release_nth_inv (fun _ => Forall sched_thr)); [exact H|]. intros t E _.
  apply Forall_list_update; [exact H|]. apply release_sched. eapply nth_error_Forall; eauto.
Qed.

Lemma run_schedule_sched sched n ts :
  Forall sched_thr ts -> Forall sched_thr (snd (run_schedule n ts sched)).
Proof. apply (run_schedule_inv (fun _ => Forall sched_thr)). intros n0 ts0 i. apply release_nth_sched. Qed.

Lemma release_nth_effect n ts i dbn : Forall sched_thr ts ->
  get_db (fst (release_nth n ts i)) dbn =
  option_map (fun d => fold_left lop_apply (ops_on dbn (step_log n ts i)) d) (get_db n dbn).
Proof.
  intros H. unfold release_nth, step_log.
  destruct (nth_error ts i) as [t|] eqn:E.
  2:{ cbn. now destruct (get_db n dbn). }
  destruct (is_done t) eqn:Hd.
  { unfold is_done in Hd. unfold step_op. destruct (t_pc t); try discriminate.
    cbn. now destruct (get_db n dbn). }
  pose proof (release_get_db n t dbn (nth_error_Forall _ _ _ _ H E)) as He.
  destruct (release n t) as [n1 t1]. cbn [fst] in *. rewrite He.
  destruct (step_op n t) as [[dbn0 l]|]; [|cbn; now destruct (get_db n dbn)].
  unfold ops_on. cbn [filter fst]. rewrite (String.eqb_sym dbn0 dbn).
  destruct (String.eqb dbn dbn0); cbn; now destruct (get_db n dbn).
Qed.

Lemma option_map_map {A B C} (f : A -> B) (g : B -> C) o :
  option_map g (option_map f o) = option_map (fun x => g (f x)) o.
Proof. destruct o; reflexivity. Qed.

(* the whole database (data and subscriptions) after ANY interleaving is the sequential
   application of the operations in the order in which their critical sections were entered *)
Theorem schedule_full sched : forall n ts dbn, Forall sched_thr ts ->
  get_db (fst (run_schedule n ts sched)) dbn =
  option_map (fun d => fold_left lop_apply (ops_on dbn (full_log n ts sched)) d) (get_db n dbn).
Proof.
  induction sched as [|i r IH]; intros n ts dbn H.
  - cbn. now destruct (get_db n dbn).
  - rewrite run_schedule_cons, IH by now apply release_nth_sched.
    rewrite release_nth_effect by auto. rewrite option_map_map.
    cbn [full_log]. destruct (get_db n dbn); cbn [option_map]; auto.
    now rewrite ops_on_app, fold_left_app.
Qed.

Lemma db_apply_map_congr d1 d2 o : d_map d1 = d_map d2 -> d_map (db_apply' d1 o) = d_map (db_apply' d2 o).
Proof.
  destruct d1 as [m1 w1 c1 i1 s1], d2 as [m2 w2 c2 i2 s2]. cbn [d_map]. intros <-.
  destruct o as [k v ver opp rs | k | k i opp]; cbn [db_apply'].
  - unfold set_value, get_value, put_value, db_set_map; cbn [d_map c_key].
    destruct (assoc_get _ _ _); [destruct (_ && _)|]; reflexivity.
  - unfold remove_value, get_value, put_value, db_set_map; cbn [d_map].
    destruct (String.eqb k "$$token"); [reflexivity|].
    destruct (assoc_get _ _ _) as [v|]; [destruct (v_st v)|]; reflexivity.
  - unfold inc_value, get_value, put_value, db_set_map; cbn [d_map].
    destruct (parse_i32 _); [destruct (_ && _)|]; reflexivity.
Qed.

Lemma ops_on_data_of dbn L :
  ops_on dbn (data_of L) =
  flat_map (fun l => match l with LData o => [o] | _ => [] end) (ops_on dbn L).
Proof.
  unfold ops_on, data_of. induction L as [|[x l] r IH]; auto.
  cbn [flat_map filter fst snd].
  destruct l; cbn [app filter fst]; destruct (String.eqb x dbn) eqn:E;
    cbn [map snd flat_map app]; rewrite IH; reflexivity.
Qed.

Lemma data_projection ops : forall d d',
  d_map d = d_map d' ->
  d_map (fold_left lop_apply ops d) =
  d_map (fold_left db_apply' (flat_map (fun l => match l with LData o => [o] | _ => [] end) ops) d').
Proof.
  induction ops as [|l r IH]; intros d d' H; cbn [fold_left flat_map]; auto.
  destruct l as [o|k s|k s]; cbn [app lop_apply fold_left].
  - apply IH. now apply db_apply_map_congr.
  - apply IH. exact H.
  - apply IH. exact H.
Qed.

Theorem schedule_data n ts sched dbn : Forall sched_thr ts ->
  option_map d_map (get_db (fst (run_schedule n ts sched)) dbn) =
  option_map d_map (option_map (fun d => fold_left db_apply' (ops_on dbn (data_log n ts sched)) d)
                               (get_db n dbn)).
Proof.
  intros H. rewrite schedule_full by auto. unfold data_log. rewrite ops_on_data_of.
  destruct (get_db n dbn); cbn [option_map]; auto.
  f_equal. now apply data_projection.
Qed.

Fixpoint out_log (fuel : nat) (n : node) (ts : list thr) (i : nat) : list (str * lop) :=
  match fuel with
  | O => []
  | S f =>
      match nth_error ts i with
      | None => []
      | Some t => if is_done t then out_log f n ts (S i)
                  else step_log n ts i ++
                       out_log f (fst (release_nth n ts i)) (snd (release_nth n ts i)) i
      end
  end.

Definition par_log (n : node) (ts : list thr) (sched : list nat) : list (str * lop) :=
  full_log n ts sched ++
  out_log (thread_fuel (snd (run_schedule n ts sched)) + 64)
          (fst (run_schedule n ts sched)) (snd (run_schedule n ts sched)) 0.

Definition par_data_log n ts sched := data_of (par_log n ts sched).

Lemma full_log_app a : forall n ts b,
  full_log n ts (a ++ b) =
  full_log n ts a ++ full_log (fst (run_schedule n ts a)) (snd (run_schedule n ts a)) b.
Proof.
  induction a as [|i r IH]; intros n ts b; [reflexivity|].
  cbn [app full_log]. now rewrite run_schedule_cons, IH, app_assoc.
Qed.

Lemma run_out_schedule fuel : forall n ts i, exists s,
  (List.length s <= fuel)%nat /\
  run_out fuel n ts i = run_schedule n ts s /\ out_log fuel n ts i = full_log n ts s.
Proof.
  induction fuel as [|f IH]; intros n ts i; cbn [run_out out_log]; [exists []; auto|].
  destruct (nth_error ts i) as [t|] eqn:E; [|exists []; cbn; auto with arith].
  destruct (is_done t).
  - destruct (IH n ts (S i)) as (s & Hl & H1 & H2). exists s. auto.
  - destruct (release_nth n ts i) as [n1 ts1] eqn:R. cbn [fst snd].
    destruct (IH n1 ts1 i) as (s & Hl & H1 & H2). exists (i :: s).
    rewrite run_schedule_cons. cbn [full_log List.length]. rewrite R. cbn [fst snd].
    rewrite H1, H2. auto with arith.
Qed.

Lemma run_out_full fuel : forall n ts i dbn, Forall sched_thr ts ->
  get_db (fst (run_out fuel n ts i)) dbn =
  option_map (fun d => fold_left lop_apply (ops_on dbn (out_log fuel n ts i)) d) (get_db n dbn) /\
  Forall sched_thr (snd (run_out fuel n ts i)).
Proof.
  intros n ts i dbn H. destruct (run_out_schedule fuel n ts i) as (s & _ & -> & ->).
  split; [now apply schedule_full | now apply run_schedule_sched].
Qed.

Lemma run_par_schedule n ts sched : exists s,
  (List.length s <= thread_fuel (snd (run_schedule n ts sched)) + 64)%nat /\
  run_par n ts sched = run_schedule n ts (sched ++ s) /\ par_log n ts sched = full_log n ts (sched ++ s).
Proof.
  unfold run_par, par_log.
  destruct (run_out_schedule (thread_fuel (snd (run_schedule n ts sched)) + 64)
              (fst (run_schedule n ts sched)) (snd (run_schedule n ts sched)) 0) as (s & Hl & E1 & E2).
  exists s. rewrite E2, full_log_app, run_schedule_app, <- E1.
  split; [exact Hl|]. now destruct (run_schedule n ts sched).
Qed.

Theorem par_full n ts sched dbn : Forall sched_thr ts ->
  get_db (fst (run_par n ts sched)) dbn =
  option_map (fun d => fold_left lop_apply (ops_on dbn (par_log n ts sched)) d) (get_db n dbn).
Proof. destruct (run_par_schedule n ts sched) as (s & _ & -> & ->). apply schedule_full. Qed.

Theorem par_data n ts sched dbn : Forall sched_thr ts ->
  option_map d_map (get_db (fst (run_par n ts sched)) dbn) =
  option_map d_map (option_map (fun d => fold_left db_apply' (ops_on dbn (par_data_log n ts sched)) d)
                               (get_db n dbn)).
Proof.
  unfold par_data_log. destruct (run_par_schedule n ts sched) as (s & _ & -> & ->). apply schedule_data.
Qed.

Lemma replicate_refusal n rq s k ov v old ch st :
  replicate_request n rq s (RVersionError k ov v old ch st) = (n, RVersionError k ov v old ch st).
Proof. exact (replicate_request_refused n rq s (RVersionError k ov v old ch st) I). Qed.

Definition cur_ver (d : db) (key : str) : Z :=
  match get_value d key with Some v => v_ver v | None => 0 end.

Lemma release_set_ok n t dbn key value ver opp rs orig d d1 msgs :
  t_pc t = PcSetWrite dbn key value ver opp rs orig -> get_db n dbn = Some d ->
  set_value d (mkCh key value ver opp rs) = (d1, RSet key value, msgs) ->
  release n t = (put_db n dbn d1,
                 park t (PcNotify dbn key value (cur_ver d1 key) (RqSet key value orig)) "watchers.read").
Proof. intros Hpc Hdb E. unfold release. rewrite Hpc, Hdb, E. reflexivity. Qed.

Lemma release_set_refused n t dbn key value ver opp rs orig d old :
  t_pc t = PcSetWrite dbn key value ver opp rs orig -> get_db n dbn = Some d ->
  d_strat d <> SNewer ->
  get_value d key = Some old ->
  set_value d (mkCh key value ver opp rs) =
    (d, RVersionError key (v_ver old) ver old (mkCh key value ver opp rs) (upd_state old), []) ->
  release n t = (n, finish t (RVersionError key (v_ver old) ver old (mkCh key value ver opp rs) (upd_state old))).
Proof.
  intros Hpc Hdb Hs Hg E. unfold release. rewrite Hpc, Hdb, E.
  destruct (d_strat d); try contradiction; reflexivity.
Qed.

Theorem set_release_none n t dbn key value ver opp orig d :
  t_pc t = PcSetWrite dbn key value ver opp false orig -> get_db n dbn = Some d ->
  d_strat d = SNone ->
  let ch := mkCh key value ver opp false in
  (* accepted: the map is written, the thread parks before the notification, no reply yet *)
  (exists d1 msgs, set_value d ch = (d1, RSet key value, msgs) /\
     release n t = (put_db n dbn d1,
                    park t (PcNotify dbn key value (cur_ver d1 key) (RqSet key value orig)) "watchers.read") /\
     t_replies (snd (release n t)) = t_replies t) \/
  (* refused: nothing changes, the command ends, and the recorded reply is the RVersionError
     that set_value computes on the database as it is at this release *)
  (exists old, get_value d key = Some old /\
     let r := RVersionError key (v_ver old) ver old ch (upd_state old) in
     set_value d ch = (d, r, []) /\
     release n t = (n, finish t r) /\
     t_replies (snd (release n t)) = t_replies t ++ [r] /\
     at_boundary (snd (release n t))).
Proof.
  intros Hpc Hdb Hs ch.
  destruct (set_value_cases d ch) as [(d1 & msgs & E) | (old & Hg & E)]; cbn [c_key c_val c_ver] in *.
  - left. exists d1, msgs. split; auto.
    rewrite (release_set_ok _ _ _ _ _ _ _ _ _ _ _ _ Hpc Hdb E). cbn [fst snd]. auto.
  - right. exists old. split; auto. cbn zeta. split; auto.
    assert (Hn : d_strat d <> SNewer) by (rewrite Hs; discriminate).
    rewrite (release_set_refused _ _ _ _ _ _ _ _ _ _ _ Hpc Hdb Hn Hg E). cbn [fst snd].
    rewrite finish_replies. repeat split; auto using finish_boundary.
Qed.

(* the session's selected database, if any, exists (bool; ConnProofs.sel_ok is the Prop) *)
Definition sel_ok (n : node) (c : nat) : bool :=
  match s_db (get_sess n c) with Some nm => has_db n nm | None => true end.

Lemma replicate_ok_class n n0 c rq r :
  n_dbs n0 = n_dbs n -> sel_ok n c = true ->
  (match r with RSet _ _ | ROk => True | _ => False end) ->
  (match rq with RqSet _ _ _ | RqRemove _ | RqIncrement _ _ => True | _ => False end) ->
  snd (replicate_request n0 rq (s_db (get_sess n c)) r) = ROk.
Proof.
  intros Hd Hsel Hr Hrq. unfold replicate_request, sel_ok in *. revert Hsel.
  destruct (s_db (get_sess n c)) as [nm|]; intros Hsel.
  - pose proof (has_db_dbs _ _ nm Hd) as Hh. rewrite Hsel in Hh.
    destruct r; try contradiction; rewrite Hh; cbn [negb];
      destruct rq; try contradiction; reflexivity.
  - destruct r; try contradiction; destruct rq; try contradiction; reflexivity.
Qed.

(* the notify release of a set (the last release of a successful set / set-safe)
   answers ROk when the session's selected database exists *)
Theorem notify_release_set n t dbn key value nv k v ver :
  t_pc t = PcNotify dbn key value nv (RqSet k v ver) -> sel_ok n (t_sid t) = true ->
  t_replies (snd (release n t)) = t_replies t ++ [ROk] /\ at_boundary (snd (release n t)) /\
  n_dbs (fst (release n t)) = n_dbs n.
Proof.
  intros Hpc Hsel. unfold release. rewrite Hpc.
  rewrite complete_snd, finish_replies, dbs_complete. split; [|split].
  - f_equal. f_equal. apply replicate_ok_class; cbn; auto.
    rewrite dbs_forward. apply n_dbs_sends.
  - apply finish_boundary.
  - rewrite dbs_forward. apply n_dbs_sends.
Qed.

(* get / get-safe: the reply carries the value and version of the database at the read
   release *)
Theorem get_release n t dbn key safe d :
  t_pc t = PcGetRead dbn key safe -> get_db n dbn = Some d -> sel_ok n (t_sid t) = true ->
  t_replies (snd (release n t)) =
    t_replies t ++ [RValue key (fst (get_key_value_new d key)) (snd (get_key_value_new d key))] /\
  at_boundary (snd (release n t)) /\
  n_dbs (fst (release n t)) = n_dbs n.
Proof.
  intros Hpc Hdb Hsel. unfold release. rewrite Hpc, Hdb.
  destruct (get_key_value_new d key) as [v ver]. cbn [fst snd].
  rewrite complete_snd, finish_replies, dbs_complete. split; [|split]; auto using finish_boundary.
  f_equal. f_equal. unfold replicate_request, sel_ok in *. revert Hsel.
  destruct (s_db (get_sess n (t_sid t))) as [nm|]; intros Hsel.
  - rewrite (has_db_dbs n (send n (t_sid t) _) nm) by reflexivity. rewrite Hsel. cbn [negb].
    destruct safe; reflexivity.
  - destruct safe; reflexivity.
Qed.

Lemma cas_refused d k v ver opp old :
  get_value d k = Some old -> v_ver old <> -2 -> 0 <= ver -> ver < v_ver old ->
  set_value d (mkCh k v ver opp false) =
  (d, RVersionError k (v_ver old) ver old (mkCh k v ver opp false) (upd_state old), []).
Proof.
  intros Hg Ho Hv Hlt.
  rewrite (set_value_present d (mkCh k v ver opp false) old Hg).
  rewrite next_version_plain; cbn [c_ver c_resolve c_key]; auto; try lia.
  destruct (Z.eqb_spec ver (-1)); [lia|]. destruct (Z.eqb_spec ver (-2)); [lia|].
  replace (Z.leb (sat_succ ver) (v_ver old)) with true; [reflexivity|].
  symmetry. apply Z.leb_le. unfold sat_succ. destruct (Z.ltb_spec ver i32_max); lia.
Qed.

Lemma get_value_map d d' k : d_map d = d_map d' -> get_value d k = get_value d' k.
Proof. unfold get_value. now intros ->. Qed.

(* two compare-and-set writes carrying the same version: the first released wins,
   the second is refused -- in whichever order (the statement is symmetric in t1/t2), and
   whatever happens in between as long as the key is not written by somebody else *)
Theorem two_cas_one_winner n t1 t2 dbn d k v1 v2 ver opp1 opp2 o1 o2 old :
  t_pc t1 = PcSetWrite dbn k v1 ver opp1 false o1 ->
  t_pc t2 = PcSetWrite dbn k v2 ver opp2 false o2 ->
  get_db n dbn = Some d -> d_strat d = SNone ->
  get_value d k = Some old -> v_ver old = ver -> 0 <= ver -> ver < i32_max ->
  exists nw,
    let d1 := db_apply' d (DSet' k v1 ver opp1 false) in
    release n t1 = (put_db n dbn d1,
                    park t1 (PcNotify dbn k v1 (ver + 1) (RqSet k v1 o1)) "watchers.read") /\
    get_value d1 k = Some nw /\ v_val nw = v1 /\ v_ver nw = ver + 1 /\
    forall n2 d2, get_db n2 dbn = Some d2 -> d_strat d2 = SNone -> get_value d2 k = Some nw ->
      release n2 t2 =
        (n2, finish t2 (RVersionError k (ver + 1) ver nw (mkCh k v2 ver opp2 false) (upd_state nw))).
Proof.
  intros Hp1 Hp2 Hdb Hs Hg Hv H0 Hm.
  set (ch := mkCh k v1 ver opp1 false).
  destruct (proj2 (cas_iff d k old ch Hg ltac:(lia) ltac:(lia) eq_refl eq_refl ltac:(cbn; lia)))
    as (d1 & msgs & E); [right; cbn; lia|].
  destruct (cas_version d k old ch d1 _ msgs Hg ltac:(lia) ltac:(lia) eq_refl eq_refl ltac:(cbn; lia) E)
    as (nw & Hn & Hnv & Hlt).
  unfold ch in *. cbn [c_ver c_val] in *.
  destruct (Z.eqb_spec ver (-1)); [lia|].
  assert (Hnv' : v_ver nw = ver + 1).
  { rewrite Hnv. unfold sat_succ. destruct (Z.ltb_spec ver i32_max); lia. }
  destruct (set_value_inv_present d (mkCh k v1 ver opp1 false) old _ _ _ _ Hg E) as [_ Hd1].
  cbn [c_key c_val] in Hd1.
  exists nw. cbn zeta. cbn [db_apply']. rewrite E. cbn [fst].
  rewrite (release_set_ok _ _ _ _ _ _ _ _ _ _ _ _ Hp1 Hdb E).
  unfold cur_ver. rewrite Hn, Hnv'. split; [reflexivity|]. split; [reflexivity|].
  split. { rewrite Hd1, gv_put_same in Hn. injection Hn as <-. reflexivity. }
  split; [reflexivity|].
  intros n2 d2 Hdb2 Hs2 Hg2.
  assert (Hn2 : d_strat d2 <> SNewer) by (rewrite Hs2; discriminate).
  pose proof (cas_refused d2 k v2 ver opp2 nw Hg2 ltac:(lia) H0 ltac:(lia)) as E2.
  rewrite Hnv' in E2.
  pose proof (release_set_refused n2 t2 dbn k v2 ver opp2 false o2 d2 nw Hp2 Hdb2 Hn2 Hg2) as R.
  rewrite Hnv' in R. now apply R.
Qed.

Lemma fold_lop_strat ops : forall d, d_strat (fold_left lop_apply ops d) = d_strat d.
Proof.
  induction ops as [|l r IH]; intros d; cbn [fold_left]; auto.
  rewrite IH. apply lop_apply_strat.
Qed.

Lemma db_apply'_other d o k : k <> dop_key' o -> get_value (db_apply' d o) k = get_value d k.
Proof.
  destruct o; cbn [db_apply' dop_key']; intros H.
  - now apply (set_value_other d (mkCh k0 v ver opp resolving) k).
  - now apply remove_value_other.
  - now apply inc_value_other.
Qed.

Definition lop_touches (k : str) (l : lop) : Prop :=
  match l with LData o => dop_key' o = k | _ => False end.

Lemma lop_apply_other d l k : ~ lop_touches k l -> get_value (lop_apply d l) k = get_value d k.
Proof.
  destruct l as [o| |]; cbn [lop_touches lop_apply]; intros H; try reflexivity.
  apply db_apply'_other. congruence.
Qed.

Lemma fold_lop_other k ops : forall d,
  Forall (fun l => ~ lop_touches k l) ops -> get_value (fold_left lop_apply ops d) k = get_value d k.
Proof.
  induction ops as [|l r IH]; intros d H; cbn [fold_left]; auto.
  inversion H; subst. rewrite IH by auto. now apply lop_apply_other.
Qed.

Lemma nth_error_list_update_other {A} (l : list A) i j x :
  i <> j -> nth_error (list_update l i x) j = nth_error l j.
Proof. intros H. rewrite nth_error_list_update. destruct (Nat.eqb_spec j i); [congruence | reflexivity]. Qed.

Lemma nth_error_list_update_same {A} (l : list A) i x y :
  nth_error l i = Some y -> nth_error (list_update l i x) i = Some x.
Proof.
  intros E. rewrite nth_error_list_update, Nat.eqb_refl.
  destruct (Nat.ltb_spec i (List.length l)) as [_|H]; [reflexivity|]. apply nth_error_None in H. congruence.
Qed.

Lemma release_nth_untouched n ts i j : i <> j -> nth_error (snd (release_nth n ts i)) j = nth_error ts j.
Proof.
  intros H. unfold release_nth. destruct (nth_error ts i) as [t|]; auto.
  destruct (is_done t); auto. destruct (release n t). cbn [snd].
  now apply nth_error_list_update_other.
Qed.

Lemma run_schedule_untouched sched : forall n ts j,
  ~ In j sched -> nth_error (snd (run_schedule n ts sched)) j = nth_error ts j.
Proof.
  induction sched as [|i r IH]; intros n ts j H; auto.
  rewrite run_schedule_cons, IH by (intros Hin; apply H; now right).
  apply release_nth_untouched. intros ->. apply H. now left.
Qed.

Lemma release_nth_live n ts i t :
  nth_error ts i = Some t -> is_done t = false ->
  release_nth n ts i = (fst (release n t), list_update ts i (snd (release n t))).
Proof.
  intros E H. unfold release_nth. rewrite E, H. now destruct (release n t).
Qed.

(* [two_cas_one_winner] on schedules: thread i is released first, then any releases [mid] that do not
   release j and do not write key k of dbn, then thread j: j is refused with the
   version error naming i's write *)
Theorem two_cas_schedule n ts i j mid t1 t2 dbn d k v1 v2 ver opp1 opp2 o1 o2 old :
  Forall sched_thr ts -> nth_error ts i = Some t1 -> nth_error ts j = Some t2 ->
  i <> j -> ~ In j mid ->
  t_pc t1 = PcSetWrite dbn k v1 ver opp1 false o1 ->
  t_pc t2 = PcSetWrite dbn k v2 ver opp2 false o2 ->
  get_db n dbn = Some d -> d_strat d = SNone ->
  get_value d k = Some old -> v_ver old = ver -> 0 <= ver -> ver < i32_max ->
  Forall (fun l => ~ lop_touches k l)
         (ops_on dbn (full_log (fst (release_nth n ts i)) (snd (release_nth n ts i)) mid)) ->
  exists nw d2,
    let n2 := fst (run_schedule n ts (i :: mid)) in
    let ts2 := snd (run_schedule n ts (i :: mid)) in
    let r := RVersionError k (ver + 1) ver nw (mkCh k v2 ver opp2 false) (upd_state nw) in
    v_val nw = v1 /\ v_ver nw = ver + 1 /\
    get_db n2 dbn = Some d2 /\ get_value d2 k = Some nw /\
    (In i mid \/ exists t1', nth_error ts2 i = Some t1' /\ t_replies t1' = t_replies t1) /\
    run_schedule n ts (i :: mid ++ [j]) = (n2, list_update ts2 j (finish t2 r)).
Proof.
  (* release i by [two_cas_one_winner]; [schedule_full] gives the database after [mid] as a fold
     that keeps key k and the strategy ([fold_lop_other], [fold_lop_strat]); so the release of j
     meets the second clause of [two_cas_one_winner] *)
  intros Hs E1 E2 Hij Hj Hp1 Hp2 Hdb Hst Hg Hv H0 Hm Hmid.
  destruct (two_cas_one_winner n t1 t2 dbn d k v1 v2 ver opp1 opp2 o1 o2 old
              Hp1 Hp2 Hdb Hst Hg Hv H0 Hm) as (nw & R1 & Hn & Hval & Hver & R2).
  cbn zeta in R1, Hn.
  assert (Hd1 : is_done t1 = false) by (unfold is_done; now rewrite Hp1).
  assert (Hd2 : is_done t2 = false) by (unfold is_done; now rewrite Hp2).
  pose proof (release_nth_live n ts i t1 E1 Hd1) as Hr1. rewrite R1 in Hr1. cbn [fst snd] in Hr1.
  rewrite Hr1 in Hmid. cbn [fst snd] in Hmid.
  set (d1 := db_apply' d (DSet' k v1 ver opp1 false)) in *.
  set (n1 := put_db n dbn d1) in *.
  set (ts1 := list_update ts i _) in *.
  assert (Hs1 : Forall sched_thr ts1).
  { pose proof (release_nth_sched n ts i Hs) as H. now rewrite Hr1 in H. }
  pose proof (schedule_full mid n1 ts1 dbn Hs1) as Hf.
  assert (Hn1 : get_db n1 dbn = Some d1) by (unfold n1; now rewrite get_db_put, String.eqb_refl).
  rewrite Hn1 in Hf. cbn [option_map] in Hf.
  exists nw, (fold_left lop_apply (ops_on dbn (full_log n1 ts1 mid)) d1).
  cbn zeta. rewrite !run_schedule_cons, Hr1. cbn [fst snd].
  split; [exact Hval|]. split; [exact Hver|]. split; [exact Hf|].
  split. { rewrite fold_lop_other by exact Hmid. exact Hn. }
  split.
  { destruct (in_dec Nat.eq_dec i mid) as [Hin|Hnin]; [now left|]. right.
    rewrite run_schedule_untouched by exact Hnin.
    eexists. split.
    - unfold ts1. eapply nth_error_list_update_same; eauto.
    - reflexivity. }
  rewrite run_schedule_app.
  set (X := run_schedule n1 ts1 mid) in *.
  unfold run_schedule at 1. cbn [fold_left fst snd].
  assert (Ej : nth_error (snd X) j = Some t2).
  { unfold X. rewrite run_schedule_untouched by exact Hj.
    unfold ts1. now rewrite nth_error_list_update_other. }
  rewrite (release_nth_live _ _ _ _ Ej Hd2).
  rewrite (R2 (fst X) _ Hf).
  - reflexivity.
  - rewrite fold_lop_strat. unfold d1. now rewrite db_apply_frame.
  - rewrite fold_lop_other by exact Hmid. exact Hn.
Qed.

Lemma fold_data_other key ops : forall d,
  Forall (fun o => dop_key' o <> key) ops ->
  get_value (fold_left db_apply' ops d) key = get_value d key.
Proof.
  induction ops as [|o r IH]; intros d H; cbn [fold_left]; auto.
  inversion H; subst. rewrite IH by auto. apply db_apply'_other; auto.
Qed.

(* no lost update: a successful write's value is in the map right after its release, and
   stays there until a later data operation of the log writes the same key *)
Theorem no_lost_update n ts i rest t dbn key value ver opp rs orig d :
  Forall sched_thr ts -> nth_error ts i = Some t ->
  t_pc t = PcSetWrite dbn key value ver opp rs orig -> get_db n dbn = Some d ->
  snd (fst (set_value d (mkCh key value ver opp rs))) = RSet key value ->
  let n1 := fst (release_nth n ts i) in
  let ts1 := snd (release_nth n ts i) in
  exists d1 v,
    get_db n1 dbn = Some d1 /\ get_value d1 key = Some v /\ v_val v = value /\ v_opp v = opp /\
    (Forall (fun o => dop_key' o <> key) (ops_on dbn (data_log n1 ts1 rest)) ->
     exists d2, get_db (fst (run_schedule n1 ts1 rest)) dbn = Some d2 /\ get_value d2 key = Some v).
Proof.
  intros Hs E Hpc Hdb Hr. cbn zeta.
  assert (Hd : is_done t = false) by (unfold is_done; now rewrite Hpc).
  rewrite (release_nth_live n ts i t E Hd). cbn [fst snd].
  destruct (set_value d (mkCh key value ver opp rs)) as [[d1 r] msgs] eqn:Es. cbn [fst snd] in Hr. subst r.
  rewrite (release_set_ok _ _ _ _ _ _ _ _ _ _ _ _ Hpc Hdb Es). cbn [fst snd].
  assert (Hv : exists v, get_value d1 key = Some v /\ v_val v = value /\ v_opp v = opp).
  { revert Es. unfold set_value. cbn [c_key c_val c_opp c_ver].
    destruct (get_value d key) as [old|]; [destruct (_ && _); [discriminate|]|];
      intros [= <- _]; rewrite gv_put_same; eexists; split; reflexivity || (split; reflexivity). }
  destruct Hv as (v & Hg & Hval & Hopp).
  exists d1, v. rewrite get_db_put, String.eqb_refl. repeat split; auto.
  intros Hnot.
  set (ts1 := list_update ts i _).
  assert (Hs1 : Forall sched_thr ts1).
  { apply Forall_list_update; auto. split; [|exact I]. cbn [park t_prog].
    eapply (nth_error_Forall sched_thr); eauto. }
  pose proof (schedule_data (put_db n dbn d1) ts1 rest dbn Hs1) as Hsd.
  rewrite get_db_put, String.eqb_refl in Hsd. cbn [option_map] in Hsd.
  destruct (get_db (fst (run_schedule (put_db n dbn d1) ts1 rest)) dbn) as [d2|]; [|discriminate].
  exists d2. split; auto. cbn [option_map] in Hsd. injection Hsd as Hsd.
  rewrite (get_value_map _ _ key Hsd).
  rewrite fold_data_other by exact Hnot. exact Hg.
Qed.

Lemma watchers_data d o k : watchers_of (db_apply' d o) k = watchers_of d k.
Proof. unfold watchers_of. now rewrite db_apply_watch. Qed.

Lemma watchers_watch d k c k' :
  watchers_of (watch_key d k c) k' =
  if String.eqb k' k then watchers_of d k ++ [c] else watchers_of d k'.
Proof. now rewrite watchers_watch_key, String.eqb_sym. Qed.

Lemma watchers_unwatch d k c k' :
  watchers_of (unwatch_key d k c) k' =
  if String.eqb k' k then filter (fun x => negb (Nat.eqb x c)) (watchers_of d k) else watchers_of d k'.
Proof. now rewrite watchers_unwatch_key, String.eqb_sym. Qed.

(* [release_effect] when operation and database exist *)
Lemma release_op n t dbn l d : sched_thr t ->
  step_op n t = Some (dbn, l) -> get_db n dbn = Some d ->
  get_db (fst (release n t)) dbn = Some (lop_apply d l) /\
  forall x, x <> dbn -> get_db (fst (release n t)) x = get_db n x.
Proof.
  intros Hs Hop Hd. pose proof (release_effect n t Hs) as H. rewrite Hop, Hd in H.
  split; [|intros x Hx]; rewrite H.
  - now rewrite String.eqb_refl.
  - now destruct (String.eqb_spec x dbn).
Qed.

(* a release at PcWatch adds exactly one occurrence of the session to that key's list and
   changes nothing else *)
Theorem watch_release n t dbn key d : sched_thr t ->
  t_pc t = PcWatch dbn key -> get_db n dbn = Some d ->
  let n' := fst (release n t) in
  exists d', get_db n' dbn = Some d' /\
    watchers_of d' key = watchers_of d key ++ [t_sid t] /\
    (forall k', k' <> key -> watchers_of d' k' = watchers_of d k') /\
    d_map d' = d_map d /\
    forall x, x <> dbn -> get_db n' x = get_db n x.
Proof.
  intros Hs Hpc Hdb. cbn zeta.
  destruct (release_op n t dbn (LWatch key (t_sid t)) d Hs) as [H1 H2];
    [unfold step_op; now rewrite Hpc | exact Hdb |].
  exists (watch_key d key (t_sid t)). split; [exact H1|].
  split; [now rewrite watchers_watch_key, String.eqb_refl|].
  split. { intros k' Hne. rewrite watchers_watch_key. destruct (String.eqb_spec key k'); congruence. }
  split; [reflexivity | exact H2].
Qed.

Lemma unwatch_step n t dbn key d : sched_thr t ->
  step_op n t = Some (dbn, LUnwatch key (t_sid t)) -> get_db n dbn = Some d ->
  let n' := fst (release n t) in
  exists d', get_db n' dbn = Some d' /\
    watchers_of d' key = filter (fun x => negb (Nat.eqb x (t_sid t))) (watchers_of d key) /\
    (forall k', k' <> key -> watchers_of d' k' = watchers_of d k') /\
    d_map d' = d_map d /\
    forall x, x <> dbn -> get_db n' x = get_db n x.
Proof.
  intros Hs Hop Hdb. cbn zeta. destruct (release_op n t dbn _ d Hs Hop Hdb) as [H1 H2].
  exists (unwatch_key d key (t_sid t)). split; [exact H1|].
  split; [now rewrite watchers_unwatch_key, String.eqb_refl|].
  split. { intros k' Hne. rewrite watchers_unwatch_key. destruct (String.eqb_spec key k'); congruence. }
  split; [reflexivity | exact H2].
Qed.

(* a release at PcUnwatch removes every occurrence of the session from that key's list and
   changes nothing else *)
Theorem unwatch_release n t dbn key d : sched_thr t ->
  t_pc t = PcUnwatch dbn key -> get_db n dbn = Some d ->
  let n' := fst (release n t) in
  exists d', get_db n' dbn = Some d' /\
    watchers_of d' key = filter (fun x => negb (Nat.eqb x (t_sid t))) (watchers_of d key) /\
    (forall k', k' <> key -> watchers_of d' k' = watchers_of d k') /\
    d_map d' = d_map d /\
    forall x, x <> dbn -> get_db n' x = get_db n x.
Proof. intros Hs Hpc. apply unwatch_step; [exact Hs | unfold step_op; now rewrite Hpc]. Qed.

(* each step of the unwatch-all loop is an unwatch of the head key *)
Theorem unwatch_all_keys_release n t dbn key rest d : sched_thr t ->
  t_pc t = PcUnwatchAllKeys dbn (key :: rest) -> get_db n dbn = Some d ->
  let n' := fst (release n t) in
  exists d', get_db n' dbn = Some d' /\
    watchers_of d' key = filter (fun x => negb (Nat.eqb x (t_sid t))) (watchers_of d key) /\
    (forall k', k' <> key -> watchers_of d' k' = watchers_of d k') /\
    d_map d' = d_map d /\
    forall x, x <> dbn -> get_db n' x = get_db n x.
Proof. intros Hs Hpc. apply unwatch_step; [exact Hs | unfold step_op; now rewrite Hpc]. Qed.

Lemma unwatch_all_keys_next n t dbn key k2 rest :
  t_pc t = PcUnwatchAllKeys dbn (key :: k2 :: rest) ->
  t_pc (snd (release n t)) = PcUnwatchAllKeys dbn (k2 :: rest) /\
  t_replies (snd (release n t)) = t_replies t.
Proof. intros Hpc. unfold release. rewrite Hpc. split; reflexivity. Qed.

(* releases that are not subscription steps (data, notify, reads, permission lookups,
   command starts) never change any watcher list *)
Theorem other_release_keeps_watch n t : sched_thr t ->
  match step_op n t with Some (_, LWatch _ _) | Some (_, LUnwatch _ _) => False | _ => True end ->
  forall x, option_map d_watch (get_db (fst (release n t)) x) = option_map d_watch (get_db n x).
Proof.
  intros Hs Hop. apply release_keeps; [exact Hs|]. intros dbn l d E. rewrite E in Hop.
  destruct l; try contradiction. apply db_apply_watch.
Qed.

(* the subscription count of session s on key k through one operation *)
Definition sub_step (s : nat) (k : str) (c : nat) (l : lop) : nat :=
  match l with
  | LWatch k' s' => if String.eqb k' k && Nat.eqb s' s then S c else c
  | LUnwatch k' s' => if String.eqb k' k && Nat.eqb s' s then O else c
  | LData _ => c
  end.

Lemma count_occ_filter_neq l s c :
  count_occ Nat.eq_dec (filter (fun x => negb (Nat.eqb x c)) l) s =
  if Nat.eqb c s then O else count_occ Nat.eq_dec l s.
Proof. now rewrite count_occ_filter_negb_eqb, Nat.eqb_sym. Qed.

Lemma lop_count d l k s :
  count_occ Nat.eq_dec (watchers_of (lop_apply d l) k) s =
  sub_step s k (count_occ Nat.eq_dec (watchers_of d k) s) l.
Proof.
  destruct l as [o|k' s'|k' s']; cbn [lop_apply sub_step].
  - now rewrite watchers_data.
  - rewrite watchers_watch_key.
    destruct (String.eqb_spec k' k) as [->|]; cbn [andb]; auto.
    rewrite count_occ_app. cbn [count_occ].
    destruct (Nat.eq_dec s' s) as [->|Hne].
    + rewrite Nat.eqb_refl. lia.
    + destruct (Nat.eqb_spec s' s); [congruence|]. lia.
  - rewrite watchers_unwatch_key.
    destruct (String.eqb_spec k' k) as [->|]; cbn [andb]; auto.
    now rewrite count_occ_filter_neq.
Qed.

Lemma fold_lop_count k s ops : forall d,
  count_occ Nat.eq_dec (watchers_of (fold_left lop_apply ops d) k) s =
  fold_left (sub_step s k) ops (count_occ Nat.eq_dec (watchers_of d k) s).
Proof.
  induction ops as [|l r IH]; intros d; cbn [fold_left]; auto.
  now rewrite IH, lop_count.
Qed.

Lemma step_op_sid n t dbn l :
  step_op n t = Some (dbn, l) ->
  match l with LWatch _ s | LUnwatch _ s => s = t_sid t | LData _ => True end.
Proof.
  unfold step_op. destruct (t_pc t); try discriminate; try (intros [= <- <-]; auto).
  destruct keys; try discriminate. intros [= <- <-]. auto.
Qed.

(* invariant form: releases of other sessions never change the number of subscriptions
   of session s on any key of any database *)
Theorem other_session_release n t s : sched_thr t -> t_sid t <> s ->
  forall dbn d k, get_db n dbn = Some d ->
  exists d', get_db (fst (release n t)) dbn = Some d' /\
    count_occ Nat.eq_dec (watchers_of d' k) s = count_occ Nat.eq_dec (watchers_of d k) s.
Proof.
  intros Hs Hne dbn d k Hd.
  pose (F := fun d => count_occ Nat.eq_dec (watchers_of d k) s).
  enough (Hk : option_map F (get_db (fst (release n t)) dbn) = option_map F (get_db n dbn)).
  { rewrite Hd in Hk. destruct (get_db (fst (release n t)) dbn) as [d'|]; [|discriminate].
    exists d'. split; [reflexivity|]. now injection Hk. }
  apply release_keeps; [exact Hs|]. intros dbn0 l d0 Hop. unfold F.
  rewrite lop_count. pose proof (step_op_sid _ _ _ _ Hop) as Hsid.
  destruct l as [o|k' s'|k' s']; cbn [sub_step]; auto; subst s';
    destruct (Nat.eqb_spec (t_sid t) s); try congruence; now rewrite andb_false_r.
Qed.

(* no lost subscription: for ANY schedule, the number of subscriptions of session s on key
   k of dbn afterwards is obtained from the number before by replaying the log: every
   watch of s on k adds one, every unwatch / unwatch-all step of s on k resets to zero,
   and nothing else (in particular no operation of another session) changes it *)
Theorem no_lost_subscription n ts sched dbn d k s : Forall sched_thr ts ->
  get_db n dbn = Some d ->
  exists d', get_db (fst (run_schedule n ts sched)) dbn = Some d' /\
    count_occ Nat.eq_dec (watchers_of d' k) s =
    fold_left (sub_step s k) (ops_on dbn (full_log n ts sched)) (count_occ Nat.eq_dec (watchers_of d k) s).
Proof.
  intros Hs Hd. rewrite schedule_full, Hd by auto. cbn [option_map].
  eexists. split; [reflexivity|]. apply fold_lop_count.
Qed.

Definition is_unwatch_of (s : nat) (k : str) (l : lop) : bool :=
  match l with LUnwatch k' s' => String.eqb k' k && Nat.eqb s' s | _ => false end.
Definition is_watch_of (s : nat) (k : str) (l : lop) : bool :=
  match l with LWatch k' s' => String.eqb k' k && Nat.eqb s' s | _ => false end.

Definition watch_count (s : nat) (k : str) (ops : list lop) : nat :=
  List.length (filter (is_watch_of s k) ops).

Lemma subs_no_unwatch s k ops : forall c,
  (forall l, In l ops -> is_unwatch_of s k l = false) ->
  fold_left (sub_step s k) ops c = (c + watch_count s k ops)%nat.
Proof.
  unfold watch_count. induction ops as [|l r IH]; intros c H; cbn [fold_left filter List.length]; [lia|].
  rewrite IH by (intros; apply H; now right).
  specialize (H l (or_introl eq_refl)).
  destruct l as [o|k' s'|k' s']; cbn [sub_step is_watch_of is_unwatch_of] in *; try lia.
  - destruct (_ && _); cbn [List.length]; lia.
  - rewrite H. lia.
Qed.

Lemma subs_after_unwatch s k a l b c :
  is_unwatch_of s k l = true -> (forall x, In x b -> is_unwatch_of s k x = false) ->
  fold_left (sub_step s k) (a ++ l :: b) c = watch_count s k b.
Proof.
  intros Hl Hb. rewrite fold_left_app. cbn [fold_left].
  rewrite subs_no_unwatch by exact Hb.
  destruct l; try discriminate. cbn [sub_step is_unwatch_of] in *. rewrite Hl. lia.
Qed.

(* no lost subscription, closed form: with the operations on dbn split at the last unwatch
   step of session s on key k, the session ends with exactly as many subscriptions as it
   completed watch steps on k after that point (or: before + its watch steps, if it never
   unwatched) *)
Theorem no_lost_subscription_closed n ts sched dbn d k s : Forall sched_thr ts ->
  get_db n dbn = Some d ->
  let ops := ops_on dbn (full_log n ts sched) in
  exists d', get_db (fst (run_schedule n ts sched)) dbn = Some d' /\
    ((forall l, In l ops -> is_unwatch_of s k l = false) ->
       count_occ Nat.eq_dec (watchers_of d' k) s =
       (count_occ Nat.eq_dec (watchers_of d k) s + watch_count s k ops)%nat) /\
    (forall a l b, ops = a ++ l :: b -> is_unwatch_of s k l = true ->
       (forall x, In x b -> is_unwatch_of s k x = false) ->
       count_occ Nat.eq_dec (watchers_of d' k) s = watch_count s k b).
Proof.
  intros Hs Hd. cbn zeta.
  destruct (no_lost_subscription n ts sched dbn d k s Hs Hd) as (d' & Hd' & Hc).
  exists d'. split; auto. split.
  - intros H. rewrite Hc. now apply subs_no_unwatch.
  - intros a l b E Hl Hb. rewrite Hc, E. now apply subs_after_unwatch.
Qed.

(* a resolving change is accepted whatever version it carries, as long as the stored value
   is not in conflict and its version is below i32::MAX *)
Lemma resolving_set_succeeds d k v ver id :
  (forall old, get_value d k = Some old -> v_ver old <> -2 /\ v_ver old < i32_max) ->
  exists d1 msgs nw, set_value d (mkCh k v ver id true) = (d1, RSet k v, msgs) /\
    get_value d1 k = Some nw /\ v_val nw = v /\ v_opp nw = id /\
    (forall old, get_value d k = Some old -> ver <> -2 -> v_ver nw = v_ver old + 1).
Proof.
  intros Hold. destruct (get_value d k) as [old|] eqn:Hg.
  - destruct (Hold old eq_refl) as [Ho Hm].
    rewrite (set_value_present d (mkCh k v ver id true) old Hg). cbn [c_key c_val c_ver c_opp].
    assert (Hc : Z.leb (next_version (mkCh k v ver id true) old) (v_ver old) && negb (Z.eqb ver (-2)) = false).
    { unfold next_version, in_conflict. cbn [c_ver c_resolve].
      destruct (Z.eqb_spec ver (-2)); [now rewrite andb_false_r|].
      destruct (Z.eqb_spec (v_ver old) (-2)); [contradiction|].
      rewrite andb_true_r. apply Z.leb_gt. now apply sat_succ_gt. }
    rewrite Hc. eexists _, _, _. split; [reflexivity|]. rewrite gv_put_same.
    split; [reflexivity|]. cbn [v_val v_opp v_ver]. repeat split.
    intros o [= <-] Hv. unfold next_version, in_conflict. cbn [c_ver c_resolve].
    destruct (Z.eqb_spec ver (-2)); [contradiction|].
    destruct (Z.eqb_spec (v_ver old) (-2)); [contradiction|].
    unfold sat_succ. destruct (Z.ltb_spec (v_ver old) i32_max); lia.
  - unfold set_value. cbn [c_key]. rewrite Hg. cbn [c_val c_ver c_opp].
    eexists _, _, _. split; [reflexivity|]. rewrite gv_put_same.
    split; [reflexivity|]. cbn [v_val v_opp]. repeat split. discriminate.
Qed.

(* the three outcomes of a write release on a newer database: none of them is a refusal *)
Theorem newer_set_release n t dbn key value ver opp rs orig d :
  t_pc t = PcSetWrite dbn key value ver opp rs orig -> get_db n dbn = Some d ->
  d_strat d = SNewer -> sel_ok n (t_sid t) = true ->
  let ch := mkCh key value ver opp rs in
  let n' := fst (release n t) in
  let t' := snd (release n t) in
  (* the write was applied; the thread parks before the notification *)
  (snd (fst (set_value d ch)) = RSet key value /\
   n' = put_db n dbn (fst (fst (set_value d ch))) /\
   t_pc t' = PcNotify dbn key value (cur_ver (fst (fst (set_value d ch))) key) (RqSet key value orig) /\
   t_replies t' = t_replies t) \/
  (* the stored change is older: the write will be re-applied as a resolving change *)
  (exists old, get_value d key = Some old /\ (v_opp old < opp)%N /\
     n_dbs n' = n_dbs n /\
     t_pc t' = PcSetWrite dbn key value (v_ver old) (n_clock n) true orig /\
     t_replies t' = t_replies t) \/
  (* the stored change is newer: it is kept and the command is answered OK *)
  (exists old, get_value d key = Some old /\ (opp <= v_opp old)%N /\
     n_dbs n' = n_dbs n /\
     t_replies t' = t_replies t ++ [ROk] /\ at_boundary t').
Proof.
  intros Hpc Hdb Hs Hsel. cbn zeta.
  destruct (set_value_cases d (mkCh key value ver opp rs)) as [(d1 & msgs & E) | (old & Hg & E)].
  - left. rewrite E. cbn [fst snd c_key c_val] in *.
    rewrite (release_set_ok _ _ _ _ _ _ _ _ _ _ _ _ Hpc Hdb E). cbn [fst snd]. auto.
  - right. cbn [c_key c_ver] in *. unfold release. rewrite Hpc, Hdb, E, Hs.
    destruct (N.ltb_spec (v_opp old) opp) as [Hlt|Hge].
    + left. exists old. unfold tick. cbn [fst snd]. repeat split; auto.
    + right. exists old. rewrite complete_snd, complete_fst, replicate_request_dbs, finish_replies.
      repeat split; auto using finish_boundary.
      * apply dbs_forward.
      * f_equal. f_equal. apply replicate_ok_class; cbn; auto.
        apply dbs_forward.
Qed.

(* the re-applied (resolving) write is accepted: the thread parks before the notification
   with the write in the map *)
Theorem newer_resolving_release n t dbn key value ver opp orig d :
  t_pc t = PcSetWrite dbn key value ver opp true orig -> get_db n dbn = Some d ->
  (forall old, get_value d key = Some old -> v_ver old <> -2 /\ v_ver old < i32_max) ->
  exists d1 nw nv,
    release n t = (put_db n dbn d1, park t (PcNotify dbn key value nv (RqSet key value orig)) "watchers.read") /\
    d1 = db_apply' d (DSet' key value ver opp true) /\
    get_value d1 key = Some nw /\ v_val nw = value /\ v_opp nw = opp /\ nv = v_ver nw.
Proof.
  intros Hpc Hdb Hold.
  destruct (resolving_set_succeeds d key value ver opp Hold) as (d1 & msgs & nw & E & Hg & Hv & Ho & _).
  exists d1, nw, (v_ver nw).
  rewrite (release_set_ok _ _ _ _ _ _ _ _ _ _ _ _ Hpc Hdb E). unfold cur_ver. rewrite Hg.
  repeat split; auto. cbn [db_apply']. now rewrite E.
Qed.

(* hence a write release on a newer database records no refusal: it leaves the replies alone
   (parked for the notification or for the resolving write) or adds ROk *)
Corollary newer_set_answered n t dbn key value ver opp rs orig d :
  t_pc t = PcSetWrite dbn key value ver opp rs orig -> get_db n dbn = Some d ->
  d_strat d = SNewer -> sel_ok n (t_sid t) = true ->
  let t' := snd (release n t) in
  (t_replies t' = t_replies t /\
   ((exists nv, t_pc t' = PcNotify dbn key value nv (RqSet key value orig)) \/
    (exists v i, t_pc t' = PcSetWrite dbn key value v i true orig))) \/
  (t_replies t' = t_replies t ++ [ROk] /\ at_boundary t').
Proof.
  intros Hpc Hdb Hs Hsel.
  destruct (newer_set_release n t dbn key value ver opp rs orig d Hpc Hdb Hs Hsel)
    as [(_ & _ & Hp & Hr) | [(old & _ & _ & _ & Hp & Hr) | (old & _ & _ & _ & Hr & Hb)]]; cbn zeta.
  - left. split; auto. left. eauto.
  - left. split; auto. right. eauto.
  - right. auto.
Qed.

Definition dop_ver_ok' (o : dop') : Prop :=
  match o with DSet' _ _ ver _ _ => ver <> -2 | _ => True end.

Lemma version_step' d k old o nw :
  dop_ver_ok' o -> get_value d k = Some old -> get_value (db_apply' d o) k = Some nw ->
  v_ver old <= i32_max -> v_ver old <= v_ver nw.
Proof.
  destruct o as [k0 v ver opp rs | k0 | k0 i opp]; cbn [dop_ver_ok' db_apply']; intros Hok Hg Hn Hmx.
  - now destruct (set_step d (mkCh k0 v ver opp rs) k old nw Hok Hg Hn).
  - now destruct (remove_step d k0 k old nw Hg Hn Hmx).
  - now destruct (inc_step d k0 i opp k old nw Hg Hn Hmx).
Qed.

Lemma next_version_le_max' ch old :
  c_ver ch <> -2 -> v_ver old <= i32_max -> next_version ch old <= i32_max.
Proof.
  intros _. apply (next_version_range (fun _ => True) (fun z => z <= i32_max) (fun z => z <= i32_max));
    auto using sat_succ_le_max. unfold i32_max. lia.
Qed.

(* [NodeLemmas.VersionRange] for an operation with the resolve flag *)
Lemma db_apply'_range (vin P Q : Z -> Prop) d o k :
  (forall z, P z -> Q z) -> (forall z, P z -> Q (sat_succ z)) -> (forall z, vin z -> Q (sat_succ z)) ->
  (vin (-2) -> Q (-2)) -> Q 1 -> match o with DSet' _ _ ver _ _ => vin ver | _ => True end ->
  ver_at P d k -> ver_at Q (db_apply' d o) k.
Proof.
  intros H1 H2 H3 H4 H5 Ho. destruct o; cbn [db_apply'].
  - now apply (set_value_range vin P Q).
  - now apply (remove_value_range P Q).
  - now apply (inc_value_range P Q).
Qed.

Lemma version_bound_step' d k old o nw :
  dop_ver_ok' o -> get_value d k = Some old -> v_ver old <= i32_max ->
  get_value (db_apply' d o) k = Some nw -> v_ver nw <= i32_max.
Proof.
  intros _ Hg Hm Hn. pose proof sat_succ_le_max.
  apply (db_apply'_range (fun _ => True) (fun z => z <= i32_max) (fun z => z <= i32_max) d o k); auto;
    try (unfold i32_max; lia); [now destruct o|]. intros v. rewrite Hg. now intros [= <-].
Qed.

(* side conditions of a run on key k: no operation carries version -2, and the key stays in
   the map *)
Fixpoint run_ok' (k : str) (d : db) (ops : list dop') : Prop :=
  match ops with
  | [] => True
  | o :: r => dop_ver_ok' o /\ get_value (db_apply' d o) k <> None /\ run_ok' k (db_apply' d o) r
  end.

Lemma versions_monotone_seq' k ops : forall d old,
  run_ok' k d ops -> get_value d k = Some old -> v_ver old <= i32_max ->
  exists nw, get_value (fold_left db_apply' ops d) k = Some nw /\ v_ver old <= v_ver nw.
Proof.
  induction ops as [|o r IH]; cbn [fold_left run_ok']; intros d old Hr Hg Hmx.
  - exists old. split; auto. lia.
  - destruct Hr as (Hok & Hp & Hr).
    destruct (get_value (db_apply' d o) k) as [mid|] eqn:Hm; [|congruence].
    destruct (IH _ _ Hr Hm (version_bound_step' _ _ _ _ _ Hok Hg Hmx Hm)) as (nw & Hn & Hle).
    exists nw. split; auto.
    pose proof (version_step' _ _ _ _ _ Hok Hg Hm Hmx). lia.
Qed.

Lemma run_ok'_congr k ops : forall d d', d_map d = d_map d' -> run_ok' k d ops -> run_ok' k d' ops.
Proof.
  induction ops as [|o r IH]; cbn [run_ok']; intros d d' H Hr; auto.
  destruct Hr as (H1 & H2 & H3).
  pose proof (db_apply_map_congr d d' o H) as Hm.
  split; auto. split.
  - now rewrite <- (get_value_map _ _ k Hm).
  - eapply IH; eauto.
Qed.

(* across ANY schedule the version of a key never decreases (any strategy, resolving
   changes included) *)
Theorem newer_version_grows n ts sched dbn d k old : Forall sched_thr ts ->
  get_db n dbn = Some d -> get_value d k = Some old -> v_ver old <= i32_max ->
  run_ok' k d (ops_on dbn (data_log n ts sched)) ->
  exists d' nw, get_db (fst (run_schedule n ts sched)) dbn = Some d' /\
    get_value d' k = Some nw /\ v_ver old <= v_ver nw.
Proof.
  intros Hs Hd Hg Hm Hr.
  pose proof (schedule_data n ts sched dbn Hs) as Hsd. rewrite Hd in Hsd. cbn [option_map] in Hsd.
  destruct (get_db (fst (run_schedule n ts sched)) dbn) as [d'|]; [|discriminate].
  cbn [option_map] in Hsd. injection Hsd as Hsd.
  destruct (versions_monotone_seq' k _ d old Hr Hg Hm) as (nw & Hn & Hle).
  exists d', nw. split; auto. split; auto. now rewrite (get_value_map _ _ k Hsd).
Qed.

(* a thread is parked at a resolving write only on a newer database *)
Definition res_inv (n : node) (t : thr) : Prop :=
  match t_pc t with
  | PcSetWrite dbn _ _ _ _ true _ => option_map d_strat (get_db n dbn) = Some SNewer
  | _ => True
  end.

(* the same of a program counter: [res_inv n t] is [res_pc n (t_pc t)] by conversion *)
Definition res_pc (n : node) (p : pc) : Prop :=
  match p with
  | PcSetWrite dbn _ _ _ _ true _ => option_map d_strat (get_db n dbn) = Some SNewer
  | _ => True
  end.

Lemma guard_next_res n dbn rq p : guard_next dbn rq p -> res_pc n p.
Proof. destruct 1; exact I. Qed.

(* a release parks at a resolving write only by [PN_resolve] *)
Lemma pc_next_res n prog p p' : pc_next n prog p p' -> res_pc n p'.
Proof.
  destruct 1 as [rq p Hh Hc|rq dbn p Hg| | |dbn key value ver opp rs orig d old id Hd Hs Hg| | | | | | | | ];
    try exact I.
  - destruct Hc; try exact I. eapply guard_next_res; eassumption.
  - exact (guard_next_res _ _ _ _ Hg).
  - cbn. now rewrite Hd, <- Hs.
Qed.

Lemma release_resolving n t a b c d e f :
  t_pc (snd (release n t)) = PcSetWrite a b c d e true f ->
  exists db0, get_db n a = Some db0 /\ d_strat db0 = SNewer.
Proof.
  intros H. destruct (release_form n t) as [_ [[E|E]|Hn]]; try congruence.
  apply pc_next_res in Hn. rewrite H in Hn. cbn in Hn.
  destruct (get_db n a) as [db0|]; [injection Hn; eauto | discriminate Hn].
Qed.

Lemma finish_not_write t r a b c d e g f : t_pc (finish t r) <> PcSetWrite a b c d e g f.
Proof. destruct (finish_boundary t r) as [E|E]; rewrite E; discriminate. Qed.

Lemma complete_not_write n t rq s r a b c d e g f :
  t_pc (snd (complete n t rq s r)) <> PcSetWrite a b c d e g f.
Proof. rewrite complete_snd. apply finish_not_write. Qed.

Lemma start_publish_not_write n t dbn k a b c d e g f :
  t_pc t <> PcSetWrite a b c d e g f -> t_pc (snd (start_publish n t dbn k)) <> PcSetWrite a b c d e g f.
Proof. unfold start_publish, tick. destruct (get_db n dbn); [discriminate | auto]. Qed.

Lemma use_inc_not_write n t name user rq a b c d e g f :
  t_pc t <> PcSetWrite a b c d e g f -> t_pc (snd (use_inc n t name user rq)) <> PcSetWrite a b c d e g f.
Proof.
  intros _ E. destruct (use_inc_post n n t name user rq) as (_ & _ & _ & [[H|H]|H]); rewrite E in H;
    [discriminate H | discriminate H | exact H].
Qed.

Lemma after_publish_not_write n t k a b c d e g f :
  t_pc t <> PcSetWrite a b c d e g f -> t_pc (snd (after_publish n t k)) <> PcSetWrite a b c d e g f.
Proof.
  intros _ E. destruct (after_publish_post n n t k) as (_ & _ & _ & [[H|H]|H]); rewrite E in H;
    [discriminate H | discriminate H | exact H].
Qed.

(* the requests that pass the guard park at a write that is not resolving, or at no write *)
Lemma after_guard_res n t rq dbn a b c d e f :
  t_pc (snd (after_guard n t rq dbn)) = PcSetWrite a b c d e true f ->
  t_pc t = PcSetWrite a b c d e true f.
Proof.
  destruct (after_guard_cases True n t rq dbn) as [(_ & _ & _ & [[H|H]|H])| ->]; [| | |auto]; intros E; rewrite E in H;
    [discriminate H | discriminate H | inversion H].
Qed.

Lemma start_cmd_res n t a b c d e f :
  t_pc t = PcCmd -> t_pc (snd (start_cmd n t)) <> PcSetWrite a b c d e true f.
Proof.
  intros _ E. destruct (start_cmd_next n t) as [_ [[H|H]|H]]; rewrite E in H; try discriminate H.
  inversion H as [rq p _ Hc| | | | | | | | | | | | ]. inversion Hc as [|? ? ? Hg| | | | ]. inversion Hg.
Qed.

Lemma release_strat n t : sched_thr t ->
  forall x, option_map d_strat (get_db (fst (release n t)) x) = option_map d_strat (get_db n x).
Proof.
  intros Hs. apply release_keeps; [exact Hs|]. intros dbn l d _. apply lop_apply_strat.
Qed.

Lemma res_inv_strat n n' t :
  (forall x, option_map d_strat (get_db n' x) = option_map d_strat (get_db n x)) ->
  res_inv n t -> res_inv n' t.
Proof.
  unfold res_inv. intros H. destruct (t_pc t); auto. destruct resolving; auto. now rewrite H.
Qed.

Lemma release_res_inv n t : sched_thr t -> res_inv (fst (release n t)) (snd (release n t)).
Proof.
  intros Hs. apply (res_inv_strat n); [intros x; now apply release_strat|].
  destruct (release_form n t) as [_ [[E|E]|Hn]].
  - unfold res_inv. now rewrite E.
  - unfold res_inv. now rewrite E.
  - exact (pc_next_res _ _ _ _ Hn).
Qed.

Lemma release_nth_res_inv n ts i : Forall sched_thr ts -> Forall (res_inv n) ts ->
  Forall (res_inv (fst (release_nth n ts i))) (snd (release_nth n ts i)).
Proof.
  intros Hs Hr. apply (release_nth_inv (fun n' => Forall (res_inv n'))); [exact Hr|]. intros t E _.
  pose proof (nth_error_Forall _ _ _ _ Hs E) as Ht.
  apply Forall_list_update; [|now apply release_res_inv].
  eapply Forall_impl; [|exact Hr]. intros a. apply res_inv_strat, release_strat, Ht.
Qed.

Lemma new_thread_res_inv n sid prog hints : res_inv n (new_thread sid prog hints).
Proof. unfold res_inv, new_thread. destruct prog; exact I. Qed.

Lemma step_log_plain n ts i dbn d : Forall (res_inv n) ts ->
  get_db n dbn = Some d -> d_strat d <> SNewer ->
  Forall plain (ops_on dbn (data_of (step_log n ts i))).
Proof.
  intros Hr Hd Hst. unfold step_log. destruct (nth_error ts i) as [t|] eqn:E; [|constructor].
  pose proof (nth_error_Forall _ _ _ _ Hr E) as Ht. unfold res_inv in Ht.
  unfold step_op. destruct (t_pc t); try constructor; unfold ops_on; cbn [data_of flat_map snd fst app filter].
  - destruct (String.eqb_spec dbn0 dbn) as [->|]; cbn [map snd]; constructor; auto.
    cbn [plain]. destruct resolving; auto. rewrite Hd in Ht. cbn in Ht. congruence.
  - destruct (String.eqb dbn0 dbn); cbn [map snd]; repeat constructor.
  - destruct (String.eqb dbn0 dbn); cbn [map snd]; repeat constructor.
  - destruct keys; cbn; constructor.
Qed.

Lemma data_log_plain sched : forall n ts dbn d,
  Forall sched_thr ts -> Forall (res_inv n) ts ->
  get_db n dbn = Some d -> d_strat d <> SNewer ->
  Forall plain (ops_on dbn (data_log n ts sched)).
Proof.
  unfold data_log.
  induction sched as [|i r IH]; intros n ts dbn d Hs Hr Hd Hst; cbn [full_log]; [constructor|].
  rewrite data_of_app, ops_on_app. apply Forall_app. split; [eapply step_log_plain; eauto|].
  pose proof (release_nth_effect n ts i dbn Hs) as He. rewrite Hd in He. cbn [option_map] in He.
  eapply IH; eauto using release_nth_sched, release_nth_res_inv.
  rewrite fold_lop_strat. exact Hst.
Qed.

Lemma fold_plain ops : forall d, Forall plain ops ->
  fold_left db_apply' ops d = fold_left db_apply (map to_dop ops) d.
Proof.
  induction ops as [|o r IH]; intros d H; cbn [fold_left map]; auto.
  inversion H; subst. rewrite db_apply_to_dop by auto. now apply IH.
Qed.

(* [schedule_data] with the operations of DbProofs: threads that start at a command boundary (or
   anywhere but a resolving write), a database whose strategy is not newer *)
Theorem schedule_data_plain n ts sched dbn d :
  Forall sched_thr ts -> Forall (res_inv n) ts ->
  get_db n dbn = Some d -> d_strat d <> SNewer ->
  exists d', get_db (fst (run_schedule n ts sched)) dbn = Some d' /\
    d_map d' = d_map (fold_left db_apply (map to_dop (ops_on dbn (data_log n ts sched))) d).
Proof.
  intros Hs Hr Hd Hst.
  pose proof (schedule_data n ts sched dbn Hs) as Hsd. rewrite Hd in Hsd. cbn [option_map] in Hsd.
  destruct (get_db (fst (run_schedule n ts sched)) dbn) as [d'|]; [|discriminate].
  cbn [option_map] in Hsd. injection Hsd as Hsd. exists d'. split; auto.
  rewrite Hsd. f_equal. apply fold_plain. eapply data_log_plain; eauto.
Qed.

(* [*_vok]: every version carried or stored is >= -1, so none is the conflict mark -2; for a
   program: every versioned write of it carries a version >= -1 *)
Definition rq_vok (rq : request) : Prop := match rq with RqSet _ _ ver => -1 <= ver | _ => True end.
Definition pc_vok (p : pc) : Prop :=
  match p with
  | PcSetWrite _ _ _ ver _ _ _ => -1 <= ver
  | PcPerm rq => rq_vok rq
  | _ => True
  end.
Definition line_vok (l : str) : Prop :=
  match parse_request (trim_char nl l) with POk rq => rq_vok rq | _ => True end.
Definition vers_thr (t : thr) : Prop := pc_vok (t_pc t) /\ Forall line_vok (t_prog t).
Definition db_vok (d : db) : Prop := forall k v, get_value d k = Some v -> -1 <= v_ver v.
Definition node_vok (n : node) : Prop := forall x d, get_db n x = Some d -> db_vok d.
Definition lop_vok (l : lop) : Prop :=
  match l with LData (DSet' _ _ ver _ _) => -1 <= ver | _ => True end.

Lemma sat_succ_ge_m1 z : -1 <= z -> -1 <= sat_succ z.
Proof. unfold sat_succ, i32_max. destruct (Z.ltb z 2147483647); lia. Qed.

Lemma next_version_vok ch old : -1 <= c_ver ch -> -1 <= v_ver old -> -1 <= next_version ch old.
Proof.
  apply (next_version_range (fun z => -1 <= z) (fun z => -1 <= z) (fun z => -1 <= z)); auto using sat_succ_ge_m1.
Qed.

Lemma lop_apply_vok d l : db_vok d -> lop_vok l -> db_vok (lop_apply d l).
Proof.
  intros Hd Hl. destruct l as [o|k s|k s]; [|exact Hd|exact Hd]. pose proof sat_succ_ge_m1 as S.
  intros k. apply (db_apply'_range (fun z => -1 <= z) (fun z => -1 <= z) (fun z => -1 <= z) d o k); auto;
    try lia; try exact (Hd k).
Qed.

Lemma step_op_vok n t dbn l : pc_vok (t_pc t) -> step_op n t = Some (dbn, l) -> lop_vok l.
Proof.
  unfold step_op, pc_vok. destruct (t_pc t); try discriminate; try (intros H [= <- <-]; cbn; auto).
  destruct keys; try discriminate. intros _ [= <- <-]. exact I.
Qed.

Lemma release_node_vok n t : sched_thr t -> pc_vok (t_pc t) -> node_vok n -> node_vok (fst (release n t)).
Proof.
  intros Hs Hp Hn x d'. rewrite release_get_db by exact Hs.
  destruct (step_op n t) as [[dbn l]|] eqn:Hop; [|apply Hn].
  destruct (String.eqb x dbn); [|apply Hn].
  destruct (get_db n x) as [d|] eqn:Hd; [|discriminate].
  intros [= <-]. apply lop_apply_vok; eauto using step_op_vok.
Qed.

Lemma boundary_vok t : at_boundary t -> pc_vok (t_pc t).
Proof. intros [E|E]; rewrite E; exact I. Qed.

Lemma guard_next_vok dbn rq p : rq_vok rq -> guard_next dbn rq p -> pc_vok p.
Proof. intros Hr H. destruct H; try exact I. exact Hr. Qed.

Lemma cmd_next_vok prog rq p : Forall line_vok prog -> head_rq prog rq -> cmd_next rq p -> pc_vok p.
Proof.
  intros Hl Hh Hc.
  destruct (head_rq_Forall _ _ _ Hl Hh) as (line & Hv & Hq). unfold line_vok in Hv. rewrite Hq in Hv.
  destruct Hc; try exact I; [exact Hv | eapply guard_next_vok; eassumption].
Qed.

Lemma pc_next_vok n prog p p' :
  node_vok n -> Forall line_vok prog -> pc_vok p -> pc_next n prog p p' -> pc_vok p'.
Proof.
  intros Hn Hl Hp H.
  destruct H as [rq p Hh Hc|rq dbn p Hg| | |dbn key value ver opp rs orig d old id Hd Hs Hg| | | | | | | | ];
    try exact I.
  - exact (cmd_next_vok _ _ _ Hl Hh Hc).
  - exact (guard_next_vok _ _ _ Hp Hg).
  - exact Hp.
  - exact (Hn _ _ Hd _ _ Hg).
Qed.

Lemma finish_vok t r : pc_vok (t_pc (finish t r)).
Proof. apply boundary_vok, finish_boundary. Qed.

Lemma complete_vok n t rq s r : pc_vok (t_pc (snd (complete n t rq s r))).
Proof. rewrite complete_snd. apply finish_vok. Qed.

Lemma after_guard_vok n t rq dbn :
  rq_vok rq -> pc_vok (t_pc t) -> pc_vok (t_pc (snd (after_guard n t rq dbn))).
Proof.
  intros Hr Hp. destruct (after_guard_cases True n t rq dbn) as [(_ & _ & _ & [H|H])| ->];
    eauto using boundary_vok, guard_next_vok.
Qed.

(* not by [pc_next_vok]: that asks [node_vok n], which only [PN_resolve] needs *)
Lemma start_cmd_vok n t :
  pc_vok (t_pc t) -> Forall line_vok (t_prog t) -> pc_vok (t_pc (snd (start_cmd n t))).
Proof.
  intros _ Hl. destruct (start_cmd_next n t) as [_ [Hb|Hn]]; [now apply boundary_vok|].
  inversion Hn. eauto using cmd_next_vok.
Qed.

Lemma start_publish_vok n t dbn k : pc_vok (t_pc t) -> pc_vok (t_pc (snd (start_publish n t dbn k))).
Proof. unfold start_publish, tick. destruct (get_db n dbn); [now intros _ | auto]. Qed.

Lemma use_inc_vok n t name user rq : pc_vok (t_pc t) -> pc_vok (t_pc (snd (use_inc n t name user rq))).
Proof.
  intros _. destruct (use_inc_post n n t name user rq) as (_ & _ & _ & [H|H]); [now apply boundary_vok|].
  now destruct (t_pc _).
Qed.

Lemma after_publish_vok n t k : pc_vok (t_pc t) -> pc_vok (t_pc (snd (after_publish n t k))).
Proof.
  intros _. destruct (after_publish_post n n t k) as (_ & _ & _ & [H|H]); [now apply boundary_vok|].
  now destruct (t_pc _).
Qed.

Lemma release_pc_vok n t : node_vok n -> vers_thr t -> pc_vok (t_pc (snd (release n t))).
Proof.
  intros Hn [Hp Hl]. destruct (release_form n t) as [_ [Hb|Hx]].
  - now apply boundary_vok.
  - eapply pc_next_vok; eauto.
Qed.

Lemma release_vers_thr n t : node_vok n -> vers_thr t -> vers_thr (snd (release n t)).
Proof. intros Hn Ht. split; [now apply release_pc_vok | apply release_prog_Forall, Ht]. Qed.

Lemma release_nth_vok n ts i :
  Forall sched_thr ts -> Forall vers_thr ts -> node_vok n ->
  Forall vers_thr (snd (release_nth n ts i)) /\ node_vok (fst (release_nth n ts i)).
Proof.
  intros Hs Hv Hn.
  apply (release_nth_inv (fun n' ts' => Forall vers_thr ts' /\ node_vok n')); [auto|]. intros t E _.
  pose proof (nth_error_Forall _ _ _ _ Hv E) as Hvt. split.
  - apply Forall_list_update; [exact Hv | now apply release_vers_thr].
  - apply release_node_vok; [eapply nth_error_Forall; eauto | apply Hvt | exact Hn].
Qed.

Lemma new_thread_vers sid prog hints : Forall line_vok prog -> vers_thr (new_thread sid prog hints).
Proof. intros H. unfold new_thread. destruct prog; split; cbn; auto. Qed.

Theorem log_vers_ok sched : forall n ts,
  Forall sched_thr ts -> Forall vers_thr ts -> node_vok n ->
  Forall (fun p => dop_ver_ok' (snd p)) (data_log n ts sched).
Proof.
  unfold data_log.
  induction sched as [|i r IH]; intros n ts Hs Hv Hn; cbn [full_log]; [constructor|].
  rewrite data_of_app. apply Forall_app. split.
  - unfold step_log. destruct (nth_error ts i) as [t|] eqn:E; [|constructor].
    destruct (step_op n t) as [[dbn l]|] eqn:Hop; [|constructor].
    pose proof (step_op_vok n t dbn l (proj1 (nth_error_Forall _ _ _ _ Hv E)) Hop) as Hl.
    destruct l as [o| |]; cbn [data_of flat_map snd fst app]; repeat constructor.
    cbn [snd]. destruct o; cbn in *; auto. lia.
  - destruct (release_nth_vok n ts i Hs Hv Hn). apply IH; auto using release_nth_sched.
Qed.

(* the key is never dropped from the map during the run *)
Fixpoint stays (k : str) (d : db) (ops : list dop') : Prop :=
  match ops with
  | [] => True
  | o :: r => get_value (db_apply' d o) k <> None /\ stays k (db_apply' d o) r
  end.

Lemma run_ok'_split k ops : forall d, Forall dop_ver_ok' ops -> stays k d ops -> run_ok' k d ops.
Proof.
  induction ops as [|o r IH]; intros d Hf Hs; cbn [run_ok' stays] in *; auto.
  inversion Hf; subst. destruct Hs. auto.
Qed.

Lemma Forall_ops_on {A} (P : A -> Prop) dbn (l : list (str * A)) :
  Forall (fun p => P (snd p)) l -> Forall P (ops_on dbn l).
Proof.
  unfold ops_on. induction l as [|p r IH]; intros H; cbn [filter map]; [constructor|].
  inversion H; subst. destruct (String.eqb _ _); cbn [map]; auto.
Qed.

(* [newer_version_grows] from conditions on the initial state only: programs whose
   versioned writes carry versions >= -1, stored versions >= -1 (never "in conflict") *)
Theorem newer_version_grows_inv n ts sched dbn d k old :
  Forall sched_thr ts -> Forall vers_thr ts -> node_vok n ->
  get_db n dbn = Some d -> get_value d k = Some old -> v_ver old <= i32_max ->
  stays k d (ops_on dbn (data_log n ts sched)) ->
  exists d' nw, get_db (fst (run_schedule n ts sched)) dbn = Some d' /\
    get_value d' k = Some nw /\ v_ver old <= v_ver nw.
Proof.
  intros Hs Hv Hn Hd Hg Hm Hst.
  eapply newer_version_grows; eauto.
  apply run_ok'_split; auto. apply Forall_ops_on. now apply log_vers_ok.
Qed.

Definition ex_steps (n : node) (c : nat) (ls : list str) : node :=
  fold_left (fun n l => fst (step n c l)) ls n.
Definition ex_node0 : node :=
  let '(n, c) := connect (init_node "u" "p" "a" 1 Primary 0) in
  ex_steps n c ["auth u p"; "create-db d tok none"; "create-db e tok newer"].
(* sessions 1 and 2 selected database d (strategy none); key k holds "a" at version 0 *)
Definition ex_node : node :=
  let '(n, c1) := connect ex_node0 in
  let '(n, c2) := connect n in
  ex_steps (ex_steps n c1 ["use-db d tok"; "set k a"]) c2 ["use-db d tok"].
Definition ex_ts : list thr :=
  [new_thread 1 ["set-safe k 0 x"; "get-safe k"] [];
   new_thread 2 ["set-safe k 0 y"; "watch k"; "unwatch-all"] []].

Lemma sched_thr_dec_sound t :
  forallb (fun l => match parse_request (trim_char nl l) with
                    | POk rq => sched_rq rq | _ => true end) (t_prog t) = true ->
  sched_pc (t_pc t) -> sched_thr t.
Proof.
  unfold sched_thr. intros H Hp. split; [|exact Hp]. clear Hp. revert H.
  induction (t_prog t) as [|l r IH]; cbn [forallb]; intros H; constructor.
  - apply andb_true_iff in H. unfold sched_line. destruct (parse_request _); tauto.
  - apply IH. apply andb_true_iff in H. tauto.
Qed.

Example ex_ts_sched : Forall sched_thr ex_ts.
Proof.
  constructor; [|constructor; [|constructor]];
    (apply sched_thr_dec_sound; [vm_compute; reflexivity | exact I]).
Qed.

(* both compare-and-set writes carry version 0; whichever thread enters its write section
   first wins, the other gets the version error (here for both orders) *)
Example ex_two_cas :
  let r01 := run_schedule ex_node ex_ts [0; 1; 0; 1; 0; 1]%nat in
  let r10 := run_schedule ex_node ex_ts [0; 1; 0; 1; 1; 0]%nat in
  map t_replies (snd r01) =
    [[]; [RVersionError "k" 1 0 (mkV "x" 1 12 VNew 0 0) (mkCh "k" "y" 0 13 false) VNew]] /\
  map t_replies (snd r10) =
    [[RVersionError "k" 1 0 (mkV "y" 1 13 VNew 0 0) (mkCh "k" "x" 0 12 false) VNew]; []] /\
  data_log ex_node ex_ts [0; 1; 0; 1; 0; 1]%nat =
    [("d", DSet' "k" "x" 0 12 false); ("d", DSet' "k" "y" 0 13 false)] /\
  data_log ex_node ex_ts [0; 1; 0; 1; 1; 0]%nat =
    [("d", DSet' "k" "y" 0 13 false); ("d", DSet' "k" "x" 0 12 false)] /\
  map t_replies (snd (run_par ex_node ex_ts [0; 1; 0; 1; 0; 1]%nat)) =
    [[ROk; RValue "k" "x" 1];
     [RVersionError "k" 1 0 (mkV "x" 1 12 VNew 0 0) (mkCh "k" "y" 0 13 false) VNew; ROk; ROk]].
Proof. vm_compute. repeat split. Qed.

(* why programs are restricted to the scheduled commands: any other line (use-db apart, which
   Sched.v models with its own park points and which ConnSchedProofs.v treats) is run in one go
   by Node.step when the command starts, and may write data although the thread is at PcCmd
   (data_op = None).  Here "resolve" writes its $conflicts_ record and the key into d. *)
Example unscheduled_line_changes_data :
  let t := new_thread 1 ["resolve 7 d k 0 z"] [] in
  data_op ex_node t = None /\
  option_map d_map (get_db (fst (release ex_node t)) "d") <> option_map d_map (get_db ex_node "d").
Proof. vm_compute. split; [reflexivity | discriminate]. Qed.

(* use-db has park points of its own: its first release only parks at the token check *)
Example use_db_line_parks :
  let t := new_thread 1 ["use-db d tok"] [] in
  ~ sched_thr t /\
  t_pc (snd (release ex_node t)) = PcUseTok "tok" "d" None /\
  n_dbs (fst (release ex_node t)) = n_dbs ex_node.
Proof.
  cbn zeta. split; [|vm_compute; split; reflexivity].
  intros [H _]. inversion H as [|? ? H1 _]; subst. vm_compute in H1. discriminate.
Qed.
