(* The transports (Model/Net.v): no byte string sent over TCP, WebSocket or HTTP ends a service
   thread; connection ends run the shared disconnect path; the replication thread survives every
   queued line. *)
From Coq Require Import List String Ascii ZArith NArith Bool Lia.
From NunDB Require Import Base Parse Node Cluster Net Footprint GuardProofs ClusterProofs.
Import ListNotations.
Open Scope string_scope.

(* Around each command of connection c a transport only edits c's own inbox (a terminator is
   queued, the HTTP worker takes its answer out): a property of the node that every line of c
   keeps, and that does not depend on c's inbox, is kept by a TCP line, a WebSocket frame and the
   statements of an HTTP body. *)
Section Closed.
  Variables (P : node -> Prop) (c : nat).
  Hypothesis Pstep : forall n line, P n -> P (fst (step n c line)).
  Hypothesis Psess : forall n s, P n -> s_db s = s_db (get_sess n c) -> P (put_sess n c s).

  Lemma send_closed n m : P n -> P (send n c m).
  Proof. intros H. now apply Psess. Qed.

  Lemma tcp_line_closed n line : P n -> P (fst (tcp_line n c line)).
  Proof.
    intros H. unfold tcp_line. destruct (utf8_valid line); cbn [negb fst]; [|exact H].
    pose proof (Pstep n (line +++ nlS) H) as Hs.
    destruct (step n c (line +++ nlS)) as [n1 r]. cbn [fst] in Hs.
    destruct r; cbn [fst]; try (apply send_closed; exact Hs). exact Hs.
  Qed.

  Lemma ws_parts_closed parts : forall n, P n -> P (fst (ws_parts n c parts)).
  Proof.
    induction parts as [|p rest IH]; intros n H; cbn [ws_parts fst]; [exact H|].
    pose proof (Pstep n p H) as Hs.
    destruct (step n c p) as [n1 r]. cbn [fst] in Hs.
    destruct r; try (apply IH, send_closed, Hs). exact Hs.
  Qed.

  Lemma ws_frame_closed n payload : P n -> P (fst (ws_frame n c payload)).
  Proof.
    intros H. unfold ws_frame. destruct (utf8_valid payload); cbn [negb fst].
    - now apply ws_parts_closed.
    - now apply send_closed.
  Qed.

  Lemma http_commands_closed cmds : forall n acc, P n -> P (fst (http_commands n c cmds acc)).
  Proof. apply (http_commands_closed_on P c cmds Psess), Forall_forall. intros cmd _ n. apply Pstep. Qed.
End Closed.

(* [Closed] at P := edits all_caps c n0: a line, a frame, an HTTP body of c edit the node as
   commands of c do (Footprint), so they keep what every edit keeps ([keeps], NetWatchProofs.wframe) *)
Lemma edits_step c n0 n line : edits all_caps c n0 n -> edits all_caps c n0 (fst (step n c line)).
Proof. intros H. exact (edits_trans H (step_edits c n line)). Qed.

Lemma edits_inbox c n0 n s : edits all_caps c n0 n -> s_db s = s_db (get_sess n c) -> edits all_caps c n0 (put_sess n c s).
Proof. intros H E. apply ed_sess; [exact H|now right|now left]. Qed.

Lemma tcp_line_edits c n line : edits all_caps c n (fst (tcp_line n c line)).
Proof. apply (tcp_line_closed _ c (edits_step c n) (edits_inbox c n)), ed_refl. Qed.

Lemma ws_frame_edits c n payload : edits all_caps c n (fst (ws_frame n c payload)).
Proof. apply (ws_frame_closed _ c (edits_step c n) (edits_inbox c n)), ed_refl. Qed.

Lemma http_commands_edits c cmds n acc : edits all_caps c n (fst (http_commands n c cmds acc)).
Proof. apply (http_commands_closed _ c (edits_step c n) (edits_inbox c n)), ed_refl. Qed.

Lemma send_inv n c m : AdminInv n -> AdminInv (send n c m).
Proof. intros [adm H]. exists adm. exact H. Qed.

Theorem tcp_line_serving n c line : AdminInv n -> snd (tcp_line n c line) = Serving.
Proof.
  intros Hi. unfold tcp_line. destruct (utf8_valid line); cbn [negb]; [|reflexivity].
  pose proof (step_no_panic n c (line +++ nlS) Hi) as Hp.
  destruct (step n c (line +++ nlS)) as [n1 r]. cbn [snd] in Hp.
  destruct r; try reflexivity. contradiction.
Qed.

Theorem tcp_line_inv n c line : AdminInv n -> AdminInv (fst (tcp_line n c line)).
Proof. apply keeps_inv, (edits_keeps all_caps c), tcp_line_edits. Qed.

Lemma ws_parts_serving parts : forall n c, AdminInv n -> snd (ws_parts n c parts) = Serving.
Proof.
  induction parts as [|p rest IH]; intros n c Hi; cbn [ws_parts]; [reflexivity|].
  pose proof (step_no_panic n c p Hi) as Hp. pose proof (step_inv n c p Hi) as Hs.
  destruct (step n c p) as [n1 r]. cbn [fst snd] in *.
  destruct r; try contradiction; apply IH; apply send_inv; exact Hs.
Qed.

Theorem ws_frame_serving n c payload : AdminInv n -> snd (ws_frame n c payload) = Serving.
Proof.
  intros Hi. unfold ws_frame. destruct (utf8_valid payload); cbn [negb]; [|reflexivity].
  apply ws_parts_serving. exact Hi.
Qed.

Theorem ws_frame_inv n c payload : AdminInv n -> AdminInv (fst (ws_frame n c payload)).
Proof. apply keeps_inv, (edits_keeps all_caps c), ws_frame_edits. Qed.

Theorem ws_frame_invalid n c payload : utf8_valid payload = false ->
  ws_frame n c payload = (send n c ("error Invalid message " +++ nlS), Serving).
Proof. intros H. unfold ws_frame. rewrite H. reflexivity. Qed.

Theorem tcp_line_invalid n c line : utf8_valid line = false -> tcp_line n c line = (n, Serving).
Proof. intros H. unfold tcp_line. rewrite H. reflexivity. Qed.

Lemma tcp_line_eq n c line : utf8_valid line = true -> snd (step n c (line +++ nlS)) <> RPanic ->
  tcp_line n c line =
  (send (fst (step n c (line +++ nlS))) c (term_tcp (snd (step n c (line +++ nlS)))), Serving).
Proof.
  intros Hu Hp. unfold tcp_line. rewrite Hu. cbn [negb].
  destruct (step n c (line +++ nlS)) as [n1 r]. cbn [fst snd] in *. destruct r; try reflexivity. congruence.
Qed.

Lemma net_step_eq n e : net_step n e =
  match e with
  | NConnect => (fst (connect n), true)
  | NTcpLine c b => (fst (tcp_line n c b), match snd (tcp_line n c b) with Serving => true | ThreadDied => false end)
  | NWsFrame c b => (fst (ws_frame n c b), match snd (ws_frame n c b) with Serving => true | ThreadDied => false end)
  | NHttp b => (fst (http_bytes n b), match snd (http_bytes n b) with Some _ => true | None => false end)
  | NClosed c => (conn_closed n c, true)
  end.
Proof.
  destruct e as [|c b|c b|b|c]; cbn [net_step]; try reflexivity;
    [now destruct (tcp_line n c b)|now destruct (ws_frame n c b)|now destruct (http_bytes n b)].
Qed.

Theorem conn_closed_is_disconnect n c : conn_closed n c = disconnect n c.
Proof. reflexivity. Qed.

Theorem http_bytes_worker_survives n body : AdminInv n -> snd (http_bytes n body) <> None.
Proof.
  intros Hi. unfold http_bytes. destruct (utf8_valid body); cbn [negb snd]; [|discriminate].
  apply http_request_worker_survives. exact Hi.
Qed.

Theorem http_bytes_inv n body : AdminInv n -> AdminInv (fst (http_bytes n body)).
Proof.
  intros Hi. unfold http_bytes. destruct (utf8_valid body); cbn [negb fst]; [|exact Hi].
  apply http_request_inv. exact Hi.
Qed.

Theorem net_step_safe n e : AdminInv n -> snd (net_step n e) = true /\ AdminInv (fst (net_step n e)).
Proof.
  intros Hi. rewrite net_step_eq. destruct e as [|c b|c b|b|c]; cbn [fst snd].
  - split; [reflexivity|apply connect_inv; exact Hi].
  - rewrite (tcp_line_serving n c b Hi). split; [reflexivity|now apply tcp_line_inv].
  - rewrite (ws_frame_serving n c b Hi). split; [reflexivity|now apply ws_frame_inv].
  - pose proof (http_bytes_worker_survives n b Hi) as H1.
    destruct (snd (http_bytes n b)); [split; [reflexivity|now apply http_bytes_inv]|contradiction].
  - split; [reflexivity|]. unfold conn_closed. apply disconnect_inv. exact Hi.
Qed.

Lemma net_run_cons n e r : fst (net_run n (e :: r)) = fst (net_run (fst (net_step n e)) r).
Proof.
  cbn [net_run]. destruct (net_step n e) as [n1 ok]. cbn [fst]. now destruct (net_run n1 r).
Qed.

(* whatever bytes arrive over the three transports, in any order and on any connections, every
   service thread is still alive afterwards *)
Theorem net_run_safe evs : forall n, AdminInv n -> snd (net_run n evs) = true /\ AdminInv (fst (net_run n evs)).
Proof.
  induction evs as [|e r IH]; intros n Hi; cbn [net_run]; [split; [reflexivity|exact Hi]|].
  destruct (net_step_safe n e Hi) as [H1 H2].
  destruct (net_step n e) as [n1 ok]. cbn [fst snd] in *. subst ok.
  destruct (IH n1 H2) as [H3 H4]. destruct (net_run n1 r) as [n2 ok2]. cbn [fst snd] in *.
  subst ok2. split; [reflexivity|exact H4].
Qed.

Theorem net_run_from_init u p a pid r c0 evs : snd (net_run (init_node u p a pid r c0) evs) = true.
Proof. apply net_run_safe. apply init_inv. Qed.

Theorem net_run_then_step u p a pid r c0 evs c line :
  snd (step (fst (net_run (init_node u p a pid r c0) evs)) c line) <> RPanic.
Proof. apply step_no_panic. apply net_run_safe. apply init_inv. Qed.

Theorem repl_one_survives x msg : cn_dead x = false -> cn_dead (repl_one x msg) = false.
Proof.
  intros Hd. destruct (ClusterProofs.repl_one_cases x msg) as [->|(rq & id & [->|(_ & i & req & all & ->)])]; auto;
    cbn [cn_set_node cn_dead]; now rewrite ClusterProofs.repl_oplog_dead.
Qed.

Theorem poll_repl_survives x : cn_dead x = false -> cn_dead (poll_repl x) = false.
Proof.
  intros Hd. unfold poll_repl.
  assert (H : forall q y, cn_dead y = false -> cn_dead (fold_left repl_one q y) = false).
  { induction q as [|m q IH]; intros y Hy; cbn [fold_left]; [exact Hy|]. apply IH. apply repl_one_survives. exact Hy. }
  apply H. exact Hd.
Qed.
