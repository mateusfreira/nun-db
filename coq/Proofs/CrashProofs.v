(* C11: one equation about the crash semantics of Model/Disk.v (kill on entering the i-th system
   call of one kind) and machine-checked witnesses that the faithful model of the snapshot writer violates the
   property at the recorded sites. *)
From NunDB Require Import Model.Base Model.Parse Model.Node Model.Disk Proofs.StorageLemmas.
Require Import String List NArith ZArith Lia. Import ListNotations.
Open Scope string_scope.
Open Scope list_scope.

(* stated for a queue of one database; the general [dflush_crash_go] (several databases, the count carried
   over) has no lemma: the frame theorems of CrashFrame are per plan *)
Lemma crash_one_db : forall x dbn reclaim d order s i,
  get_db (dn_node x) dbn = Some d ->
  let ops := fst (fst (snapshot_plan d order reclaim (files_of x dbn) (n_clock (dn_node x)))) in
  i <= count_sc s ops ->
  dflush_crash_go x [(dbn, reclaim)] [order] s i =
  assoc_set String.eqb dbn (apply_fops (files_of x dbn) (take_before s i ops)) (dn_files x).
Proof.
  intros x dbn reclaim d order s i Hd ops Hi.
  cbn [dflush_crash_go]. rewrite Hd.
  subst ops. destruct (snapshot_plan d order reclaim (files_of x dbn) (n_clock (dn_node x))) as [[ops mem] clk].
  cbn [fst] in Hi.
  destruct (Nat.ltb (count_sc s ops) i) eqn:E.
  - apply Nat.ltb_lt in E. lia.
  - reflexivity.
Qed.

(* witnesses: the full statement of C11 is false of the faithful model.  The clock 10^18 is a
   19-digit nanosecond time stamp, as the operation ids of a real run *)
Definition w_n0 := init_node "nun" "pwd" "n0:3014" 1000 Primary 1000000000000000000%N.
Definition w_cmds (x : dnode) (ls : list str) : dnode :=
  fold_left (fun x l => mkDN (fst (step (dn_node x) 0 l)) (dn_files x)) ls x.
Definition w_x0 : dnode := mkDN (fst (connect w_n0)) [].
(* a = 1 and b = 2 persisted by a completed snapshot *)
Definition w_before : dnode :=
  dflush (w_cmds w_x0 ["auth nun pwd"; "create-db d1 tok1 newer"; "use-db d1 tok1"; "set a 1"; "set b 2"; "snapshot false d1"])
         [["a"; "b"; "$$token"; "$connections"]].
Definition w_restarted : dnode :=
  match drestart w_before ["d1"] with RNode x => mkDN (fst (connect (dn_node x))) (dn_files x) | RStartPanic => w_before end.
(* the interrupted snapshot writes a = 22 *)
Definition w_incr : dnode := w_cmds w_restarted ["auth nun pwd"; "use-db d1 tok1"; "set a 22"; "snapshot false d1"].
Definition w_recl : dnode := w_cmds w_restarted ["auth nun pwd"; "use-db d1 tok1"; "set a 22"; "snapshot true d1"].
Definition w_get (r : rres) (k : str) : option (option (str * Z)) :=
  match r with
  | RNode x => match get_db (dn_node x) "d1" with
               | Some d => Some (match assoc_get String.eqb k (d_map d) with Some v => Some (v_val v, v_ver v) | None => None end)
               | None => Some None
               end
  | RStartPanic => None
  end.
(* the node handed to [drestart] is the one before the crash: of it [drestart] reads the
   user, password, address, pid, role and clock (the seed of the op ids of the reloaded entries); the
   restarted node is built afresh from the crashed files *)
Definition w_crash (x : dnode) (order : list str) (s : sysc) (i : nat) : rres :=
  drestart (mkDN (dn_node x) (dflush_crash x [order] s i)) ["d1"].

Example w_before_loads : w_get (drestart w_before ["d1"]) "a" = Some (Some ("1", 0%Z)) /\
                         w_get (drestart w_before ["d1"]) "b" = Some (Some ("2", 0%Z)).
Proof. split; vm_compute; reflexivity. Qed.

(* the 99th pwrite does not exist: the process is not killed *)
Example w_complete_loads : w_get (w_crash w_incr ["a"; "$connections"] ScPwrite 99) "a" = Some (Some ("22", 1%Z)).
Proof. vm_compute; reflexivity. Qed.

(* H11.1: the in-place update is two pwrites; between them the new version sits on the old value *)
Example C11_torn_inplace_update_refuted :
  w_get (w_crash w_incr ["a"; "$connections"] ScPwrite 2) "a" = Some (Some ("1", 1%Z)).
Proof. vm_compute; reflexivity. Qed.

(* H11.1/H11.2: the key entry points at a value that is still in the writer's buffer: the
   loader reads past the end of the values file and fabricates a value *)
Example C11_value_not_yet_written_refuted :
  exists v, w_get (w_crash w_incr ["a"; "$connections"] ScPwrite 3) "a" = Some (Some (v, 1%Z)) /\ v <> "1" /\ v <> "22".
Proof. eexists; split; [vm_compute; reflexivity|]. split; discriminate. Qed.

(* H11.3: the reclaiming snapshot renames the key file away and deletes the value file before
   the new ones exist: an untouched, previously persisted key is gone *)
Example C11_reclaim_window_refuted :
  w_get (w_crash w_recl ["a"; "b"; "$connections"; "$$token"] ScWrite 2) "b" = Some None /\
  w_get (w_crash w_recl ["a"; "b"; "$connections"; "$$token"] ScRename 2) "b" = Some None.
Proof. split; vm_compute; reflexivity. Qed.

(* H11.4: a kill in front of the removal of the renamed value file leaves a directory the next
   start panics on *)
Example C11_start_panics_refuted :
  w_crash w_recl ["a"; "b"; "$connections"; "$$token"] ScUnlink 1 = RStartPanic.
Proof. vm_compute; reflexivity. Qed.

(* a kill in front of the very first operation changes nothing *)
Example C11_first_site_harmless :
  w_get (w_crash w_incr ["a"; "$connections"] ScPwrite 1) "a" = Some (Some ("1", 0%Z)) /\
  w_get (w_crash w_recl ["a"; "b"; "$connections"; "$$token"] ScRename 1) "b" = Some (Some ("2", 0%Z)).
Proof. split; vm_compute; reflexivity. Qed.
