(* DiskProofs.v -- C06: "snapshot then restart restores exactly the snapshotted state"
   for the byte-level disk model Model/Disk.v. *)
From NunDB Require Import Model.Base Model.Pending Model.Parse Model.Node Model.Disk Proofs.ListLemmas Proofs.AssocLemmas Proofs.NodeLemmas.
From NunDB Require Export Proofs.StorageLemmas.
From Coq Require Import Lia.
Local Open Scope N_scope.

Lemma take_drop_id n : forall s, str_take n s +++ str_drop n s = s.
Proof. induction n; intros [|a s]; cbn; auto. now rewrite IHn. Qed.

Lemma take_all n : forall s, (len s <= n)%nat -> str_take n s = s.
Proof. induction n; intros [|a s] H; cbn in *; auto; try lia. rewrite IHn; auto. lia. Qed.

Lemma strat_code_roundtrip s : strat_of_code (i32_decode (le_bytes 4 (strat_code s))) = s.
Proof. destruct s; reflexivity. Qed.

Fixpoint scat (l : list str) : str := match l with [] => "" | x :: r => x +++ scat r end.

Lemma scat_app a b : scat (a ++ b) = scat a +++ scat b.
Proof. induction a; cbn; auto. now rewrite IHa, app_assoc_s. Qed.
Lemma scat_snoc F d : scat (F ++ [d]) = scat F +++ d.
Proof. rewrite scat_app. cbn [scat]. now rewrite app_nil_r_s. Qed.

(* the BufWriter hands over whole write() calls only *)
Lemma bw_write_cases buf data b out : bw_write buf data = (b, out) ->
  (out = [] /\ b = buf +++ data) \/ (out = [buf] /\ b = data) \/ (out = [buf; data] /\ b = "") \/
  (out = [data] /\ b = "" /\ buf = "").
Proof.
  unfold bw_write. intros H.
  destruct (Nat.ltb_spec (len data) (bw_cap - len buf)); [injection H as <- <-; auto|].
  destruct (Nat.ltb_spec (bw_cap - len buf) (len data)).
  - destruct (String.eqb_spec buf "") as [->|Hne]; destruct (Nat.leb_spec bw_cap (len data));
      injection H as <- <-; cbn; auto 10.
  - assert (E : len buf = 0%nat -> buf = "") by apply len0_empty.
    destruct (Nat.leb_spec bw_cap (len data)); injection H as <- <-; auto.
    rewrite E by (unfold bw_cap in *; lia). auto 10.
Qed.

Lemma bw_write_spec buf data b out :
  bw_write buf data = (b, out) -> scat out +++ b = buf +++ data.
Proof.
  intros H. destruct (bw_write_cases _ _ _ _ H) as [[-> ->]|[[-> ->]|[[-> ->]|(-> & -> & ->)]]];
    cbn [scat String.append]; now rewrite ?app_nil_r_s.
Qed.

Lemma bw_flush_spec buf : scat (bw_flush buf) = buf.
Proof. unfold bw_flush. destruct (String.eqb_spec buf ""); subst; cbn; auto using app_nil_r_s. Qed.

Lemma fname_eqb_spec a b : reflect (a = b) (fname_eqb a b).
Proof. destruct a, b; cbn; constructor; congruence. Qed.

Definition fcontent (fs : files) (f : fname) : str := match fget fs f with Some s => s | None => "" end.

Lemma fget_set_same f s fs : fget (assoc_set fname_eqb f s fs) f = Some s.
Proof. apply get_set_same, fname_eqb_spec. Qed.
Lemma fget_set_other f g s fs : g <> f -> fget (assoc_set fname_eqb f s fs) g = fget fs g.
Proof. intros. apply get_set_other; auto using fname_eqb_spec. Qed.
Lemma fget_del_same f fs : fget (assoc_del fname_eqb f fs) f = None.
Proof. apply get_del_same. Qed.
Lemma fget_del_other f g fs : g <> f -> fget (assoc_del fname_eqb f fs) g = fget fs g.
Proof. intros. apply get_del_other; auto using fname_eqb_spec. Qed.

Lemma apply_fops_app fs a b : apply_fops fs (a ++ b) = apply_fops (apply_fops fs a) b.
Proof. apply fold_left_app. Qed.
Lemma apply_snoc fs0 ops o : apply_fops fs0 (ops ++ [o]) = apply_fop (apply_fops fs0 ops) o.
Proof. now rewrite apply_fops_app. Qed.

Lemma fget_append_same fs f d s : fget fs f = Some s -> fget (apply_fop fs (OpAppend f d)) f = Some (s +++ d).
Proof. intros H. cbn [apply_fop]. now rewrite fget_set_same, H. Qed.
Lemma fget_writeat_same fs f off d s : fget fs f = Some s ->
  fget (apply_fop fs (OpWriteAt f off d)) f = Some (write_at s (N.to_nat off) d).
Proof. intros H. cbn [apply_fop]. now rewrite fget_set_same, H. Qed.
Lemma fget_create_same fs f : fget (apply_fop fs (OpCreate f)) f = Some (fcontent fs f).
Proof. unfold fcontent. cbn [apply_fop]. destruct (fget fs f) eqn:E; auto. apply fget_set_same. Qed.
Lemma fcontent_append_same fs f d : fcontent (apply_fop fs (OpAppend f d)) f = fcontent fs f +++ d.
Proof. unfold fcontent. cbn [apply_fop]. rewrite fget_set_same. destruct (fget fs f); reflexivity. Qed.
Lemma fcontent_writeat_same fs f off d :
  fcontent (apply_fop fs (OpWriteAt f off d)) f = write_at (fcontent fs f) (N.to_nat off) d.
Proof. unfold fcontent. cbn [apply_fop]. rewrite fget_set_same. destruct (fget fs f); reflexivity. Qed.
Lemma fsize_fcontent fs f : fsize fs f = slen (fcontent fs f).
Proof. unfold fsize, fcontent. destruct (fget fs f); reflexivity. Qed.
Lemma fget_set_some f g s fs : fget fs f <> None -> fget (assoc_set fname_eqb g s fs) f <> None.
Proof.
  intros H. destruct (fname_eqb_spec f g) as [->|Hn].
  - rewrite fget_set_same. discriminate.
  - now rewrite fget_set_other.
Qed.

(* the footprint of an operation: the files whose existence or bytes it can change *)
Definition footprint (f : fname) (o : fop) : bool :=
  match o with
  | OpRename a b => fname_eqb f a || fname_eqb f b
  | OpRemove g | OpCreate g | OpAppend g _ | OpWriteAt g _ _ => fname_eqb f g
  end.

Lemma fname_neq f g : fname_eqb f g = false -> f <> g.
Proof. destruct (fname_eqb_spec f g); congruence. Qed.

Lemma fget_untouched_op fs o f : footprint f o = false -> fget (apply_fop fs o) f = fget fs f.
Proof.
  destruct o as [a b|g|g|g d|g off d]; cbn [footprint apply_fop]; intros H.
  - apply orb_false_iff in H. destruct H as [Ha Hb]. destruct (fget fs a); auto.
    now rewrite fget_set_other, fget_del_other by now apply fname_neq.
  - now apply fget_del_other, fname_neq.
  - destruct (fget fs g); auto. now apply fget_set_other, fname_neq.
  - now apply fget_set_other, fname_neq.
  - now apply fget_set_other, fname_neq.
Qed.

Lemma fget_untouched ops f : forall fs, existsb (footprint f) ops = false -> fget (apply_fops fs ops) f = fget fs f.
Proof.
  induction ops as [|o t IH]; intros fs H; cbn [existsb apply_fops fold_left] in *; auto.
  apply orb_false_iff in H. destruct H as [Ho Ht]. unfold apply_fops in IH. rewrite IH by exact Ht.
  now apply fget_untouched_op.
Qed.

Lemma footprint_emit f g out : g <> f -> existsb (footprint g) (emit f out) = false.
Proof.
  intros Hn. induction out as [|c out IH]; cbn [emit map existsb footprint]; auto.
  destruct (fname_eqb_spec g f); [contradiction|exact IH].
Qed.

Lemma fget_emit_same f out : forall fs s, fget fs f = Some s ->
  fget (apply_fops fs (emit f out)) f = Some (s +++ scat out).
Proof.
  induction out as [|c out IH]; intros fs s H; cbn [emit map scat apply_fops fold_left].
  - now rewrite app_nil_r_s.
  - unfold emit, apply_fops in IH. rewrite (IH _ (s +++ c)).
    + now rewrite app_assoc_s.
    + now apply fget_append_same.
Qed.
Lemma fget_emit_other f g out : g <> f -> forall fs, fget (apply_fops fs (emit f out)) g = fget fs g.
Proof. intros Hn fs. now apply fget_untouched, footprint_emit. Qed.

(* open(create) changes no file's content; for every other operation the footprint decides *)
Definition rewrites_file (f : fname) (o : fop) : bool := match o with OpCreate _ => false | _ => footprint f o end.

Lemma fcontent_unwritten_op fs o f : rewrites_file f o = false -> fcontent (apply_fop fs o) f = fcontent fs f.
Proof.
  intros H. unfold fcontent at 1. destruct o as [a b|g|g|g d|g off d]; try now rewrite fget_untouched_op.
  destruct (fname_eqb_spec f g) as [->|Hn]; [now rewrite fget_create_same|].
  rewrite fget_untouched_op; [reflexivity|]. cbn. now destruct (fname_eqb_spec f g).
Qed.

(* an annotated key record: key, version, value address, and the value stored there *)
Record arec := mkR { r_key : str; r_ver : Z; r_va : N; r_val : str }.

Definition krec (r : arec) : str :=
  le_bytes 8 (slen (r_key r)) +++ r_key r +++ i32_bytes (r_ver r) +++ le_bytes 8 (r_va r).
Definition vrec (v : str) : str := le_bytes 8 (slen v) +++ v +++ le_bytes 4 0.
Definition rsize (r : arec) : N := 8 + slen (r_key r) + 8 + 4.
Fixpoint kcat (l : list arec) : str := match l with [] => "" | r :: t => krec r +++ kcat t end.
Fixpoint ksize (l : list arec) : N := match l with [] => 0 | r :: t => rsize r + ksize t end.

Definition str_ok (s : str) : Prop := utf8_valid s = true /\ slen s <= max_alloc.
Definition has_at (s : str) (off : N) (d : str) : Prop :=
  exists pre post, s = pre +++ d +++ post /\ slen pre = off.
Definition i32_range (z : Z) : Prop := (-2147483648 <= z <= 2147483647)%Z.
Definition ver_ok (z : Z) : Prop := (0 <= z <= i32_max)%Z.
Definition rver_ok (z : Z) : Prop := z = (-1)%Z \/ ver_ok z.
Lemma rver_ok_range z : rver_ok z -> i32_range z.
Proof. unfold rver_ok, ver_ok, i32_range, i32_max. lia. Qed.
Definition rec_ok (V : str) (r : arec) : Prop :=
  str_ok (r_key r) /\ str_ok (r_val r) /\ has_at V (r_va r) (vrec (r_val r)) /\ rver_ok (r_ver r).

Lemma slen_krec r : slen (krec r) = rsize r.
Proof.
  unfold krec, rsize, slen. rewrite !str_length_app, !len_le_bytes, len_i32_bytes. lia.
Qed.
Lemma slen_vrec v : slen (vrec v) = 8 + slen v + 4.
Proof. unfold vrec, slen. rewrite !str_length_app, !len_le_bytes. lia. Qed.
Lemma len_krec r : len (krec r) = N.to_nat (rsize r).
Proof. rewrite <- slen_krec. unfold slen. lia. Qed.
Lemma slen_kcat l : slen (kcat l) = ksize l.
Proof. induction l; cbn [kcat ksize]; [reflexivity|]. rewrite slen_app, slen_krec, IHl. reflexivity. Qed.
Lemma kcat_app a b : kcat (a ++ b) = kcat a +++ kcat b.
Proof. induction a; cbn [app kcat String.append]; auto. now rewrite IHa, app_assoc_s. Qed.
Lemma ksize_app a b : ksize (a ++ b) = ksize a + ksize b.
Proof. induction a; cbn [app ksize]; auto. rewrite IHa. lia. Qed.
Lemma rsize_pos r : 20 <= rsize r.
Proof. unfold rsize. lia. Qed.
Lemma length_le_ksize l : N.of_nat (length l) <= ksize l.
Proof. induction l; cbn [length ksize]; [lia|]. pose proof (rsize_pos a). lia. Qed.
Lemma length_le_len_kcat l : (length l <= len (kcat l))%nat.
Proof. pose proof (length_le_ksize l) as H. rewrite <- slen_kcat in H. unfold slen in H. lia. Qed.

Lemma has_at_app s t off d : has_at s off d -> has_at (s +++ t) off d.
Proof.
  intros (pre & post & -> & H). exists pre, (post +++ t). split; auto.
  now rewrite !app_assoc_s.
Qed.
Lemma has_at_end s d : has_at (s +++ d) (slen s) d.
Proof. exists s, "". now rewrite app_nil_r_s. Qed.
Lemma has_at_bound s off d : has_at s off d -> off + slen d <= slen s.
Proof. intros (pre & post & -> & <-). rewrite !slen_app. lia. Qed.
Lemma rec_ok_app V t r : rec_ok V r -> rec_ok (V +++ t) r.
Proof. intros (a & b & c & d). split; [|split; [|split]]; auto. now apply has_at_app. Qed.

(* what the loader computes, on the abstract record list *)
Fixpoint load_abs (recs : list arec) (kaddr : N) (m : list (str * value)) (clk : N) : list (str * value) :=
  match recs with
  | [] => m
  | r :: t =>
      load_abs t (kaddr + rsize r)
        (if Z.eqb (r_ver r) (-1) then m
         else assoc_set String.eqb (r_key r) (mkV (r_val r) (r_ver r) clk VOk (r_va r) kaddr) m)
        (clk + 1)
  end.

Definition two64 : N := 18446744073709551616.

(* what the loader needs of a record: key and value are loadable strings, the length and the bytes
   of the value stand at the value address (the status bytes after them are never read) *)
Definition has_val (V : str) (va : N) (v : str) : Prop :=
  exists pre post, V = pre +++ le_bytes 8 (slen v) +++ v +++ post /\ slen pre = va.
Definition rec_readable (V : str) (r : arec) : Prop :=
  str_ok (r_key r) /\ str_ok (r_val r) /\ has_val V (r_va r) (r_val r) /\ i32_range (r_ver r).

Lemma has_at_val V a v : has_at V a (vrec v) -> has_val V a v.
Proof. intros (pre & post & -> & H). exists pre, (le_bytes 4 0 +++ post). unfold vrec. now rewrite !app_assoc_s. Qed.
Lemma has_val_bound V a v : has_val V a v -> a + 8 + slen v <= slen V.
Proof. intros (pre & post & -> & <-). rewrite !slen_app. unfold slen. rewrite len_le_bytes. lia. Qed.
Lemma rec_ok_readable V r : rec_ok V r -> rec_readable V r.
Proof. intros (a & b & c & d). split; [|split; [|split]]; auto using has_at_val, rver_ok_range. Qed.

(* the loader's three reusable buffers have their fixed lengths *)
Definition bufs_ok (st : lstate) : Prop :=
  len (l_lenbuf st) = 8%nat /\ len (l_verbuf st) = 4%nat /\ len (l_addrbuf st) = 8%nat.

Lemma krec_reads K pre r post lb vb ab :
  K = pre +++ krec r +++ post -> len lb = 8%nat -> len vb = 4%nat -> len ab = 8%nat ->
  read_into K (len pre) lb = (le_bytes 8 (slen (r_key r)), 8%nat) /\
  read_into K (len pre + 8) (zeros (N.to_nat (slen (r_key r)))) = (r_key r, len (r_key r)) /\
  read_into K (len pre + 8 + len (r_key r)) vb = (i32_bytes (r_ver r), 4%nat) /\
  read_into K (len pre + 8 + len (r_key r) + 4) ab = (le_bytes 8 (r_va r), 8%nat).
Proof.
  intros HK Hl Hv Ha.
  destruct (reads_intro [le_bytes 8 (slen (r_key r)); r_key r; i32_bytes (r_ver r); le_bytes 8 (r_va r)] K pre post)
    as (R1 & R2 & R3 & R4 & _).
  { rewrite HK. unfold krec. cbn [fold_right]. now rewrite !app_assoc_s. }
  rewrite !len_le_bytes, len_i32_bytes in *.
  repeat split; [apply R1|apply R2|apply R3|apply R4]; auto. rewrite len_zeros. unfold slen. lia.
Qed.

Lemma val_reads V a v lb : has_val V a v -> len lb = 8%nat ->
  read_into V (N.to_nat a) lb = (le_bytes 8 (slen v), 8%nat) /\
  read_into V (N.to_nat a + 8) (zeros (N.to_nat (slen v))) = (v, len v).
Proof.
  intros (pre & post & -> & <-) Hl.
  destruct (reads_intro [le_bytes 8 (slen v); v] _ pre post eq_refl) as (R1 & R2 & _).
  rewrite len_le_bytes in *. replace (N.to_nat (slen pre)) with (len pre) by (unfold slen; lia).
  split; [now apply R1|apply R2]. rewrite len_zeros. unfold slen. lia.
Qed.

Lemma load_step_reads K V st lb n klen kb kn vb vn ab an va lb2 x vlen vbytes y :
  read_into K (l_pos st) (l_lenbuf st) = (lb, S n) -> le_decode lb = klen -> klen <= max_alloc ->
  read_into K (l_pos st + S n) (zeros (N.to_nat klen)) = (kb, kn) ->
  read_into K (l_pos st + S n + kn) (l_verbuf st) = (vb, vn) ->
  read_into K (l_pos st + S n + kn + vn) (l_addrbuf st) = (ab, an) -> le_decode ab = va ->
  read_into V (N.to_nat va) lb = (lb2, x) -> le_decode lb2 = vlen ->
  read_into V (N.to_nat va + 8) (zeros (N.to_nat vlen)) = (vbytes, y) ->
  load_step K V st =
  if negb (utf8_valid kb) || N.ltb max_alloc vlen || negb (utf8_valid vbytes) then inr LPanic
  else inl (mkL (l_pos st + S n + kn + vn + an) lb2 vb ab (l_kaddr st + (8 + klen + 8 + 4))
                (if Z.eqb (i32_decode vb) (-1) then l_map st
                 else assoc_set String.eqb kb (mkV vbytes (i32_decode vb) (l_clock st) VOk va (l_kaddr st)) (l_map st))
                (l_clock st + 1)).
Proof.
  intros H1 <- Hle H2 H3 H4 <- H5 <- H6. unfold load_step. rewrite H1. cbv beta iota zeta. cbn [Nat.eqb].
  destruct (N.ltb_spec max_alloc (le_decode lb)); [lia|].
  rewrite H2. cbv beta iota zeta. destruct (utf8_valid kb); cbn [negb orb]; [|reflexivity].
  rewrite H3. cbv beta iota zeta. rewrite H4. cbv beta iota zeta. rewrite H5. cbv beta iota zeta.
  destruct (N.ltb max_alloc (le_decode lb2)); [reflexivity|].
  rewrite H6. cbv beta iota zeta. destruct (utf8_valid vbytes); reflexivity.
Qed.

(* the loader after one whole key record r read at the end position pos: lb2 is what the value read
   left in the length buffer, (vbytes, ver, va) the value, version and address it decoded *)
Definition rec_step (st : lstate) (pos : nat) (r : arec) (lb2 vbytes : str) (ver : Z) (va : N) : lstate :=
  mkL pos lb2 (i32_bytes (r_ver r)) (le_bytes 8 (r_va r)) (l_kaddr st + rsize r)
      (if Z.eqb ver (-1) then l_map st
       else assoc_set String.eqb (r_key r) (mkV vbytes ver (l_clock st) VOk va (l_kaddr st)) (l_map st))
      (l_clock st + 1).

Lemma rec_step_ok st pos r lb2 vbytes ver va : len lb2 = 8%nat -> bufs_ok (rec_step st pos r lb2 vbytes ver va).
Proof. intros H. repeat split; cbn; auto using len_le_bytes, len_i32_bytes. Qed.

Lemma load_step_krec K V st pre r post va lb2 x vlen vbytes y :
  K = pre +++ krec r +++ post -> l_pos st = len pre -> bufs_ok st -> slen (r_key r) <= max_alloc ->
  le_decode (le_bytes 8 (r_va r)) = va ->
  read_into V (N.to_nat va) (le_bytes 8 (slen (r_key r))) = (lb2, x) -> le_decode lb2 = vlen ->
  read_into V (N.to_nat va + 8) (zeros (N.to_nat vlen)) = (vbytes, y) ->
  load_step K V st =
  if negb (utf8_valid (r_key r)) || N.ltb max_alloc vlen || negb (utf8_valid vbytes) then inr LPanic
  else inl (rec_step st (len (pre +++ krec r)) r lb2 vbytes (i32_decode (i32_bytes (r_ver r))) va).
Proof.
  intros HK Hpos (Hl & Hv & Ha) Hkl Eva H5 Evl H6. pose proof max_alloc_lt.
  destruct (krec_reads K pre r post _ _ _ HK Hl Hv Ha) as (H1 & H2 & H3 & H4). rewrite <- Hpos in *.
  rewrite (load_step_reads K V st _ _ (slen (r_key r)) _ _ _ _ _ _ _ _ _ _ _ _ H1 (le_decode_8 (slen (r_key r)) ltac:(lia)) Hkl H2 H3 H4 Eva H5 Evl H6).
  replace (l_pos st + 8 + len (r_key r) + 4 + 8)%nat with (len (pre +++ krec r)); [reflexivity|].
  rewrite str_length_app, len_krec, Hpos. unfold rsize, slen. lia.
Qed.

Lemma load_step_rec K V st pre r post :
  K = pre +++ krec r +++ post -> l_pos st = len pre -> bufs_ok st ->
  rec_readable V r -> r_va r < two64 ->
  load_step K V st =
  inl (rec_step st (len (pre +++ krec r)) r (le_bytes 8 (slen (r_val r))) (r_val r) (r_ver r) (r_va r)).
Proof.
  intros HK Hpos Hst ((Hku & Hkl) & (Hvu & Hvl) & Hat & Hver) Hva. pose proof max_alloc_lt.
  destruct (val_reads V (r_va r) (r_val r) (le_bytes 8 (slen (r_key r))) Hat (len_le_bytes _ _)) as [H5 H6].
  rewrite (load_step_krec K V st pre r post _ _ _ (slen (r_val r)) _ _ HK Hpos Hst Hkl
             (le_decode_8 _ Hva) H5 (le_decode_8 (slen (r_val r)) ltac:(lia)) H6).
  rewrite Hku, Hvu. destruct (N.ltb_spec max_alloc (slen (r_val r))); [lia|].
  now rewrite i32_decode_bytes by exact Hver.
Qed.

Lemma load_step_end K V st : l_pos st = len K ->
  load_step K V st = inr (LOk (l_map st) (l_clock st)).
Proof. intros H. unfold load_step. rewrite read_into_eof by lia. reflexivity. Qed.
Lemma load_end K V st fuel : l_pos st = len K -> (1 <= fuel)%nat ->
  load_loop fuel K V st = LOk (l_map st) (l_clock st).
Proof. intros H Hf. destruct fuel; [lia|]. cbn [load_loop]. now rewrite load_step_end. Qed.

Lemma load_loop_recs V : slen V < two64 ->
  forall recs fuel K pre st,
  K = pre +++ kcat recs -> l_pos st = len pre -> bufs_ok st ->
  Forall (rec_readable V) recs -> (length recs < fuel)%nat ->
  load_loop fuel K V st =
  LOk (load_abs recs (l_kaddr st) (l_map st) (l_clock st)) (l_clock st + N.of_nat (length recs)).
Proof.
  intros HV. induction recs as [|r t IH]; intros fuel K pre st HK Hpos Hst Hok Hf;
    (destruct fuel; [cbn in Hf; lia|]); cbn [load_loop kcat] in *.
  - rewrite load_step_end by (now rewrite HK, app_nil_r_s). cbn. f_equal. lia.
  - apply Forall_cons_iff in Hok. destruct Hok as [Hr Ht].
    rewrite (load_step_rec K V st pre r (kcat t)); auto.
    + rewrite (IH fuel K (pre +++ krec r)); cbn [rec_step l_pos l_kaddr l_map l_clock length] in *;
        [cbn [load_abs]; f_equal; lia|now rewrite app_assoc_s|reflexivity| |assumption|lia].
      apply rec_step_ok, len_le_bytes.
    + destruct Hr as (_ & _ & Hat & _). apply has_val_bound in Hat. lia.
Qed.

(* [rec_at recs s off q]: q is the record that starts at byte off when recs starts at byte s *)
Fixpoint rec_at (recs : list arec) (s off : N) (q : arec) : Prop :=
  match recs with
  | [] => False
  | x :: t => (off = s /\ q = x) \/ rec_at t (s + rsize x) off q
  end.

Lemma rec_at_ge recs : forall s off q, rec_at recs s off q -> s <= off.
Proof.
  induction recs as [|x t IH]; intros s off q H; cbn [rec_at] in H; [tauto|].
  destruct H as [[-> _]|H]; [lia|]. apply IH in H. lia.
Qed.

Lemma rec_at_end recs : forall s off q, rec_at recs s off q -> off + rsize q <= s + ksize recs.
Proof.
  induction recs as [|x t IH]; intros s off q H; cbn [rec_at ksize] in *; [tauto|].
  destruct H as [[-> ->]|H]; [lia|]. apply IH in H. lia.
Qed.

Lemma rec_at_in recs : forall s off q, rec_at recs s off q -> In q recs.
Proof.
  induction recs as [|x t IH]; intros s off q H; cbn [rec_at] in H; [tauto|].
  destruct H as [[_ ->]|H]; [now left|]. right. eauto.
Qed.

Lemma rec_at_fun recs : forall s off q q', rec_at recs s off q -> rec_at recs s off q' -> q = q'.
Proof.
  induction recs as [|x t IH]; intros s off q q' H H'; cbn [rec_at] in *; [tauto|].
  pose proof (rsize_pos x).
  destruct H as [[-> ->]|H]; destruct H' as [[E ->]|H']; auto.
  - apply rec_at_ge in H'. lia.
  - apply rec_at_ge in H. lia.
  - eauto.
Qed.

Lemma rec_at_snoc recs x : forall s off q,
  rec_at (recs ++ [x]) s off q <-> rec_at recs s off q \/ (off = s + ksize recs /\ q = x).
Proof.
  induction recs as [|y t IH]; intros s off q; cbn [app rec_at ksize].
  - rewrite N.add_0_r. tauto.
  - rewrite IH. rewrite N.add_assoc. tauto.
Qed.

(* the list with the record at off replaced by r' (used with the same key, hence the same size) *)
Fixpoint rupd (recs : list arec) (s off : N) (r' : arec) : list arec :=
  match recs with
  | [] => []
  | x :: t => if N.eqb off s then r' :: t else x :: rupd t (s + rsize x) off r'
  end.

Lemma rsize_key r r' : r_key r' = r_key r -> rsize r' = rsize r.
Proof. unfold rsize. now intros ->. Qed.

Lemma rec_at_rupd recs : forall s off r r', rec_at recs s off r -> r_key r' = r_key r ->
  forall off' q, rec_at (rupd recs s off r') s off' q <->
                 (off' = off /\ q = r') \/ (off' <> off /\ rec_at recs s off' q).
Proof.
  induction recs as [|x t IH]; intros s off r r' H Hk off' q; cbn [rec_at rupd] in *; [tauto|].
  pose proof (rsize_pos x).
  destruct H as [[-> ->]|H].
  - rewrite N.eqb_refl. cbn [rec_at]. rewrite (rsize_key _ _ Hk).
    split.
    + intros [[-> ->]|H']; [now left|]. right. pose proof (rec_at_ge _ _ _ _ H'). split; [lia|now right].
    + intros [[-> ->]|[Hn [[E _]|H']]]; [now left|lia|now right].
  - pose proof (rec_at_ge _ _ _ _ H).
    destruct (N.eqb_spec off s); [lia|]. cbn [rec_at]. rewrite (IH _ _ _ _ H Hk).
    split.
    + intros [[-> ->]|[[-> ->]|[Hn H']]]; [right; split; [lia|now left] | now left | right; split; auto].
    + intros [[-> ->]|[Hn [[-> ->]|H']]]; [right; now left | now left | right; right; auto].
Qed.

Lemma ksize_rupd recs : forall s off r r', rec_at recs s off r -> r_key r' = r_key r ->
  ksize (rupd recs s off r') = ksize recs.
Proof.
  induction recs as [|x t IH]; intros s off r r' H Hk; cbn [rec_at rupd ksize] in *; [tauto|].
  pose proof (rsize_pos x).
  destruct H as [[-> ->]|H].
  - rewrite N.eqb_refl. cbn [ksize]. now rewrite (rsize_key _ _ Hk).
  - pose proof (rec_at_ge _ _ _ _ H). destruct (N.eqb_spec off s); [lia|]. cbn [ksize].
    now rewrite (IH _ _ _ _ H Hk).
Qed.

Lemma Forall_rupd (P : arec -> Prop) recs : forall s off r', Forall P recs -> P r' -> Forall P (rupd recs s off r').
Proof.
  induction recs as [|x t IH]; intros s off r' H Hr; cbn [rupd]; auto.
  apply Forall_cons_iff in H. destruct H as [Hx Ht].
  destruct (N.eqb off s); constructor; auto.
Qed.

(* a pwrite of the version field (at byte 8 + |key| of the record), or of the address field (4 bytes
   further), replaces that field of the record and nothing else: group what stands before the field
   inside the record, then [write_at_field] *)
Lemma krec_write_ver pre r post z :
  write_at (pre +++ krec r +++ post) (N.to_nat (slen pre + 8 + slen (r_key r))) (i32_bytes z)
  = pre +++ krec (mkR (r_key r) z (r_va r) (r_val r)) +++ post.
Proof.
  unfold krec. cbn [r_key r_ver r_va]. rewrite !app_assoc_s, <- !(app_assoc_s _ (r_key r)).
  apply write_at_field; [now rewrite !len_i32_bytes|]. rewrite str_length_app, len_le_bytes. unfold slen. lia.
Qed.
Lemma krec_write_va pre r post a :
  write_at (pre +++ krec r +++ post) (N.to_nat (slen pre + 8 + slen (r_key r) + 4)) (le_bytes 8 a)
  = pre +++ krec (mkR (r_key r) (r_ver r) a (r_val r)) +++ post.
Proof.
  unfold krec. cbn [r_key r_ver r_va].
  rewrite !app_assoc_s, <- !(app_assoc_s _ (r_key r)), <- !(app_assoc_s _ (i32_bytes _)).
  apply write_at_field; [now rewrite !len_le_bytes|].
  rewrite !str_length_app, len_le_bytes, len_i32_bytes. unfold slen. lia.
Qed.

(* the two pwrites of update_key turn the record at [off] into r' *)
Lemma kcat_rupd recs : forall s off r r' pre, rec_at recs s off r -> r_key r' = r_key r -> slen pre = s ->
  write_at (write_at (pre +++ kcat recs) (N.to_nat (off + 8 + slen (r_key r))) (i32_bytes (r_ver r')))
           (N.to_nat (off + 8 + slen (r_key r) + 4)) (le_bytes 8 (r_va r'))
  = pre +++ kcat (rupd recs s off r').
Proof.
  induction recs as [|x t IH]; intros s off r r' pre H Hk Hs; cbn [rec_at rupd kcat] in *; [tauto|].
  pose proof (rsize_pos x).
  destruct H as [[-> ->]|H].
  - rewrite N.eqb_refl, <- Hs. cbn [kcat].
    rewrite krec_write_ver, (krec_write_va pre (mkR (r_key x) (r_ver r') (r_va x) (r_val x))).
    unfold krec. cbn [r_key r_ver r_va]. now rewrite Hk.
  - pose proof (rec_at_ge _ _ _ _ H). destruct (N.eqb_spec off s); [lia|]. cbn [kcat].
    rewrite <- !app_assoc_s. rewrite (IH (s + rsize x) off r r' (pre +++ krec x)); auto.
    rewrite slen_app, slen_krec. lia.
Qed.

(* every record of key k has version -1; every one but the record at o *)
Definition all_dead (recs : list arec) (s : N) (k : str) : Prop :=
  forall off q, rec_at recs s off q -> r_key q = k -> r_ver q = (-1)%Z.
Definition dead_except (recs : list arec) (s : N) (k : str) (o : N) : Prop :=
  forall off q, rec_at recs s off q -> r_key q = k -> off <> o -> r_ver q = (-1)%Z.

Lemma load_abs_dead recs : forall s m clk k, all_dead recs s k ->
  assoc_get String.eqb k (load_abs recs s m clk) = assoc_get String.eqb k m.
Proof.
  induction recs as [|x t IH]; intros s m clk k H; cbn [load_abs]; auto.
  unfold all_dead in H.
  rewrite IH.
  - destruct (Z.eqb_spec (r_ver x) (-1)) as [e|n]; auto.
    apply str_get_set_other; auto.
    intros ->. apply n. apply (H s x); auto. cbn [rec_at]. now left.
  - intros off q Hq Hk. apply (H off q); auto. cbn [rec_at]. now right.
Qed.

Lemma load_abs_live recs : forall s m clk k off q,
  rec_at recs s off q -> r_key q = k -> r_ver q <> (-1)%Z -> dead_except recs s k off ->
  exists opp, assoc_get String.eqb k (load_abs recs s m clk) = Some (mkV (r_val q) (r_ver q) opp VOk (r_va q) off).
Proof.
  induction recs as [|x t IH]; intros s m clk k off q H Hk Hv Hd; cbn [rec_at load_abs] in *; [tauto|].
  pose proof (rsize_pos x).
  destruct H as [[-> ->]|H].
  - exists clk. rewrite load_abs_dead.
    + destruct (Z.eqb_spec (r_ver x) (-1)); [contradiction|]. rewrite Hk.
      apply str_get_set_same.
    + intros off' q' Hq' Hk'. apply (Hd off' q'); auto. cbn [rec_at]. now right.
      apply rec_at_ge in Hq'. lia.
  - eapply IH; eauto.
    intros off' q' Hq' Hk' Hn. apply (Hd off' q'); auto. cbn [rec_at]. now right.
Qed.

Definition on_disk (st : vstate) : bool := match st with VNew => false | _ => true end.

(* per key: a key that memory believes to be on disk (VOk/VUpdated/VDeleted) has a record at
   v_kaddr, every other record of that key is dead (version -1); for VOk the record agrees with
   memory.  A key that is absent or VNew has only dead records. *)
Definition key_ok (mem : list (str * value)) (recs : list arec) (k : str) : Prop :=
  match assoc_get String.eqb k mem with
  | Some mv =>
      if on_disk (v_st mv) then
        (exists q, rec_at recs 0 (v_kaddr mv) q /\ r_key q = k /\
                   (v_st mv = VOk -> r_ver q = v_ver mv /\ r_va q = v_vaddr mv /\ r_val q = v_val mv)) /\
        dead_except recs 0 k (v_kaddr mv)
      else all_dead recs 0 k
  | None => all_dead recs 0 k
  end.

(* additionally true right after a snapshot: nothing is pending *)
Definition key_synced (mem : list (str * value)) (recs : list arec) (k : str) : Prop :=
  match assoc_get String.eqb k mem with
  | Some mv => match v_st mv with VOk => True | VDeleted => all_dead recs 0 k | _ => False end
  | None => True
  end.

Definition mem_ok (mem : list (str * value)) : Prop :=
  forall k mv, assoc_get String.eqb k mem = Some mv -> str_ok k /\ str_ok (v_val mv) /\ ver_ok (v_ver mv).
(* a values file that is not empty starts with a well-formed record: update_key stores the address 0
   in a tombstone's key record, and the loader reads there ([vhead_of_rec]) *)
Definition vhead_ok (V : str) : Prop := V = "" \/ exists v, str_ok v /\ has_at V 0 (vrec v).

(* the memory map against the records of the keys file and the values file *)
Record Inv (mem : list (str * value)) (recs : list arec) (V : str) : Prop := mkInv {
  inv_keys : forall k, key_ok mem recs k;
  inv_mem : mem_ok mem;
  inv_nodup : NoDup (map fst mem);
  inv_recs : Forall (rec_ok V) recs;
  inv_vhead : vhead_ok V }.

(* [m] (the loader's result) is exactly the live part of [mem] *)
Definition restored (mem m : list (str * value)) : Prop :=
  forall k,
    match assoc_get String.eqb k mem with
    | Some mv =>
        match v_st mv with
        | VOk => exists mv', assoc_get String.eqb k m = Some mv' /\
                             v_val mv' = v_val mv /\ v_ver mv' = v_ver mv /\ v_st mv' = VOk /\
                             v_vaddr mv' = v_vaddr mv /\ v_kaddr mv' = v_kaddr mv
        | _ => assoc_get String.eqb k m = None
        end
    | None => assoc_get String.eqb k m = None
    end.

Lemma ver_ok_not_dead z : ver_ok z -> z <> (-1)%Z.
Proof. unfold ver_ok. lia. Qed.

Theorem restored_after_sync mem recs V clk :
  Inv mem recs V -> (forall k, key_synced mem recs k) -> restored mem (load_abs recs 0 [] clk).
Proof.
  intros HI HS k. pose proof (inv_keys _ _ _ HI k) as Hk. pose proof (HS k) as Hs.
  pose proof (inv_mem _ _ _ HI k) as Hm.
  unfold key_ok, key_synced in *.
  destruct (assoc_get String.eqb k mem) as [mv|] eqn:E.
  - destruct (Hm mv eq_refl) as (_ & _ & Hver).
    destruct (v_st mv) eqn:Est; cbn [on_disk] in Hk; try contradiction.
    + destruct Hk as [(q & Hq & Hqk & Hagree) Hd].
      destruct (Hagree eq_refl) as (E1 & E2 & E3).
      destruct (load_abs_live recs 0 [] clk k (v_kaddr mv) q) as [opp Hl]; auto.
      { rewrite E1. now apply ver_ok_not_dead. }
      rewrite Hl. eexists. split; [reflexivity|]. cbn. auto.
    + now rewrite load_abs_dead.
  - now rewrite load_abs_dead.
Qed.

Lemma uniq_live mem recs k : key_ok mem recs k ->
  all_dead recs 0 k \/
  exists off q, rec_at recs 0 off q /\ r_key q = k /\ r_ver q <> (-1)%Z /\ dead_except recs 0 k off.
Proof.
  unfold key_ok. destruct (assoc_get String.eqb k mem) as [mv|]; auto.
  destruct (on_disk (v_st mv)); auto.
  intros [(q & Hq & Hqk & _) Hd].
  destruct (Z.eq_dec (r_ver q) (-1)) as [E|E].
  - left. intros off q' Hq' Hk'. destruct (N.eq_dec off (v_kaddr mv)) as [->|Hn].
    + now rewrite (rec_at_fun _ _ _ _ _ Hq' Hq).
    + eapply Hd; eauto.
  - right. eauto 10.
Qed.

Lemma nodup_load_abs recs : forall s m clk, NoDup (map fst m) -> NoDup (map fst (load_abs recs s m clk)).
Proof.
  induction recs as [|x t IH]; intros s m clk H; cbn [load_abs]; auto.
  apply IH. destruct (Z.eqb (r_ver x) (-1)); auto. apply str_nodup_set; auto.
Qed.

Lemma Inv_restart mem recs V clk : Inv mem recs V -> Inv (load_abs recs 0 [] clk) recs V.
Proof.
  intros HI.
  assert (Hchar : forall k,
    (all_dead recs 0 k /\ assoc_get String.eqb k (load_abs recs 0 [] clk) = None) \/
    (exists off q opp, rec_at recs 0 off q /\ r_key q = k /\ r_ver q <> (-1)%Z /\ dead_except recs 0 k off /\
       assoc_get String.eqb k (load_abs recs 0 [] clk) = Some (mkV (r_val q) (r_ver q) opp VOk (r_va q) off))).
  { intros k. destruct (uniq_live _ _ _ (inv_keys _ _ _ HI k)) as [Hd|(off & q & Hq & Hk & Hv & Hd)].
    - left. split; auto. now rewrite load_abs_dead.
    - right. destruct (load_abs_live recs 0 [] clk k off q Hq Hk Hv Hd) as [opp Ho]. eauto 10. }
  constructor.
  - intros k. unfold key_ok. destruct (Hchar k) as [[Hd ->]|(off & q & opp & Hq & Hk & Hv & Hd & ->)]; auto.
    cbn [v_st on_disk v_kaddr v_ver v_vaddr v_val]. split; auto. exists q. auto.
  - intros k mv Hg. destruct (Hchar k) as [[Hd E]|(off & q & opp & Hq & Hk & Hv & Hd & E)]; [congruence|].
    rewrite E in Hg. inversion Hg; subst mv. cbn [v_val v_ver].
    pose proof (rec_at_in _ _ _ _ Hq) as Hin.
    pose proof (proj1 (Forall_forall _ _) (inv_recs _ _ _ HI) _ Hin) as (Hkey & Hval & _ & Hrv).
    rewrite Hk in Hkey. repeat split; try apply Hkey; try apply Hval; destruct Hrv as [?|[? ?]]; auto; contradiction.
  - apply nodup_load_abs. constructor.
  - apply (inv_recs _ _ _ HI).
  - apply (inv_vhead _ _ _ HI).
Qed.

Fixpoint all_ascii (s : str) : bool :=
  match s with EmptyString => true | String a r => N.ltb (N_of_ascii a) 128 && all_ascii r end.

Lemma utf8_valid_fuel_ascii f : forall s, all_ascii s = true -> utf8_valid_fuel f s = true.
Proof.
  induction f; intros s H; cbn [utf8_valid_fuel]; auto.
  destruct s as [|a r]; auto. cbn [all_ascii] in H. apply andb_true_iff in H. destruct H as [H1 H2].
  rewrite H1. auto.
Qed.
Lemma utf8_valid_ascii s : all_ascii s = true -> utf8_valid s = true.
Proof. apply utf8_valid_fuel_ascii. Qed.
Lemma utf8_zeros n : utf8_valid (zeros n) = true.
Proof. apply utf8_valid_ascii. induction n; cbn; auto. Qed.

Lemma all_ascii_uint u : all_ascii (NilEmpty.string_of_uint u) = true.
Proof. induction u; cbn [NilEmpty.string_of_uint all_ascii]; auto. Qed.

Lemma str_ok_Z_to_str z : i32_range z -> str_ok (Z_to_str z).
Proof.
  unfold i32_range. intros H.
  (* below 2^32: at most 32 binary digits, hence at most 32 decimal ones *)
  assert (Hlen : forall p, (Zpos p < 2 ^ Z.of_nat 32)%Z -> (len (N_to_str (Npos p)) <= 32)%nat).
  { intros p Hp. pose proof (len_N_to_str_pos p). pose proof (size_nat_bound p 32 Hp). lia. }
  split.
  - apply utf8_valid_ascii. destruct z; cbn [Z_to_str]; [reflexivity| |]; unfold N_to_str.
    + apply all_ascii_uint.
    + cbn [String.append all_ascii]. apply all_ascii_uint.
  - unfold slen, max_alloc. destruct z; cbn [Z_to_str String.append String.length].
    + lia.
    + specialize (Hlen p ltac:(cbn; lia)). lia.
    + specialize (Hlen p ltac:(cbn; lia)). lia.
Qed.

Lemma str_ok_empty_marker : str_ok "<Empty>".
Proof. split; [reflexivity| unfold slen, max_alloc; cbn; lia]. Qed.

(* What one database operation does to the map: nothing; or the entry of one key is replaced by
   one that is not Ok, is New exactly when the old one was and keeps its key address; or a new key
   appears, New; or a New key disappears.
   [E] is the well-formedness of the entry written. *)
Section MapStep.
Variable E : str -> value -> Prop.

Inductive map_step (m : list (str * value)) : list (str * value) -> Prop :=
| ms_same : map_step m m
| ms_upd k old nv : assoc_get String.eqb k m = Some old -> v_st nv <> VOk ->
    on_disk (v_st nv) = on_disk (v_st old) -> v_kaddr nv = v_kaddr old -> E k nv ->
    map_step m (assoc_set String.eqb k nv m)
| ms_new k nv : assoc_get String.eqb k m = None -> v_st nv = VNew -> E k nv ->
    map_step m (assoc_set String.eqb k nv m)
| ms_del k old : assoc_get String.eqb k m = Some old -> v_st old = VNew ->
    map_step m (assoc_del String.eqb k m).

Lemma map_step_get m m' : map_step m m' -> forall k,
  match assoc_get String.eqb k m, assoc_get String.eqb k m' with
  | Some a, Some b => a = b \/ (v_st b <> VOk /\ on_disk (v_st b) = on_disk (v_st a) /\ v_kaddr b = v_kaddr a /\ E k b)
  | Some a, None => v_st a = VNew
  | None, Some b => v_st b = VNew /\ E k b
  | None, None => True
  end.
Proof.
  intros H k. destruct H as [|k0 old nv Hg Hs Ho Hk He|k0 nv Hg Hs He|k0 old Hg Hs].
  - destruct (assoc_get String.eqb k m); auto.
  - destruct (String.eqb_spec k k0) as [->|Hn].
    + rewrite str_get_set_same, Hg. auto.
    + rewrite str_get_set_other by auto. destruct (assoc_get String.eqb k m); auto.
  - destruct (String.eqb_spec k k0) as [->|Hn].
    + rewrite str_get_set_same, Hg. auto.
    + rewrite str_get_set_other by auto. destruct (assoc_get String.eqb k m); auto.
  - destruct (String.eqb_spec k k0) as [->|Hn].
    + now rewrite get_del_same, Hg.
    + rewrite str_get_del_other by auto. destruct (assoc_get String.eqb k m); auto.
Qed.

Lemma map_step_nodup m m' : map_step m m' -> NoDup (map fst m) -> NoDup (map fst m').
Proof. intros [| | |]; auto using nodup_del, str_nodup_set. Qed.
End MapStep.

Lemma upd_state_props old : on_disk (upd_state old) = on_disk (v_st old) /\ upd_state old <> VOk.
Proof. unfold upd_state. destruct (v_st old); cbn; split; congruence. Qed.

(* set / remove / increment are such steps, for any range [vok] of stored versions that the
   saturating successor preserves and maps the version arguments [vin] into: the hypotheses of
   [NodeLemmas.VersionRange] with [vok] before and after the write, and [vok_1] for the version 1
   that an increment gives a fresh key *)
Section DbOps.
Variables vin vok : Z -> Prop.
Hypothesis vin_succ : forall z, vin z -> vok (sat_succ z).
Hypothesis vok_succ : forall z, vok z -> vok (sat_succ z).
Hypothesis vin_m2 : vin (-2) -> vok (-2).
Hypothesis vok_1 : vok 1.

Definition ent_wf (k : str) (v : value) : Prop := str_ok k /\ str_ok (v_val v) /\ vok (v_ver v).
(* [mem_ok] is [map_wf] at [ver_ok] *)
Definition map_wf (m : list (str * value)) : Prop := forall k v, assoc_get String.eqb k m = Some v -> ent_wf k v.

Lemma set_value_step d ch :
  map_wf (d_map d) -> str_ok (c_key ch) -> str_ok (c_val ch) -> vin (c_ver ch) ->
  map_step ent_wf (d_map d) (d_map (fst (fst (set_value d ch)))).
Proof.
  intros Hm Hk Hv Hver. unfold set_value, get_value.
  destruct (assoc_get String.eqb (c_key ch) (d_map d)) as [old|] eqn:E.
  - destruct (_ && _); cbn [fst]; [constructor|].
    unfold put_value, db_set_map. cbn [d_map]. destruct (Hm _ _ E) as (_ & _ & Hvo).
    destruct (upd_state_props old) as [Ho Hn]. apply (ms_upd _ _ _ old); auto.
    split; [exact Hk|split; [exact Hv|]]. cbn [v_ver]. apply (next_version_range vin vok vok); auto.
  - cbn [fst]. unfold put_value, db_set_map. cbn [d_map]. apply ms_new; auto.
    split; [exact Hk|split; [exact Hv|cbn [v_ver]; auto]].
Qed.

Lemma remove_value_step d k :
  map_wf (d_map d) -> map_step ent_wf (d_map d) (d_map (fst (fst (remove_value d k)))).
Proof.
  intros Hm. unfold remove_value, get_value.
  destruct (String.eqb k "$$token"); cbn [fst]; [constructor|].
  destruct (assoc_get String.eqb k (d_map d)) as [old|] eqn:E; [|constructor].
  destruct (Hm _ _ E) as (Hk & _ & Hvo).
  assert (He : ent_wf k (mkV "<Empty>" (sat_succ (v_ver old)) (v_opp old) VDeleted (v_vaddr old) (v_kaddr old)))
    by (split; [exact Hk|split; [exact str_ok_empty_marker|exact (vok_succ _ Hvo)]]).
  destruct (v_st old) eqn:Est; unfold put_value, db_set_map; cbn [d_map];
    [| | |exact (ms_del _ _ _ _ E Est)]; apply (ms_upd _ _ _ old); auto; try discriminate; now rewrite Est.
Qed.

Lemma inc_value_step d k i opp :
  map_wf (d_map d) -> str_ok k -> map_step ent_wf (d_map d) (d_map (fst (fst (inc_value d k i opp)))).
Proof.
  intros Hm Hk. unfold inc_value, get_value.
  destruct (parse_i32 _) as [c|]; cbn [fst]; [|constructor].
  destruct (Z.leb_spec (-2147483648) (c + i)); cbn [andb fst]; [|constructor].
  destruct (Z.leb_spec (c + i) i32_max); cbn [fst]; [|constructor].
  assert (Htxt : str_ok (Z_to_str (c + i))) by (apply str_ok_Z_to_str; unfold i32_range, i32_max in *; lia).
  unfold put_value, db_set_map. cbn [d_map].
  destruct (assoc_get String.eqb k (d_map d)) as [old|] eqn:E.
  - destruct (Hm _ _ E) as (_ & _ & Hvo). destruct (upd_state_props old) as [Ho Hn].
    apply (ms_upd _ _ _ old); auto. split; [exact Hk|split; [exact Htxt|cbn [v_ver]; auto]].
  - apply ms_new; auto. split; [exact Hk|split; [exact Htxt|exact vok_1]].
Qed.
End DbOps.

Lemma sat_succ_ok z : (-1 <= z)%Z -> ver_ok (sat_succ z).
Proof. unfold sat_succ, ver_ok, i32_max. destruct (Z.ltb_spec z 2147483647); lia. Qed.
Lemma ver_ok_succ z : ver_ok z -> ver_ok (sat_succ z).
Proof. intros H. apply sat_succ_ok. unfold ver_ok in H. lia. Qed.

(* the memory/disk invariant only needs what [map_step] says of each entry *)
Lemma Inv_map_step mem mem' recs V : Inv mem recs V -> map_step (ent_wf ver_ok) mem mem' -> Inv mem' recs V.
Proof.
  intros HI HS. pose proof (map_step_get _ _ _ HS) as Hg. constructor.
  - intros k. specialize (Hg k). pose proof (inv_keys _ _ _ HI k) as Hk. unfold key_ok in *.
    destruct (assoc_get String.eqb k mem) as [a|], (assoc_get String.eqb k mem') as [b|]; auto.
    + destruct Hg as [->|(Hs & Ho & Hka & _)]; auto. rewrite Ho, Hka. destruct (on_disk (v_st a)); auto.
      destruct Hk as [(q & Hq & Hqk & _) Hd]. split; auto. exists q. repeat split; auto; contradiction.
    + now rewrite Hg in Hk.
    + destruct Hg as [-> _]. exact Hk.
  - intros k b Hb. specialize (Hg k). rewrite Hb in Hg. destruct (assoc_get String.eqb k mem) as [a|] eqn:Ea.
    + destruct Hg as [<-|(_ & _ & _ & He)]; auto. apply (inv_mem _ _ _ HI _ _ Ea).
    + apply Hg.
  - apply (map_step_nodup _ _ _ HS), (inv_nodup _ _ _ HI).
  - apply (inv_recs _ _ _ HI).
  - apply (inv_vhead _ _ _ HI).
Qed.

(* [writer_files fs0 w KL VL n0]: after the operations issued so far, the keys file followed by the keys
   BufWriter's buffer is KL, same for the values file / VL; at least n0 bytes of the keys file
   are physically present.  n0 is fixed for the whole pass (the length of the keys file before it, 0
   under reclaim): in-place updates only touch those bytes, which is all it is used for. *)
Definition writer_files (fs0 : files) (w : wstate) (KL VL : str) (n0 : nat) : Prop :=
  exists P Q, fget (apply_fops fs0 (w_ops w)) FKeys = Some P /\
              fget (apply_fops fs0 (w_ops w)) FVals = Some Q /\
              P +++ w_kbuf w = KL /\ Q +++ w_vbuf w = VL /\ (n0 <= len P)%nat.

Definition same_rest (w w' : wstate) : Prop :=
  w_vaddr w' = w_vaddr w /\ w_kaddr w' = w_kaddr w /\ w_mem w' = w_mem w /\ w_clock w' = w_clock w.

Lemma same_rest_refl w : same_rest w w.
Proof. repeat split. Qed.
Lemma same_rest_trans a b c : same_rest a b -> same_rest b c -> same_rest a c.
Proof. unfold same_rest. intuition congruence. Qed.

Lemma w_write_vals_spec fs0 w d KL VL n0 :
  writer_files fs0 w KL VL n0 -> writer_files fs0 (w_write_vals w d) KL (VL +++ d) n0 /\ same_rest w (w_write_vals w d).
Proof.
  intros (P & Q & HP & HQ & HK & HV & Hn). unfold w_write_vals.
  destruct (bw_write (w_vbuf w) d) as [b out] eqn:E. split; [|repeat split].
  exists P, (Q +++ scat out). cbn [w_ops w_kbuf w_vbuf]. rewrite apply_fops_app.
  rewrite fget_emit_other by discriminate. rewrite (fget_emit_same _ _ _ _ HQ).
  repeat split; auto.
  rewrite app_assoc_s, (bw_write_spec _ _ _ _ E), <- app_assoc_s. now rewrite HV.
Qed.

Lemma w_write_keys_spec fs0 w d KL VL n0 :
  writer_files fs0 w KL VL n0 -> writer_files fs0 (w_write_keys w d) (KL +++ d) VL n0 /\ same_rest w (w_write_keys w d).
Proof.
  intros (P & Q & HP & HQ & HK & HV & Hn). unfold w_write_keys.
  destruct (bw_write (w_kbuf w) d) as [b out] eqn:E. split; [|repeat split].
  exists (P +++ scat out), Q. cbn [w_ops w_kbuf w_vbuf]. rewrite apply_fops_app.
  rewrite (fget_emit_other FKeys FVals) by discriminate. rewrite (fget_emit_same _ _ _ _ HP).
  repeat split; auto.
  - rewrite app_assoc_s, (bw_write_spec _ _ _ _ E), <- app_assoc_s. now rewrite HK.
  - rewrite str_length_app. lia.
Qed.

Lemma w_value_spec fs0 w v KL VL n0 w1 rs :
  writer_files fs0 w KL VL n0 -> w_value w v = (w1, rs) ->
  writer_files fs0 w1 KL (VL +++ vrec (v_val v)) n0 /\ same_rest w w1 /\ rs = slen (vrec (v_val v)).
Proof.
  intros H E. unfold w_value in E. apply pair_equal_spec in E. destruct E as [<- <-].
  destruct (w_write_vals_spec _ _ (le_bytes 8 (slen (v_val v))) _ _ _ H) as [H1 S1].
  destruct (w_write_vals_spec _ _ (v_val v) _ _ _ H1) as [H2 S2].
  destruct (w_write_vals_spec _ _ (le_bytes 4 (status_code VOk)) _ _ _ H2) as [H3 S3].
  split; [|split].
  - unfold vrec. rewrite <- !app_assoc_s. exact H3.
  - eauto using same_rest_trans.
  - symmetry. apply slen_vrec.
Qed.

Lemma w_key_spec fs0 w k v va KL VL n0 w1 ks val :
  writer_files fs0 w KL VL n0 -> w_key w k v va = (w1, ks) ->
  writer_files fs0 w1 (KL +++ krec (mkR k (v_ver v) va val)) VL n0 /\ same_rest w w1 /\ ks = rsize (mkR k (v_ver v) va val).
Proof.
  intros H E. unfold w_key in E. apply pair_equal_spec in E. destruct E as [<- <-].
  destruct (w_write_keys_spec _ _ (le_bytes 8 (slen k)) _ _ _ H) as [H1 S1].
  destruct (w_write_keys_spec _ _ k _ _ _ H1) as [H2 S2].
  destruct (w_write_keys_spec _ _ (i32_bytes (v_ver v)) _ _ _ H2) as [H3 S3].
  destruct (w_write_keys_spec _ _ (le_bytes 8 va) _ _ _ H3) as [H4 S4].
  split; [|split].
  - unfold krec. cbn [r_key r_ver r_va]. rewrite <- !app_assoc_s. exact H4.
  - eauto using same_rest_trans.
  - reflexivity.
Qed.

Lemma w_update_key_spec fs0 w k ver va kaddr KL VL n0 :
  writer_files fs0 w KL VL n0 -> (N.to_nat (kaddr + 8 + slen k) + 12 <= n0)%nat ->
  writer_files fs0 (w_update_key w k ver va kaddr)
     (write_at (write_at KL (N.to_nat (kaddr + 8 + slen k)) (i32_bytes ver))
               (N.to_nat (kaddr + 8 + slen k + 4)) (le_bytes 8 va)) VL n0 /\
  same_rest w (w_update_key w k ver va kaddr).
Proof.
  intros (P & Q & HP & HQ & HK & HV & Hn) Hb. unfold w_update_key. split; [|repeat split].
  set (st := kaddr + 8 + slen k) in *.
  exists (write_at (write_at P (N.to_nat st) (i32_bytes ver)) (N.to_nat (st + 4)) (le_bytes 8 va)), Q.
  cbn [w_ops w_kbuf w_vbuf]. rewrite apply_fops_app. cbn [apply_fops fold_left].
  assert (L1 : len (write_at P (N.to_nat st) (i32_bytes ver)) = len P).
  { apply write_at_len. rewrite len_i32_bytes. lia. }
  assert (L2 : len (write_at (write_at P (N.to_nat st) (i32_bytes ver)) (N.to_nat (st + 4)) (le_bytes 8 va)) = len P).
  { rewrite write_at_len; auto. rewrite L1, len_le_bytes. lia. }
  repeat split.
  - erewrite fget_writeat_same; [reflexivity|]. erewrite fget_writeat_same; [reflexivity|]. exact HP.
  - rewrite !fget_untouched_op by reflexivity. exact HQ.
  - rewrite <- HK. rewrite write_at_app by (rewrite len_i32_bytes; lia).
    rewrite write_at_app by (rewrite L1, len_le_bytes; lia). reflexivity.
  - exact HV.
  - lia.
Qed.

(* the operations the writer issues: appends to the two files, and the in-place writes that
   [okw] allows.  [okw] is a parameter because two users need different things of the pwrites:
   C06_metadata that they leave the metadata file alone, CrashFrame.incr_plan_shape that they are
   [field_write]s *)
Definition body_op (okw : fop -> Prop) (o : fop) : Prop :=
  (exists c, o = OpAppend FKeys c) \/ (exists c, o = OpAppend FVals c) \/ okw o.
Definition wext (okw : fop -> Prop) (w w' : wstate) : Prop :=
  exists new, w_ops w' = w_ops w ++ new /\ Forall (body_op okw) new.
(* the two pwrites of update_key for this (key, value) are allowed *)
Definition upd_ok (okw : fop -> Prop) (reclaim : bool) (kv : str * value) : Prop :=
  reclaim = false -> v_st (snd kv) = VUpdated \/ v_st (snd kv) = VDeleted ->
  forall ver va, okw (OpWriteAt FKeys (v_kaddr (snd kv) + 8 + slen (fst kv)) (i32_bytes ver)) /\
                 okw (OpWriteAt FKeys (v_kaddr (snd kv) + 8 + slen (fst kv) + 4) (le_bytes 8 va)).

Section WriterOps.
Variable okw : fop -> Prop.

Lemma wext_refl w w' : w_ops w' = w_ops w -> wext okw w w'.
Proof. intros H. exists []. rewrite app_nil_r. auto. Qed.
Lemma wext_trans a b c : wext okw a b -> wext okw b c -> wext okw a c.
Proof.
  intros (n1 & E1 & F1) (n2 & E2 & F2). exists (n1 ++ n2). rewrite E2, E1, app_assoc. split; auto.
  apply Forall_app. auto.
Qed.
Lemma Forall_emit f out : (f = FKeys \/ f = FVals) -> Forall (body_op okw) (emit f out).
Proof.
  intros Hf. apply Forall_forall. intros o Hin. apply in_map_iff in Hin. destruct Hin as (c & <- & _).
  destruct Hf as [-> | ->]; [left|right; left]; eauto.
Qed.
Lemma wext_write_vals w d : wext okw w (w_write_vals w d).
Proof. unfold w_write_vals. destruct (bw_write (w_vbuf w) d) as [b out]. exists (emit FVals out). split; auto using Forall_emit. Qed.
Lemma wext_write_keys w d : wext okw w (w_write_keys w d).
Proof. unfold w_write_keys. destruct (bw_write (w_kbuf w) d) as [b out]. exists (emit FKeys out). split; auto using Forall_emit. Qed.
Lemma wext_value w v : wext okw w (fst (w_value w v)).
Proof. unfold w_value. cbn [fst]. eauto using wext_trans, wext_write_vals. Qed.
Lemma wext_key w k v va : wext okw w (fst (w_key w k v va)).
Proof. unfold w_key. cbn [fst]. eauto 6 using wext_trans, wext_write_keys. Qed.
Lemma wext_update_key w k ver va ka :
  okw (OpWriteAt FKeys (ka + 8 + slen k) (i32_bytes ver)) ->
  okw (OpWriteAt FKeys (ka + 8 + slen k + 4) (le_bytes 8 va)) ->
  wext okw w (w_update_key w k ver va ka).
Proof.
  intros A B. eexists. split; [reflexivity|].
  constructor; [now right; right|]. constructor; [now right; right|constructor].
Qed.
Lemma wext_new_key_value w k v : wext okw w (new_key_value w k v).
Proof.
  unfold new_key_value. pose proof (wext_value w v) as H1. destruct (w_value w v) as [w1 rs]. cbn [fst] in H1.
  pose proof (wext_key w1 k v (w_vaddr w)) as H2. destruct (w_key w1 k v (w_vaddr w)) as [w2 ks]. cbn [fst] in H2.
  eapply wext_trans; [exact H1|]. eapply wext_trans; [exact H2|now apply wext_refl].
Qed.
Lemma wext_snap_one reclaim w kv : upd_ok okw reclaim kv -> wext okw w (snap_one reclaim w kv).
Proof.
  destruct kv as [k v]. unfold upd_ok. cbn [fst snd]. intros Hok. unfold snap_one. destruct (v_st v).
  - destruct reclaim; [apply wext_new_key_value|now apply wext_refl].
  - destruct reclaim; [now apply wext_refl|]. cbv zeta.
    destruct (Hok eq_refl (or_intror eq_refl) (-1)%Z 0) as [A B].
    eapply wext_trans; [now apply (wext_update_key w k (-1) 0 (v_kaddr v))|now apply wext_refl].
  - pose proof (wext_value w v) as H1. destruct (w_value w v) as [w1 rs]. cbn [fst] in H1.
    eapply wext_trans; [exact H1|]. destruct reclaim; cbv zeta.
    + pose proof (wext_key w1 k v (w_vaddr w)) as H2. destruct (w_key w1 k v (w_vaddr w)) as [w2 ks]. cbn [fst] in H2.
      eapply wext_trans; [exact H2|now apply wext_refl].
    + destruct (Hok eq_refl (or_introl eq_refl) (v_ver v) (w_vaddr w)) as [A B].
      eapply wext_trans; [now apply (wext_update_key w1 k (v_ver v) (w_vaddr w) (v_kaddr v))|now apply wext_refl].
  - apply wext_new_key_value.
Qed.
Lemma wext_fold reclaim todo : forall w,
  Forall (upd_ok okw reclaim) todo -> wext okw w (fold_left (snap_one reclaim) todo w).
Proof.
  induction todo as [|kv t IH]; intros w H; cbn [fold_left]; [now apply wext_refl|].
  apply Forall_cons_iff in H. destruct H as [Hkv Ht].
  eapply wext_trans; [exact (wext_snap_one reclaim w kv Hkv)|auto].
Qed.

Lemma body_ops_untouched f new : f <> FKeys -> f <> FVals -> (forall o, okw o -> footprint f o = false) ->
  Forall (body_op okw) new -> existsb (footprint f) new = false.
Proof.
  intros Hk Hv Hok H. induction H as [|o t Ho _ IH]; cbn [existsb]; auto. rewrite IH, orb_false_r.
  destruct Ho as [(c & ->)|[(c & ->)|Ho]]; auto; cbn [footprint];
    [destruct (fname_eqb_spec f FKeys)|destruct (fname_eqb_spec f FVals)]; congruence.
Qed.
End WriterOps.

Definition agree_on (k : str) (recs recs' : list arec) : Prop :=
  forall off q, r_key q = k -> (rec_at recs 0 off q <-> rec_at recs' 0 off q).

Lemma all_dead_agree k recs recs' : agree_on k recs recs' -> all_dead recs 0 k -> all_dead recs' 0 k.
Proof. intros A H off q Hq Hk. apply (H off q); auto. now apply (A off q Hk). Qed.

Lemma dead_except_agree k recs recs' o : agree_on k recs recs' -> dead_except recs 0 k o -> dead_except recs' 0 k o.
Proof. intros A H off q Hq Hk. apply (H off q); auto. now apply (A off q Hk). Qed.

Lemma key_ok_agree mem mem' recs recs' k :
  assoc_get String.eqb k mem' = assoc_get String.eqb k mem -> agree_on k recs recs' ->
  key_ok mem recs k -> key_ok mem' recs' k.
Proof.
  unfold key_ok. intros -> A. destruct (assoc_get String.eqb k mem) as [mv|]; eauto using all_dead_agree.
  destruct (on_disk (v_st mv)); eauto using all_dead_agree.
  intros [(q & Hq & Hk & Hag) Hd]. split; eauto using dead_except_agree.
  exists q. split; auto. now apply (A _ _ Hk).
Qed.

Lemma key_synced_agree mem mem' recs recs' k :
  assoc_get String.eqb k mem' = assoc_get String.eqb k mem -> agree_on k recs recs' ->
  key_synced mem recs k -> key_synced mem' recs' k.
Proof.
  unfold key_synced. intros -> A. destruct (assoc_get String.eqb k mem) as [mv|]; auto.
  destruct (v_st mv); eauto using all_dead_agree.
Qed.

Lemma agree_snoc k recs x : r_key x <> k -> agree_on k recs (recs ++ [x]).
Proof.
  intros Hn off q Hk. rewrite rec_at_snoc. split; auto.
  intros [H|[_ ->]]; auto. contradiction.
Qed.

Lemma agree_rupd k recs o r r' : rec_at recs 0 o r -> r_key r' = r_key r -> r_key r <> k ->
  agree_on k recs (rupd recs 0 o r').
Proof.
  intros Hr Hk Hn off q Hq. rewrite (rec_at_rupd _ _ _ _ _ Hr Hk). split.
  - intros H. right. split; auto. intros ->. rewrite (rec_at_fun _ _ _ _ _ H Hr) in Hq. contradiction.
  - intros [[_ ->]|[_ H]]; auto. congruence.
Qed.

(* no record at all for a key (reclaim pass, key not yet written) *)
Definition no_recs (recs : list arec) (k : str) : Prop := forall off q, rec_at recs 0 off q -> r_key q <> k.

Lemma no_recs_dead recs k : no_recs recs k -> all_dead recs 0 k.
Proof. intros H off q Hq Hk. exfalso. eapply H; eauto. Qed.

(* appending the record of a key that had only dead records: the key is VOk and in sync *)
Lemma key_ok_snoc_self mem recs k val ver opp va :
  all_dead recs 0 k ->
  key_ok (assoc_set String.eqb k (mkV val ver opp VOk va (ksize recs)) mem) (recs ++ [mkR k ver va val]) k.
Proof.
  intros Hd. unfold key_ok. rewrite str_get_set_same. cbn [v_st on_disk v_kaddr v_ver v_vaddr v_val].
  split.
  - exists (mkR k ver va val). split; [|cbn; auto]. apply rec_at_snoc. right. split; auto; lia.
  - intros off q Hq Hk Hn. apply rec_at_snoc in Hq. destruct Hq as [Hq|[E _]]; [|lia]. eapply Hd; eauto.
Qed.

(* the in-place update of a VUpdated key: the key is VOk and in sync *)
Lemma key_ok_rupd_self mem recs k r val ver opp va ka :
  rec_at recs 0 ka r -> r_key r = k -> dead_except recs 0 k ka ->
  key_ok (assoc_set String.eqb k (mkV val ver opp VOk va ka) mem) (rupd recs 0 ka (mkR k ver va val)) k.
Proof.
  intros Hr Hk Hd. unfold key_ok. rewrite str_get_set_same.
  cbn [v_st on_disk v_kaddr v_ver v_vaddr v_val].
  assert (Hk' : r_key (mkR k ver va val) = r_key r) by (cbn; auto).
  split.
  - exists (mkR k ver va val). split; [|cbn; auto]. apply (rec_at_rupd _ _ _ _ _ Hr Hk'). now left.
  - intros off q Hq Hqk Hn. apply (rec_at_rupd _ _ _ _ _ Hr Hk') in Hq.
    destruct Hq as [[E _]|[_ Hq]]; [contradiction|]. eapply Hd; eauto.
Qed.

(* marking a VDeleted key -1 in place: all its records are now dead *)
Lemma key_ok_rupd_dead mem recs k r mv v0 :
  assoc_get String.eqb k mem = Some mv -> v_st mv = VDeleted ->
  rec_at recs 0 (v_kaddr mv) r -> r_key r = k -> dead_except recs 0 k (v_kaddr mv) ->
  key_ok mem (rupd recs 0 (v_kaddr mv) (mkR k (-1) 0 v0)) k /\
  all_dead (rupd recs 0 (v_kaddr mv) (mkR k (-1) 0 v0)) 0 k.
Proof.
  intros Hg Hst Hr Hk Hd.
  assert (Hk' : r_key (mkR k (-1) 0 v0) = r_key r) by (cbn; auto).
  assert (Hall : all_dead (rupd recs 0 (v_kaddr mv) (mkR k (-1) 0 v0)) 0 k).
  { intros off q Hq Hqk. apply (rec_at_rupd _ _ _ _ _ Hr Hk') in Hq.
    destruct Hq as [[_ ->]|[Hn Hq]]; [reflexivity|]. eapply Hd; eauto. }
  split; auto. unfold key_ok. rewrite Hg, Hst. cbn [on_disk]. split.
  - exists (mkR k (-1) 0 v0). split; [|split; [reflexivity|discriminate]].
    apply (rec_at_rupd _ _ _ _ _ Hr Hk'). now left.
  - intros off q Hq Hqk _. eapply Hall; eauto.
Qed.

(* the part of the invariant that does not speak of single keys *)
Definition InvRest (mem : list (str * value)) (recs : list arec) (V : str) : Prop :=
  mem_ok mem /\ NoDup (map fst mem) /\ Forall (rec_ok V) recs /\ vhead_ok V.

Lemma Inv_of_InvRest mem recs V : (forall k, key_ok mem recs k) -> InvRest mem recs V -> Inv mem recs V.
Proof. intros H (a & b & c & d). now constructor. Qed.
Lemma InvRest_of_Inv mem recs V : Inv mem recs V -> InvRest mem recs V.
Proof. intros [a b c d e]. unfold InvRest. auto. Qed.

Lemma mem_ok_set mem k nv : mem_ok mem -> str_ok k -> str_ok (v_val nv) -> ver_ok (v_ver nv) ->
  mem_ok (assoc_set String.eqb k nv mem).
Proof.
  intros H Hk Hv Hver.
  exact (get_set_all String.eqb String.eqb_spec (fun k mv => str_ok k /\ str_ok (v_val mv) /\ ver_ok (v_ver mv))
           k nv mem H (conj Hk (conj Hv Hver))).
Qed.

Lemma mem_ok_del mem k : mem_ok mem -> mem_ok (assoc_del String.eqb k mem).
Proof. exact (get_del_all String.eqb String.eqb_spec (fun k mv => str_ok k /\ str_ok (v_val mv) /\ ver_ok (v_ver mv)) k mem). Qed.

Lemma vhead_ok_app V val : vhead_ok V -> str_ok val -> vhead_ok (V +++ vrec val).
Proof.
  intros [->|(v & Hv & Hat)] Hval; right.
  - exists val. split; auto. exists "", "". cbn [String.append]. now rewrite app_nil_r_s.
  - exists v. split; auto. now apply has_at_app.
Qed.

Lemma Forall_rec_ok_app V t recs : Forall (rec_ok V) recs -> Forall (rec_ok (V +++ t)) recs.
Proof. intros H. eapply Forall_impl; [|exact H]. intros r. apply rec_ok_app. Qed.

Lemma rec_ok_new V k ver val : str_ok k -> str_ok val -> ver_ok ver ->
  rec_ok (V +++ vrec val) (mkR k ver (slen V) val).
Proof. intros Hk Hv Hver. repeat split; cbn [r_key r_val r_va r_ver]; try apply Hk; try apply Hv. apply has_at_end. now right. Qed.

Lemma InvRest_snoc mem recs V k val ver opp ka :
  InvRest mem recs V -> str_ok k -> str_ok val -> ver_ok ver ->
  InvRest (assoc_set String.eqb k (mkV val ver opp VOk (slen V) ka) mem)
       (recs ++ [mkR k ver (slen V) val]) (V +++ vrec val).
Proof.
  intros (Hm & Hn & Hr & Hh) Hk Hv Hver. split; [|split; [|split]].
  - apply mem_ok_set; auto.
  - apply str_nodup_set; auto.
  - apply Forall_app. split; [now apply Forall_rec_ok_app|]. constructor; auto. now apply rec_ok_new.
  - now apply vhead_ok_app.
Qed.

Lemma InvRest_rupd_live mem recs V k val ver opp ka off :
  InvRest mem recs V -> str_ok k -> str_ok val -> ver_ok ver ->
  InvRest (assoc_set String.eqb k (mkV val ver opp VOk (slen V) ka) mem)
       (rupd recs 0 off (mkR k ver (slen V) val)) (V +++ vrec val).
Proof.
  intros (Hm & Hn & Hr & Hh) Hk Hv Hver. split; [|split; [|split]].
  - apply mem_ok_set; auto.
  - apply str_nodup_set; auto.
  - apply Forall_rupd; [now apply Forall_rec_ok_app|]. now apply rec_ok_new.
  - now apply vhead_ok_app.
Qed.

Lemma vrec_nonempty v : vrec v <> "".
Proof. unfold vrec. cbn. discriminate. Qed.

(* a values file that holds some record starts with a well-formed record: address 0, which
   update_key stores in a tombstone's key record, can be read back by the loader *)
Lemma vhead_of_rec V r : vhead_ok V -> rec_ok V r -> exists v0, str_ok v0 /\ has_at V 0 (vrec v0).
Proof.
  intros [->|H] (_ & _ & (pre & post & E & _) & _); auto.
  exfalso. destruct pre; cbn in E; [|discriminate].
  destruct (vrec (r_val r)) eqn:Ev; [now apply vrec_nonempty in Ev|discriminate].
Qed.

Lemma InvRest_rupd_dead mem recs V k off v0 :
  InvRest mem recs V -> str_ok k -> str_ok v0 -> has_at V 0 (vrec v0) ->
  InvRest mem (rupd recs 0 off (mkR k (-1) 0 v0)) V.
Proof.
  intros (Hm & Hn & Hr & Hh) Hk Hv Hat. split; [|split; [|split]]; auto.
  apply Forall_rupd; auto. repeat split; cbn [r_key r_val r_va r_ver]; try apply Hk; try apply Hv; auto.
  now left.
Qed.

Lemma InvRest_del mem recs V k : InvRest mem recs V -> InvRest (assoc_del String.eqb k mem) recs V.
Proof. intros (Hm & Hn & Hr & Hh). split; [|split; [|split]]; auto using mem_ok_del, nodup_del. Qed.

Section OrderMap.
Variable m : list (str * value).
Variable order : list str.
Hypothesis Hm : NoDup (map fst m).
Hypothesis Ho : NoDup order.

Let pick := fun k : str => match assoc_get String.eqb k m with Some v => [(k, v)] | None => [] end.

Lemma in_picked l k v : In (k, v) (flat_map pick l) <-> In k l /\ assoc_get String.eqb k m = Some v.
Proof.
  rewrite in_flat_map. unfold pick. split.
  - intros (x & Hx & Hin). destruct (assoc_get String.eqb x m) eqn:E; cbn in Hin; [|tauto].
    destruct Hin as [Hin|[]]. inversion Hin; subst. auto.
  - intros [Hin E]. exists k. split; auto. rewrite E. now left.
Qed.

Lemma keys_picked_in l k : In k (map fst (flat_map pick l)) -> In k l.
Proof.
  rewrite in_map_iff. intros ([k' v] & E & Hin). cbn in E. subst k'. now apply in_picked in Hin.
Qed.

Lemma nodup_picked l : NoDup l -> NoDup (map fst (flat_map pick l)).
Proof.
  induction l as [|x l IH]; cbn [flat_map map]; [constructor|]. intros H. inversion H; subst.
  rewrite map_app. apply nodup_app; auto.
  - unfold pick. destruct (assoc_get String.eqb x m); cbn; repeat constructor; auto.
  - intros k Hk Hk'. apply keys_picked_in in Hk'.
    unfold pick in Hk. destruct (assoc_get String.eqb x m); cbn in Hk; [|tauto].
    destruct Hk as [<-|[]]. auto.
Qed.

Lemma order_map_iff k v : In (k, v) (order_map m order) <-> assoc_get String.eqb k m = Some v.
Proof.
  unfold order_map. rewrite in_app_iff, filter_In. cbn [fst]. split.
  - intros [H|[H _]]; [now apply in_picked in H|now apply (in_get String.eqb String.eqb_spec)].
  - intros E. destruct (existsb (String.eqb k) order) eqn:Ex.
    + left. apply in_picked. split; auto. now apply (existsb_eqb_In String.eqb String.eqb_spec).
    + right. split; auto. now apply str_get_in.
Qed.

Lemma order_map_nodup : NoDup (map fst (order_map m order)).
Proof.
  unfold order_map. rewrite map_app. apply nodup_app.
  - now apply nodup_picked.
  - now apply nodup_filter_keys.
  - intros k Hk Hk'. apply keys_picked_in in Hk.
    apply in_map_iff in Hk'. destruct Hk' as ([k' v] & E & Hin). cbn in E. subst k'.
    apply filter_In in Hin. destruct Hin as [_ Hf]. cbn [fst] in Hf.
    apply (existsb_eqb_In String.eqb String.eqb_spec) in Hk. rewrite Hk in Hf. discriminate.
Qed.

Lemma todo_nodup reclaim : NoDup (map fst (keys_to_update m order reclaim)).
Proof. unfold keys_to_update. apply nodup_filter_keys, order_map_nodup. Qed.

Lemma todo_iff reclaim k v : In (k, v) (keys_to_update m order reclaim) <->
  assoc_get String.eqb k m = Some v /\ (reclaim || negb (vstate_eqb (v_st v) VOk)) = true.
Proof. unfold keys_to_update. now rewrite filter_In, order_map_iff. Qed.
End OrderMap.

Definition writer_recs (fs0 : files) (w : wstate) (recs : list arec) (VL : str) (n0 : nat) : Prop :=
  writer_files fs0 w (kcat recs) VL n0 /\ w_vaddr w = slen VL /\ w_kaddr w = ksize recs.

Lemma writer_files_ext fs0 w w' KL VL n0 :
  w_ops w' = w_ops w -> w_kbuf w' = w_kbuf w -> w_vbuf w' = w_vbuf w -> writer_files fs0 w KL VL n0 -> writer_files fs0 w' KL VL n0.
Proof. unfold writer_files. intros -> -> ->. auto. Qed.

Lemma kcat_snoc recs x : kcat (recs ++ [x]) = kcat recs +++ krec x.
Proof. rewrite kcat_app. cbn [kcat]. now rewrite app_nil_r_s. Qed.
Lemma ksize_snoc recs x : ksize (recs ++ [x]) = ksize recs + rsize x.
Proof. rewrite ksize_app. cbn [ksize]. lia. Qed.

Lemma new_key_value_spec fs0 w k v recs VL n0 :
  writer_recs fs0 w recs VL n0 ->
  writer_recs fs0 (new_key_value w k v) (recs ++ [mkR k (v_ver v) (slen VL) (v_val v)]) (VL +++ vrec (v_val v)) n0 /\
  w_mem (new_key_value w k v) =
    assoc_set String.eqb k (mkV (v_val v) (v_ver v) (w_clock w) VOk (slen VL) (ksize recs)) (w_mem w).
Proof.
  intros (HS & Hva & Hka). unfold new_key_value.
  destruct (w_value w v) as [w1 rs] eqn:E1.
  destruct (w_key w1 k v (w_vaddr w)) as [w2 ks] eqn:E2.
  destruct (w_value_spec _ _ _ _ _ _ _ _ HS E1) as (H1 & (S1a & S1b & S1c & S1d) & Hrs).
  destruct (w_key_spec _ _ _ _ _ _ _ _ _ _ (v_val v) H1 E2) as (H2 & (S2a & S2b & S2c & S2d) & Hks).
  split; [split; [|split]|].
  - rewrite kcat_snoc, <- Hva. eapply writer_files_ext; [| | |exact H2]; reflexivity.
  - cbn [w_set_addrs w_vaddr]. rewrite slen_app. lia.
  - cbn [w_set_addrs w_kaddr]. rewrite ksize_snoc. rewrite Hks. unfold rsize. cbn [r_key]. lia.
  - cbn [w_set_addrs w_set_ok w_mem]. congruence.
Qed.

Lemma w_kaddr_write_vals w d : w_kaddr (w_write_vals w d) = w_kaddr w.
Proof. unfold w_write_vals. now destruct (bw_write (w_vbuf w) d). Qed.

Lemma snap_one_reclaim_live w k v : v_st v <> VDeleted -> snap_one true w (k, v) = new_key_value w k v.
Proof.
  intros Hn. unfold snap_one, new_key_value. destruct (v_st v); [reflexivity|congruence| |reflexivity].
  destruct (w_value w v) as [w1 rs] eqn:E. cbv zeta.
  assert (Hk : w_kaddr w1 = w_kaddr w).
  { unfold w_value in E. apply pair_equal_spec in E. destruct E as [<- _]. now rewrite !w_kaddr_write_vals. }
  rewrite Hk. reflexivity.
Qed.

Lemma snap_upd_spec fs0 w k v recs VL n0 r :
  writer_recs fs0 w recs VL n0 -> v_st v = VUpdated -> rec_at recs 0 (v_kaddr v) r -> r_key r = k ->
  (N.to_nat (v_kaddr v + rsize r) <= n0)%nat ->
  writer_recs fs0 (snap_one false w (k, v)) (rupd recs 0 (v_kaddr v) (mkR k (v_ver v) (slen VL) (v_val v)))
     (VL +++ vrec (v_val v)) n0 /\
  w_mem (snap_one false w (k, v)) =
    assoc_set String.eqb k (mkV (v_val v) (v_ver v) (w_clock w) VOk (slen VL) (v_kaddr v)) (w_mem w).
Proof.
  intros (HS & Hva & Hka) Hst Hr Hk Hb. unfold snap_one. rewrite Hst.
  destruct (w_value w v) as [w1 rs] eqn:E1. cbv zeta.
  destruct (w_value_spec _ _ _ _ _ _ _ _ HS E1) as (H1 & (S1a & S1b & S1c & S1d) & Hrs).
  assert (Hb' : (N.to_nat (v_kaddr v + 8 + slen k) + 12 <= n0)%nat).
  { unfold rsize in Hb. rewrite Hk in Hb. lia. }
  destruct (w_update_key_spec _ _ k (v_ver v) (w_vaddr w) (v_kaddr v) _ _ _ H1 Hb') as (H2 & (S2a & S2b & S2c & S2d)).
  assert (Hk' : r_key (mkR k (v_ver v) (slen VL) (v_val v)) = r_key r) by (cbn; auto).
  split; [split; [|split]|].
  - eapply writer_files_ext; [| | | ]; [reflexivity..|].
    pose proof (kcat_rupd recs 0 (v_kaddr v) r _ "" Hr Hk' eq_refl) as Hc.
    cbn [String.append r_ver r_va] in Hc. rewrite Hk in Hc. rewrite <- Hc, <- Hva. exact H2.
  - cbn [w_set_addrs w_vaddr]. rewrite slen_app. lia.
  - cbn [w_set_addrs w_kaddr]. rewrite (ksize_rupd _ _ _ _ _ Hr Hk'). congruence.
  - cbn [w_set_addrs w_set_ok w_mem]. congruence.
Qed.

Lemma snap_del_spec fs0 w k v recs VL n0 r v0 :
  writer_recs fs0 w recs VL n0 -> v_st v = VDeleted -> rec_at recs 0 (v_kaddr v) r -> r_key r = k ->
  (N.to_nat (v_kaddr v + rsize r) <= n0)%nat ->
  writer_recs fs0 (snap_one false w (k, v)) (rupd recs 0 (v_kaddr v) (mkR k (-1) 0 v0)) VL n0 /\
  w_mem (snap_one false w (k, v)) = w_mem w.
Proof.
  intros (HS & Hva & Hka) Hst Hr Hk Hb. unfold snap_one. rewrite Hst. cbv zeta.
  assert (Hb' : (N.to_nat (v_kaddr v + 8 + slen k) + 12 <= n0)%nat).
  { unfold rsize in Hb. rewrite Hk in Hb. lia. }
  destruct (w_update_key_spec _ _ k (-1)%Z 0 (v_kaddr v) _ _ _ HS Hb') as (H2 & (S2a & S2b & S2c & S2d)).
  assert (Hk' : r_key (mkR k (-1) 0 v0) = r_key r) by (cbn; auto).
  split; [split; [|split]|].
  - eapply writer_files_ext; [| | | ]; [reflexivity..|].
    pose proof (kcat_rupd recs 0 (v_kaddr v) r _ "" Hr Hk' eq_refl) as Hc.
    cbn [String.append r_ver r_va] in Hc. rewrite Hk in Hc. rewrite <- Hc. exact H2.
  - cbn [w_vaddr]. congruence.
  - cbn [w_kaddr]. rewrite (ksize_rupd _ _ _ _ _ Hr Hk'). congruence.
  - cbn [w_mem]. congruence.
Qed.

(* what one iteration for key k achieves: k satisfies [key_ok] and is in sync; the entries of the other keys
   are the same and so are their records *)
Definition step_ok (k : str) (mem : list (str * value)) (recs : list arec)
                   (mem' : list (str * value)) (recs' : list arec) : Prop :=
  key_ok mem' recs' k /\ key_synced mem' recs' k /\
  forall k', k' <> k -> assoc_get String.eqb k' mem' = assoc_get String.eqb k' mem /\ agree_on k' recs recs'.

(* a fresh record for a key that has only dead records (VNew, or any live key under reclaim) *)
Lemma step_append fs0 n0 w k v recs V :
  writer_recs fs0 w recs V n0 -> InvRest (w_mem w) recs V -> str_ok k -> str_ok (v_val v) -> ver_ok (v_ver v) ->
  all_dead recs 0 k ->
  exists recs' V', writer_recs fs0 (new_key_value w k v) recs' V' n0 /\ InvRest (w_mem (new_key_value w k v)) recs' V' /\
                   step_ok k (w_mem w) recs (w_mem (new_key_value w k v)) recs'.
Proof.
  intros HT HB Hk Hv Hver Hd. destruct (new_key_value_spec fs0 w k v recs V n0 HT) as (HT' & Hmem).
  exists (recs ++ [mkR k (v_ver v) (slen V) (v_val v)]), (V +++ vrec (v_val v)). rewrite Hmem.
  split; [exact HT'|]. split; [now apply InvRest_snoc|]. split; [now apply key_ok_snoc_self|]. split.
  - unfold key_synced. now rewrite str_get_set_same.
  - intros k' Hne. split; [apply str_get_set_other; auto|]. apply agree_snoc. cbn. congruence.
Qed.

Section Loop.
Variables (reclaim : bool) (fs0 : files) (n0 : nat).
(* what the loop needs of a key that is still to come *)
Variable pend : list (str * value) -> list arec -> str * value -> Prop.
Hypothesis pend_step : forall w recs V k v,
  writer_recs fs0 w recs V n0 -> InvRest (w_mem w) recs V -> pend (w_mem w) recs (k, v) ->
  exists recs' V', writer_recs fs0 (snap_one reclaim w (k, v)) recs' V' n0 /\
                   InvRest (w_mem (snap_one reclaim w (k, v))) recs' V' /\
                   step_ok k (w_mem w) recs (w_mem (snap_one reclaim w (k, v))) recs'.
Hypothesis pend_other : forall mem recs mem' recs' kv,
  assoc_get String.eqb (fst kv) mem' = assoc_get String.eqb (fst kv) mem -> agree_on (fst kv) recs recs' ->
  pend mem recs kv -> pend mem' recs' kv.

Lemma snap_loop : forall todo w recs V,
  writer_recs fs0 w recs V n0 -> InvRest (w_mem w) recs V -> NoDup (map fst todo) ->
  Forall (pend (w_mem w) recs) todo ->
  (forall k, In k (map fst todo) \/ (key_ok (w_mem w) recs k /\ key_synced (w_mem w) recs k)) ->
  exists recs' V',
    writer_recs fs0 (fold_left (snap_one reclaim) todo w) recs' V' n0 /\
    Inv (w_mem (fold_left (snap_one reclaim) todo w)) recs' V' /\
    (forall k, key_synced (w_mem (fold_left (snap_one reclaim) todo w)) recs' k).
Proof.
  induction todo as [|[k v] todo IH]; intros w recs V HT HB HN HF HS; cbn [fold_left].
  - exists recs, V. split; [exact HT|]. split.
    + apply Inv_of_InvRest; auto. intros k. now destruct (HS k) as [[]|[]].
    + intros k. now destruct (HS k) as [[]|[]].
  - apply Forall_cons_iff in HF. destruct HF as [Hkv HF]. cbn [map fst] in HN. inversion HN as [|? ? Hnotin HN']; subst.
    destruct (pend_step w recs V k v HT HB Hkv) as (recs' & V' & HT' & HB' & Hok & Hsy & Hoth).
    apply (IH _ recs' V'); auto.
    + apply Forall_forall. intros [k' v'] Hin. destruct (Hoth k') as [Hg Ha].
      { intros ->. apply Hnotin. change k with (fst (k, v')). now apply in_map. }
      apply (pend_other (w_mem w) recs); auto. exact (proj1 (Forall_forall _ _) HF _ Hin).
    + intros k'. destruct (String.eqb_spec k' k) as [->|Hne]; [now right|].
      destruct (Hoth k' Hne) as [Hg Ha].
      destruct (HS k') as [[E|Hin]|[Hk' Hs']]; [cbn in E; congruence|now left|right].
      split; [eapply key_ok_agree|eapply key_synced_agree]; eauto.
Qed.
End Loop.

(* non-reclaiming pass: a selected key satisfies [key_ok], and the record that an
   in-place update rewrites lies within the first n0 bytes ([8 + slen k + 8 + 4] is [rsize] of that
   record, written out because no record is at hand here) *)
Definition pend_nr (n0 : nat) (mem : list (str * value)) (recs : list arec) (kv : str * value) : Prop :=
  key_ok mem recs (fst kv) /\ assoc_get String.eqb (fst kv) mem = Some (snd kv) /\ v_st (snd kv) <> VOk /\
  (on_disk (v_st (snd kv)) = true -> (N.to_nat (v_kaddr (snd kv) + (8 + slen (fst kv) + 8 + 4)) <= n0)%nat).

Lemma nr_step fs0 n0 w recs V k v :
  writer_recs fs0 w recs V n0 -> InvRest (w_mem w) recs V -> pend_nr n0 (w_mem w) recs (k, v) ->
  exists recs' V', writer_recs fs0 (snap_one false w (k, v)) recs' V' n0 /\
                   InvRest (w_mem (snap_one false w (k, v))) recs' V' /\
                   step_ok k (w_mem w) recs (w_mem (snap_one false w (k, v))) recs'.
Proof.
  intros HT HB (Hk & Hg & Hst & Hb). cbn [fst snd] in *. unfold key_ok in Hk. rewrite Hg in Hk.
  pose proof HB as (Hm & _ & Hr & Hh). destruct (Hm _ _ Hg) as (Hsk & Hsv & Hver).
  destruct (v_st v) eqn:Est; [congruence| | |]; cbn [on_disk] in Hk, Hb.
  - (* VDeleted: mark -1 in place *)
    destruct Hk as [(q & Hq & Hqk & _) Hd].
    pose proof (proj1 (Forall_forall _ _) Hr _ (rec_at_in _ _ _ _ Hq)) as Hqok.
    destruct (vhead_of_rec _ _ Hh Hqok) as (v0 & Hv0 & Hat0).
    assert (Hbq : (N.to_nat (v_kaddr v + rsize q) <= n0)%nat) by (unfold rsize; rewrite Hqk; now apply Hb).
    destruct (snap_del_spec fs0 w k v recs V n0 q v0 HT Est Hq Hqk Hbq) as (HT' & Hmem).
    destruct (key_ok_rupd_dead (w_mem w) recs k q v v0 Hg Est Hq Hqk Hd) as [Hkok Hdead].
    exists (rupd recs 0 (v_kaddr v) (mkR k (-1) 0 v0)), V. rewrite Hmem.
    split; [exact HT'|]. split; [now apply InvRest_rupd_dead|]. split; [exact Hkok|]. split.
    + unfold key_synced. now rewrite Hg, Est.
    + intros k' Hne. split; [reflexivity|]. apply (agree_rupd _ _ _ q); auto. congruence.
  - (* VUpdated: append the value, update the key record in place *)
    destruct Hk as [(q & Hq & Hqk & _) Hd].
    assert (Hbq : (N.to_nat (v_kaddr v + rsize q) <= n0)%nat) by (unfold rsize; rewrite Hqk; now apply Hb).
    destruct (snap_upd_spec fs0 w k v recs V n0 q HT Est Hq Hqk Hbq) as (HT' & Hmem).
    exists (rupd recs 0 (v_kaddr v) (mkR k (v_ver v) (slen V) (v_val v))), (V +++ vrec (v_val v)). rewrite Hmem.
    split; [exact HT'|]. split; [now apply InvRest_rupd_live|]. split; [now apply (key_ok_rupd_self _ _ _ q)|]. split.
    + unfold key_synced. now rewrite str_get_set_same.
    + intros k' Hne. split; [apply str_get_set_other; auto|].
      apply (agree_rupd _ _ _ q); auto. congruence.
  - (* VNew: append value and key records *)
    replace (snap_one false w (k, v)) with (new_key_value w k v) by (unfold snap_one; now rewrite Est).
    now apply (step_append fs0 n0 w k v recs V).
Qed.

Lemma nr_other n0 (mem : list (str * value)) recs (mem' : list (str * value)) recs' (kv : str * value) :
  assoc_get String.eqb (fst kv) mem' = assoc_get String.eqb (fst kv) mem -> agree_on (fst kv) recs recs' ->
  pend_nr n0 mem recs kv -> pend_nr n0 mem' recs' kv.
Proof. intros Hg Ha (Hk & Hg0 & Hr). unfold pend_nr. rewrite Hg. eauto using key_ok_agree. Qed.

(* reclaiming pass: the files start empty, every non-tombstone is written, tombstones are dropped
   from memory; a key still to come has no record at all *)
Definition pend_r (mem : list (str * value)) (recs : list arec) (kv : str * value) : Prop :=
  no_recs recs (fst kv) /\ str_ok (fst kv) /\ str_ok (v_val (snd kv)) /\ ver_ok (v_ver (snd kv)).

Lemma r_step fs0 n0 w recs V k v :
  writer_recs fs0 w recs V n0 -> InvRest (w_mem w) recs V -> pend_r (w_mem w) recs (k, v) ->
  exists recs' V', writer_recs fs0 (snap_one true w (k, v)) recs' V' n0 /\
                   InvRest (w_mem (snap_one true w (k, v))) recs' V' /\
                   step_ok k (w_mem w) recs (w_mem (snap_one true w (k, v))) recs'.
Proof.
  intros HT HB (Hnr & Hsk & Hsv & Hver). cbn [fst snd] in *.
  destruct (vstate_eqb (v_st v) VDeleted) eqn:Ed.
  - (* tombstone: dropped *)
    assert (Est : v_st v = VDeleted) by (destruct (v_st v); cbn in Ed; congruence).
    replace (snap_one true w (k, v)) with (w_drop_mem w k) by (unfold snap_one; now rewrite Est).
    exists recs, V. cbn [w_drop_mem w_mem]. split; [exact HT|]. split; [now apply InvRest_del|].
    unfold step_ok, key_ok, key_synced. rewrite get_del_same. split; [now apply no_recs_dead|]. split; [exact I|].
    intros k' Hne. split; [apply str_get_del_other; auto|]. intros off q _. tauto.
  - (* anything else: written as a fresh record *)
    rewrite snap_one_reclaim_live by (intros E; rewrite E in Ed; discriminate).
    apply (step_append fs0 n0 w k v recs V); auto using no_recs_dead.
Qed.

Lemma r_other (mem : list (str * value)) recs (mem' : list (str * value)) recs' (kv : str * value) :
  assoc_get String.eqb (fst kv) mem' = assoc_get String.eqb (fst kv) mem -> agree_on (fst kv) recs recs' ->
  pend_r mem recs kv -> pend_r mem' recs' kv.
Proof.
  intros _ Ha (Hn & Hr). split; [|exact Hr]. intros off q Hq Hk. apply (Hn off q); auto. now apply (Ha off q Hk).
Qed.

(* the [let]s of [Disk.snapshot_plan] under names ([snapshot_plan_unfold]): the metadata write, the
   (re)opening of the keys file and of the values file, the files and the writer when the loop starts,
   the writer after the loop, the flushes and the removal of the backup *)
Definition plan_open0 (d : db) : list fop :=
  [OpCreate FMeta; OpWriteAt FMeta 0 (le_bytes 8 (d_id d) +++ le_bytes 4 (strat_code (d_strat d)))].
Definition plan_open_keys (reclaim : bool) (fs : files) : list fop :=
  (if reclaim && match fget fs FKeys with Some _ => true | None => false end
   then [OpRename FKeys FKeysOld] else []) ++ [OpCreate FKeys].
Definition plan_open1 (d : db) (reclaim : bool) (fs : files) : list fop :=
  plan_open0 d ++ plan_open_keys reclaim fs.
Definition plan_open_vals (reclaim : bool) (fs1 : files) : list fop :=
  (if reclaim && match fget fs1 FVals with Some _ => true | None => false end
   then [OpRename FVals FValsOld; OpRemove FValsOld] else []) ++ [OpCreate FVals].
Definition plan_fs2 (d : db) (reclaim : bool) (fs : files) : files :=
  apply_fops (apply_fops fs (plan_open1 d reclaim fs)) (plan_open_vals reclaim (apply_fops fs (plan_open1 d reclaim fs))).
Definition plan_close (fs2 : files) (w1 : wstate) : list fop :=
  emit FKeys (bw_flush (w_kbuf w1)) ++ emit FVals (bw_flush (w_vbuf w1)) ++
  (match fget fs2 FKeysOld with Some _ => [OpRemove FKeysOld] | None => [] end).
Definition plan_w0 (d : db) (reclaim : bool) (fs : files) (clock : N) : wstate :=
  let o1 := plan_open1 d reclaim fs in
  let fs1 := apply_fops fs o1 in
  let o2 := plan_open_vals reclaim fs1 in
  let fs2 := apply_fops fs1 o2 in
  mkW EmptyString EmptyString (fsize fs2 FVals) (fsize fs2 FKeys) (o1 ++ o2) (d_map d) clock 0.
Definition plan_w1 (d : db) (order : list str) (reclaim : bool) (fs : files) (clock : N) : wstate :=
  fold_left (snap_one reclaim) (keys_to_update (d_map d) order reclaim) (plan_w0 d reclaim fs clock).

Lemma snapshot_plan_unfold d order reclaim fs clock :
  snapshot_plan d order reclaim fs clock =
  (w_ops (plan_w1 d order reclaim fs clock) ++ plan_close (plan_fs2 d reclaim fs) (plan_w1 d order reclaim fs clock),
   w_mem (plan_w1 d order reclaim fs clock), w_clock (plan_w1 d order reclaim fs clock)).
Proof. reflexivity. Qed.

(* opening a file afresh: under reclaim the old file, if any, is first renamed away (the operations
   [tail], which leave f alone, follow the rename); then open(create) *)
Lemma fget_reopen fs f old tail reclaim : f <> old -> existsb (footprint f) tail = false ->
  fget (apply_fops fs ((if reclaim && match fget fs f with Some _ => true | None => false end
                        then OpRename f old :: tail else []) ++ [OpCreate f])) f
  = Some (if reclaim then "" else fcontent fs f).
Proof.
  intros Hn Ht. rewrite apply_fops_app. cbn [apply_fops fold_left]. rewrite fget_create_same. f_equal.
  unfold fcontent. destruct reclaim; cbn [andb]; [|reflexivity].
  destruct (fget fs f) as [s|] eqn:E; cbn [apply_fops fold_left]; [|now rewrite E].
  fold (apply_fops (apply_fop fs (OpRename f old)) tail). rewrite fget_untouched by exact Ht.
  cbn [apply_fop]. now rewrite E, fget_set_other, fget_del_same by exact Hn.
Qed.

Lemma open_keys_untouched reclaim fs g : g <> FKeys -> g <> FKeysOld ->
  existsb (footprint g) (plan_open_keys reclaim fs) = false.
Proof. intros H1 H2. unfold plan_open_keys. destruct (_ && _); destruct g; try reflexivity; contradiction. Qed.
Lemma open_vals_untouched reclaim fs g : g <> FVals -> g <> FValsOld ->
  existsb (footprint g) (plan_open_vals reclaim fs) = false.
Proof. intros H1 H2. unfold plan_open_vals. destruct (_ && _); destruct g; try reflexivity; contradiction. Qed.

Lemma plan_open_files d reclaim fs :
  fget (plan_fs2 d reclaim fs) FKeys = Some (if reclaim then "" else fcontent fs FKeys) /\
  fget (plan_fs2 d reclaim fs) FVals = Some (if reclaim then "" else fcontent fs FVals).
Proof.
  unfold plan_fs2, plan_open1. rewrite apply_fops_app.
  set (F0 := apply_fops fs (plan_open0 d)).
  assert (E0 : forall g, g <> FMeta -> fget F0 g = fget fs g).
  { intros g Hg. apply fget_untouched. destruct g; try reflexivity. contradiction. }
  split.
  - rewrite fget_untouched by (apply open_vals_untouched; discriminate).
    unfold plan_open_keys. rewrite <- (E0 FKeys) by discriminate.
    rewrite (fget_reopen F0 FKeys FKeysOld [] reclaim) by (discriminate || reflexivity).
    unfold fcontent. now rewrite E0.
  - unfold plan_open_vals at 1. rewrite (fget_reopen _ FVals FValsOld [OpRemove FValsOld] reclaim) by (discriminate || reflexivity).
    unfold fcontent. rewrite fget_untouched, E0; [reflexivity|discriminate|]. apply open_keys_untouched; discriminate.
Qed.

Lemma plan_close_files fs fs2 w recs V n0 :
  writer_recs fs w recs V n0 ->
  fget (apply_fops fs (w_ops w ++ plan_close fs2 w)) FKeys = Some (kcat recs) /\
  fget (apply_fops fs (w_ops w ++ plan_close fs2 w)) FVals = Some V.
Proof.
  intros ((P & Q & HP & HQ & HK & HV & _) & _ & _).
  unfold plan_close. rewrite !apply_fops_app.
  set (F := apply_fops (apply_fops (apply_fops fs (w_ops w)) _) _).
  assert (HF : fget F FKeys = Some (kcat recs) /\ fget F FVals = Some V).
  { unfold F. split.
    - rewrite (fget_emit_other FVals FKeys) by discriminate.
      rewrite (fget_emit_same _ _ _ _ HP). now rewrite bw_flush_spec, HK.
    - erewrite (fget_emit_same FVals); [now rewrite bw_flush_spec, HV|].
      now rewrite (fget_emit_other FKeys FVals) by discriminate. }
  destruct HF as [HFk HFv]. clearbody F.
  destruct (fget fs2 FKeysOld); cbn [apply_fops fold_left apply_fop]; auto.
  now rewrite !fget_del_other by discriminate.
Qed.

(* [DiskInv mem fs]: the invariant between snapshots.  The keys file is a sequence of key
   records; see [key_ok] for the per-key relation with memory.  The values file is shorter than
   2^64 bytes (value addresses are stored in 8 bytes). *)
Definition DiskInv (mem : list (str * value)) (fs : files) : Prop :=
  exists recs, fcontent fs FKeys = kcat recs /\ Inv mem recs (fcontent fs FVals) /\
               (fget fs FKeys <> None -> fget fs FVals <> None) /\
               slen (fcontent fs FVals) < two64.

Lemma DiskInv_mem_ok m fs : DiskInv m fs -> mem_ok m.
Proof. now intros (recs & _ & [] & _). Qed.

Lemma DiskInv_map_step m m' fs : DiskInv m fs -> map_step (ent_wf ver_ok) m m' -> DiskInv m' fs.
Proof. intros (recs & HK & HI & HF) HS. exists recs. eauto using Inv_map_step. Qed.

Lemma DiskInv_init : DiskInv [] [].
Proof.
  exists []. split; [reflexivity|]. split; [|split; [intros H; now elim H|reflexivity]].
  constructor.
  - intros k off q H. elim H.
  - intros k mv H. discriminate.
  - constructor.
  - constructor.
  - now left.
Qed.

Lemma plan_w0_recs d reclaim fs clock recs0 V0 :
  fget (plan_fs2 d reclaim fs) FKeys = Some (kcat recs0) -> fget (plan_fs2 d reclaim fs) FVals = Some V0 ->
  writer_recs fs (plan_w0 d reclaim fs clock) recs0 V0 (len (kcat recs0)).
Proof.
  intros HK HV. unfold plan_w0, writer_recs. cbv zeta. cbn [w_ops w_kbuf w_vbuf w_vaddr w_kaddr].
  fold (plan_fs2 d reclaim fs). split; [|split].
  - exists (kcat recs0), V0. cbn [w_ops w_kbuf w_vbuf]. rewrite apply_fops_app. fold (plan_fs2 d reclaim fs).
    rewrite !app_nil_r_s. auto.
  - unfold fsize. now rewrite HV.
  - unfold fsize. rewrite HK. apply slen_kcat.
Qed.

Theorem snapshot_sync d order reclaim fs clock :
  DiskInv (d_map d) fs -> NoDup order ->
  exists recs' V',
    fget (apply_fops fs (fst (fst (snapshot_plan d order reclaim fs clock)))) FKeys = Some (kcat recs') /\
    fget (apply_fops fs (fst (fst (snapshot_plan d order reclaim fs clock)))) FVals = Some V' /\
    Inv (snd (fst (snapshot_plan d order reclaim fs clock))) recs' V' /\
    (forall k, key_synced (snd (fst (snapshot_plan d order reclaim fs clock))) recs' k).
Proof.
  intros (recs & HK & HI & _ & _) Ho.
  rewrite snapshot_plan_unfold. cbn [fst snd]. unfold plan_w1.
  pose proof (inv_nodup _ _ _ HI) as Hnd.
  destruct (plan_open_files d reclaim fs) as [HfK HfV].
  set (todo := keys_to_update (d_map d) order reclaim).
  pose proof (todo_iff (d_map d) order Hnd reclaim) as Htodo. fold todo in Htodo.
  assert (Hnt : NoDup (map fst todo)) by now apply todo_nodup.
  assert (Hloop : exists recs' V',
    writer_recs fs (fold_left (snap_one reclaim) todo (plan_w0 d reclaim fs clock)) recs' V' (if reclaim then 0%nat else len (kcat recs)) /\
    Inv (w_mem (fold_left (snap_one reclaim) todo (plan_w0 d reclaim fs clock))) recs' V' /\
    (forall k, key_synced (w_mem (fold_left (snap_one reclaim) todo (plan_w0 d reclaim fs clock))) recs' k)).
  { destruct reclaim.
    - (* reclaim: from empty files; every key of the map is selected *)
      apply (snap_loop true fs 0%nat pend_r (r_step fs 0%nat) r_other todo _ [] ""); auto.
      + apply (plan_w0_recs d true fs clock [] ""); auto.
      + cbn [plan_w0 w_mem]. split; [apply (inv_mem _ _ _ HI)|split; [exact Hnd|split; [constructor|now left]]].
      + apply Forall_forall. intros [k v] Hin. apply Htodo in Hin. destruct Hin as [Hin _].
        split; [intros off q []|]. apply (inv_mem _ _ _ HI _ _ Hin).
      + intros k. cbn [plan_w0 w_mem]. destruct (assoc_get String.eqb k (d_map d)) as [mv|] eqn:E.
        * left. apply in_map_iff. exists (k, mv). split; auto. now apply Htodo.
        * right. unfold key_ok, key_synced. rewrite E. split; auto. intros off q [].
    - (* no reclaim: exactly the keys that are not Ok are selected *)
      rewrite HK in HfK.
      apply (snap_loop false fs (len (kcat recs)) (pend_nr (len (kcat recs))) (nr_step fs _) (nr_other _)
               todo _ recs (fcontent fs FVals)); auto.
      + apply (plan_w0_recs d false fs clock recs); auto.
      + now apply InvRest_of_Inv.
      + apply Forall_forall. intros [k v] Hin. apply Htodo in Hin. destruct Hin as [Hg Hf]. cbn [orb] in Hf.
        pose proof (inv_keys _ _ _ HI k) as Hk. split; [exact Hk|]. split; [exact Hg|]. cbn [fst snd]. split.
        * intros E. rewrite E in Hf. discriminate.
        * intros Hod. unfold key_ok in Hk. rewrite Hg, Hod in Hk.
          destruct Hk as [(q & Hq & Hqk & _) _]. apply rec_at_end in Hq.
          unfold rsize in Hq. rewrite Hqk in Hq. rewrite <- slen_kcat in Hq. unfold slen in *. lia.
      + intros k. cbn [plan_w0 w_mem]. pose proof (inv_keys _ _ _ HI k) as Hk. unfold key_synced.
        destruct (assoc_get String.eqb k (d_map d)) as [mv|] eqn:E; [|now right].
        destruct (vstate_eqb (v_st mv) VOk) eqn:Est.
        * right. split; auto. destruct (v_st mv); try discriminate; exact I.
        * left. apply in_map_iff. exists (k, mv). split; auto. apply Htodo. now rewrite Est. }
  destruct Hloop as (recs' & V' & HT & HI' & HS').
  exists recs', V'.
  destruct (plan_close_files fs (plan_fs2 d reclaim fs) _ _ _ _ HT) as [H1 H2]. auto.
Qed.

Lemma load_db_wf fs recs V clk :
  fget fs FKeys = Some (kcat recs) -> fget fs FVals = Some V -> Forall (rec_ok V) recs -> slen V < two64 ->
  load_db fs clk = Some (LOk (load_abs recs 0 [] clk) (clk + N.of_nat (length recs))).
Proof.
  intros HK HV Hok Hlt. unfold load_db. rewrite HK, HV. f_equal.
  rewrite (load_loop_recs V Hlt recs _ (kcat recs) ""); auto.
  - repeat split.
  - eapply Forall_impl; [|exact Hok]. apply rec_ok_readable.
  - pose proof (length_le_len_kcat recs). lia.
Qed.

(* From any state satisfying the invariant, after snapshot_plan the loader returns
   exactly the live part of the (updated) memory; the invariant holds again *)
Theorem C06_one_snapshot d order reclaim fs clock :
  DiskInv (d_map d) fs -> NoDup order ->
  let p := snapshot_plan d order reclaim fs clock in
  let fs' := apply_fops fs (fst (fst p)) in
  let mem' := snd (fst p) in
  fsize fs' FVals < two64 ->
  DiskInv mem' fs' /\
  (forall k mv, assoc_get String.eqb k mem' = Some mv -> v_st mv = VOk \/ v_st mv = VDeleted) /\
  forall clk, exists m clk', load_db fs' clk = Some (LOk m clk') /\ restored mem' m.
Proof.
  intros HD Ho. cbv zeta.
  destruct (snapshot_sync d order reclaim fs clock HD Ho) as (recs' & V' & HK & HV & HI & HS).
  set (fs' := apply_fops fs (fst (fst (snapshot_plan d order reclaim fs clock)))) in *.
  set (mem' := snd (fst (snapshot_plan d order reclaim fs clock))) in *.
  intros Hsz.
  assert (HV64 : slen V' < two64) by (unfold fsize in Hsz; now rewrite HV in Hsz).
  split; [|split].
  - exists recs'. unfold fcontent. rewrite HK, HV.
    split; [reflexivity|split; [exact HI|split; [intros _; discriminate|exact HV64]]].
  - intros k mv Hg. pose proof (HS k) as Hs. unfold key_synced in Hs. rewrite Hg in Hs.
    destruct (v_st mv); auto; contradiction.
  - intros clk. eexists. eexists. split.
    + apply (load_db_wf fs' recs' V'); auto. apply (inv_recs _ _ _ HI).
    + eapply restored_after_sync; eauto.
Qed.

Theorem C06_metadata d order reclaim fs clock n :
  d_id d < 2 ^ 64 ->
  load_meta (apply_fops fs (fst (fst (snapshot_plan d order reclaim fs clock)))) n = (d_id d, d_strat d).
Proof.
  intros Hid. rewrite snapshot_plan_unfold. cbn [fst].
  set (d8 := le_bytes 8 (d_id d)). set (d4 := le_bytes 4 (strat_code (d_strat d))).
  (* only the two opening operations touch the metadata file *)
  destruct (wext_fold (fun o => footprint FMeta o = false) reclaim (keys_to_update (d_map d) order reclaim)
              (plan_w0 d reclaim fs clock)) as (new & Eops & Hnew).
  { apply Forall_forall. intros kv _ _ _ ver va. split; reflexivity. }
  fold (plan_w1 d order reclaim fs clock) in Eops.
  assert (Hrest : exists rest,
    w_ops (plan_w1 d order reclaim fs clock) ++ plan_close (plan_fs2 d reclaim fs) (plan_w1 d order reclaim fs clock)
    = plan_open0 d ++ rest /\ existsb (footprint FMeta) rest = false).
  { eexists. split.
    - rewrite Eops. cbn [plan_w0 w_ops]. unfold plan_open1. rewrite <- !app_assoc. reflexivity.
    - unfold plan_close. rewrite !existsb_app, open_keys_untouched, open_vals_untouched by discriminate.
      rewrite (body_ops_untouched (fun o => footprint FMeta o = false) FMeta new) by (auto; discriminate).
      rewrite !footprint_emit by discriminate. destruct (fget _ FKeysOld); reflexivity. }
  destruct Hrest as (rest & -> & Hr). rewrite apply_fops_app. unfold load_meta. rewrite (fget_untouched rest) by exact Hr.
  unfold plan_open0. cbn [apply_fops fold_left].
  rewrite (fget_writeat_same _ _ _ _ _ (fget_create_same fs FMeta)).
  change (N.to_nat 0) with 0%nat. rewrite write_at_pre by lia. cbn [str_take String.append].
  fold d8 d4. rewrite app_assoc_s. set (tl := str_drop _ _).
  rewrite (read_into_exact _ 0 (zeros 8) "" d8 (d4 +++ tl)); auto.
  rewrite (read_into_exact _ 8 (zeros 4) d8 d4 tl); auto.
  unfold d8, d4. rewrite le_decode_8 by exact Hid. now rewrite strat_code_roundtrip.
Qed.

Inductive dev :=
| DvSet (k v : str) (ver : Z) (opp : N)        (* set_value d (mkCh k v ver opp false) *)
| DvRemove (k : str)                           (* remove_value d k *)
| DvInc (k : str) (i : Z) (opp : N)            (* inc_value d k i opp *)
| DvSnap (reclaim : bool) (order : list str)   (* snapshot_plan + apply_fops, memory := returned map *)
| DvRestart.                                   (* memory := what load_db returns from the current files *)

(* memory map, files, clock *)
Definition dstate := (list (str * value) * files * N)%type.
Definition ds_mem (s : dstate) := fst (fst s).
Definition ds_files (s : dstate) := snd (fst s).
Definition ds_clock (s : dstate) := snd s.

(* the database functions only look at / change d_map (watchers only produce messages) *)
Definition db_of (m : list (str * value)) : db := mkDb m [] 0 0 SNone.

(* DvRestart: no keys file = the database is not loaded at all: it restarts empty (a database
   created again under that name is empty); a loader panic makes the run stuck (None) -- the
   theorems below show this never happens. *)
Definition drun (s : dstate) (e : dev) : option dstate :=
  let '(m, fs, clk) := s in
  match e with
  | DvSet k v ver opp => Some (d_map (fst (fst (set_value (db_of m) (mkCh k v ver opp false)))), fs, clk)
  | DvRemove k => Some (d_map (fst (fst (remove_value (db_of m) k))), fs, clk)
  | DvInc k i opp => Some (d_map (fst (fst (inc_value (db_of m) k i opp))), fs, clk)
  | DvSnap reclaim order =>
      let p := snapshot_plan (db_of m) order reclaim fs clk in
      Some (snd (fst p), apply_fops fs (fst (fst p)), snd p)
  | DvRestart =>
      match load_db fs clk with
      | None => Some ([], fs, clk)
      | Some (LOk m' clk') => Some (m', fs, clk')
      | Some LPanic => None
      end
  end.

Fixpoint druns (s : dstate) (evs : list dev) : option dstate :=
  match evs with
  | [] => Some s
  | e :: r => match drun s e with Some s' => druns s' r | None => None end
  end.

(* side conditions on one event, in the state it is applied to:
   - keys and values are valid UTF-8 of at most max_alloc bytes; version arguments are >= -1
     (so that stored versions stay in [0, i32_max]: a stored version -1 IS the on-disk encoding of
     "deleted", see Example version_minus_one_lost);
   - the iteration order of a snapshot visits each key at most once;
   - the values file stays below 2^64 bytes (addresses are stored in 8 bytes). *)
Definition dev_ok (s : dstate) (e : dev) : Prop :=
  match e with
  | DvSet k v ver _ => str_ok k /\ str_ok v /\ (-1 <= ver)%Z
  | DvRemove _ => True
  | DvInc k _ _ => str_ok k
  | DvSnap reclaim order =>
      NoDup order /\
      fsize (apply_fops (ds_files s)
               (fst (fst (snapshot_plan (db_of (ds_mem s)) order reclaim (ds_files s) (ds_clock s))))) FVals < two64
  | DvRestart => True
  end.

Fixpoint devs_ok (s : dstate) (evs : list dev) : Prop :=
  match evs with
  | [] => True
  | e :: r => dev_ok s e /\ match drun s e with Some s' => devs_ok s' r | None => True end
  end.

Definition dinit : dstate := ([], [], 0).

Lemma druns_app s a b : druns s (a ++ b) = match druns s a with Some s' => druns s' b | None => None end.
Proof.
  revert s. induction a as [|e a IH]; intros s; cbn [app druns]; auto.
  destruct (drun s e); auto.
Qed.

Lemma devs_ok_app s a b : devs_ok s (a ++ b) ->
  devs_ok s a /\ forall s', druns s a = Some s' -> devs_ok s' b.
Proof.
  revert s. induction a as [|e a IH]; intros s; cbn [app devs_ok druns].
  - intros H. split; auto. intros s' [= <-]. exact H.
  - intros [He H]. destruct (drun s e) as [s1|].
    + destruct (IH _ H) as [H1 H2]. auto.
    + split; auto. discriminate.
Qed.

Lemma kcat_nil_inv recs : kcat recs = "" -> recs = [].
Proof.
  destruct recs as [|r t]; auto. cbn [kcat]. intros H. apply (f_equal String.length) in H.
  rewrite str_length_app, len_krec in H. pose proof (rsize_pos r). cbn in H. lia.
Qed.

Lemma drun_inv s e :
  DiskInv (ds_mem s) (ds_files s) -> dev_ok s e ->
  exists s', drun s e = Some s' /\ DiskInv (ds_mem s') (ds_files s').
Proof.
  destruct s as [[m fs] clk]. cbn [ds_mem ds_files ds_clock fst snd]. intros HD He.
  destruct e as [k v ver opp|k|k i opp|reclaim order|]; cbn [drun dev_ok] in *.
  - eexists. split; [reflexivity|]. cbn [ds_mem ds_files fst snd]. destruct He as (Hk & Hv & Hver).
    apply (DiskInv_map_step _ _ _ HD).
    apply (set_value_step (fun z => (-1 <= z)%Z) ver_ok) with (d := db_of m); auto using sat_succ_ok, ver_ok_succ.
    + lia.
    + exact (DiskInv_mem_ok _ _ HD).
  - eexists. split; [reflexivity|]. cbn [ds_mem ds_files fst snd]. apply (DiskInv_map_step _ _ _ HD).
    apply (remove_value_step ver_ok) with (d := db_of m); auto using ver_ok_succ.
    exact (DiskInv_mem_ok _ _ HD).
  - eexists. split; [reflexivity|]. cbn [ds_mem ds_files fst snd]. apply (DiskInv_map_step _ _ _ HD).
    apply (inc_value_step ver_ok) with (d := db_of m); auto using ver_ok_succ.
    + unfold ver_ok, i32_max. lia.
    + exact (DiskInv_mem_ok _ _ HD).
  - eexists. split; [reflexivity|]. cbn [ds_mem ds_files fst snd].
    destruct He as [Ho Hsz]. cbn [ds_mem ds_files ds_clock fst snd] in Hsz.
    apply (C06_one_snapshot (db_of m) order reclaim fs clk); auto.
  - destruct HD as (recs & HK & HI & HF & HV).
    pose proof (Inv_restart _ _ _ clk HI) as HI'.
    destruct (fget fs FKeys) as [K|] eqn:EK.
    + destruct (fget fs FVals) as [V|] eqn:EV; [|exfalso; apply HF; congruence].
      unfold fcontent in HK, HI, HI', HV. rewrite EK in HK. rewrite EV in HI, HI', HV. subst K.
      rewrite (load_db_wf fs recs V clk EK EV (inv_recs _ _ _ HI) HV).
      eexists. split; [reflexivity|]. cbn [ds_mem ds_files fst snd].
      exists recs. unfold fcontent. rewrite EK, EV.
      split; [reflexivity|split; [exact HI'|split; [intros _; discriminate|exact HV]]].
    + assert (HL : load_db fs clk = None) by (unfold load_db; now rewrite EK). rewrite HL.
      eexists. split; [reflexivity|]. cbn [ds_mem ds_files fst snd].
      unfold fcontent in HK. rewrite EK in HK. symmetry in HK. apply kcat_nil_inv in HK. subst recs.
      exists []. unfold fcontent at 1. rewrite EK.
      split; [reflexivity|split; [exact HI'|split; [exact HF|exact HV]]].
Qed.

(* arbitrary histories: never stuck (the loader never panics), invariant at the end *)
Theorem C06_history_inv evs : forall s,
  DiskInv (ds_mem s) (ds_files s) -> devs_ok s evs ->
  exists s', druns s evs = Some s' /\ DiskInv (ds_mem s') (ds_files s').
Proof.
  induction evs as [|e r IH]; intros s HD Hok; cbn [druns devs_ok] in *.
  - eauto.
  - destruct Hok as [He Hr]. destruct (drun_inv s e HD He) as (s1 & E1 & HD1).
    rewrite E1 in *. auto.
Qed.

Lemma history_DiskInv evs m fs clk :
  devs_ok dinit evs -> druns dinit evs = Some (m, fs, clk) -> DiskInv m fs.
Proof.
  intros Hok E. destruct (C06_history_inv evs dinit DiskInv_init Hok) as (s' & E' & HD).
  rewrite E in E'. inversion E'; subst. exact HD.
Qed.

(* After ANY snapshot of ANY valid history (snapshots, operations and restarts in any
   order, starting from an empty database without files) the loader returns exactly the live keys
   with their values, versions and disk addresses; keys that are absent or tombstones are not
   loaded; and after a snapshot every key of the map is VOk or a tombstone. *)
Theorem C06_restore_exact evs reclaim order :
  devs_ok dinit (evs ++ [DvSnap reclaim order]) ->
  exists mem fs clk,
    druns dinit (evs ++ [DvSnap reclaim order]) = Some (mem, fs, clk) /\
    (forall k mv, assoc_get String.eqb k mem = Some mv -> v_st mv = VOk \/ v_st mv = VDeleted) /\
    forall clk0, exists m clk', load_db fs clk0 = Some (LOk m clk') /\ restored mem m.
Proof.
  intros Hok. apply devs_ok_app in Hok. destruct Hok as [Hok1 Hok2].
  destruct (C06_history_inv evs dinit DiskInv_init Hok1) as (s1 & E1 & HD1).
  specialize (Hok2 _ E1). cbn [devs_ok] in Hok2. destruct Hok2 as [[Ho Hsz] _].
  rewrite druns_app, E1. destruct s1 as [[m fs] clk]. cbn [druns drun ds_mem ds_files ds_clock fst snd] in *.
  destruct (C06_one_snapshot (db_of m) order reclaim fs clk HD1 Ho Hsz) as (_ & Hst & Hld).
  eexists. eexists. eexists. split; [reflexivity|]. split; auto.
Qed.

(* a restart directly after a snapshot restores exactly the snapshotted live state *)
Corollary C06_restart_after_snapshot evs reclaim order :
  devs_ok dinit (evs ++ [DvSnap reclaim order]) ->
  exists mem fs clk m clk',
    druns dinit (evs ++ [DvSnap reclaim order]) = Some (mem, fs, clk) /\
    druns dinit (evs ++ [DvSnap reclaim order; DvRestart]) = Some (m, fs, clk') /\
    restored mem m.
Proof.
  intros Hok. destruct (C06_restore_exact evs reclaim order Hok) as (mem & fs & clk & E & _ & Hld).
  destruct (Hld clk) as (m & clk' & El & Hr).
  exists mem, fs, clk, m, clk'. split; auto. split; auto.
  replace (evs ++ [DvSnap reclaim order; DvRestart]) with ((evs ++ [DvSnap reclaim order]) ++ [DvRestart])
    by now rewrite <- app_assoc.
  rewrite druns_app, E. cbn [druns drun]. now rewrite El.
Qed.

(* the map part of the three database functions depends on d_map only, so [db_of] loses nothing *)
Lemma set_value_map d ch :
  d_map (fst (fst (set_value d ch))) = d_map (fst (fst (set_value (db_of (d_map d)) ch))).
Proof.
  unfold set_value, get_value, put_value, db_set_map. cbn [db_of d_map].
  destruct (assoc_get String.eqb (c_key ch) (d_map d)); [destruct (_ && _)|]; reflexivity.
Qed.
Lemma remove_value_map d k :
  d_map (fst (fst (remove_value d k))) = d_map (fst (fst (remove_value (db_of (d_map d)) k))).
Proof.
  unfold remove_value, get_value, put_value, db_set_map. cbn [db_of d_map].
  destruct (String.eqb k "$$token"); [reflexivity|].
  destruct (assoc_get String.eqb k (d_map d)) as [v|]; [destruct (v_st v)|]; reflexivity.
Qed.
Lemma inc_value_map d k i opp :
  d_map (fst (fst (inc_value d k i opp))) = d_map (fst (fst (inc_value (db_of (d_map d)) k i opp))).
Proof.
  unfold inc_value, get_value, put_value, db_set_map. cbn [db_of d_map].
  destruct (parse_i32 _); [destruct (_ && _)|]; reflexivity.
Qed.

(* Where [-1 <= ver] is needed (a limit of the format, not of the snapshot code): a
   version argument -2 on a fresh key stores version -1, which on disk means "deleted"; the key
   is VOk in memory after the snapshot but is not loaded at the next start. *)
Example version_minus_one_lost :
  option_map ds_mem (druns dinit [DvSet "a" "x" (-2) 0; DvSnap false []])
    = Some [("a", mkV "x" (-1) 0 VOk 0 0)] /\
  option_map ds_mem (druns dinit [DvSet "a" "x" (-2) 0; DvSnap false []; DvRestart]) = Some [].
Proof. split; vm_compute; reflexivity. Qed.

(* Why [NoDup order] is needed (a HashMap iteration visits each key once): if the
   order visits "a" twice, two live records are written, only the second is marked deleted later,
   and the key is resurrected by the restart. *)
Example dup_order_needs_nodup :
  option_map ds_mem (druns dinit [DvSet "a" "x" (-1) 0; DvSnap false ["a"; "a"]; DvRemove "a"; DvSnap false []])
    = Some [("a", mkV "<Empty>" 1 1 VDeleted 13 21)] /\
  option_map ds_mem (druns dinit [DvSet "a" "x" (-1) 0; DvSnap false ["a"; "a"]; DvRemove "a"; DvSnap false []; DvRestart])
    = Some [("a", mkV "x" 0 2 VOk 0 0)].
Proof. split; vm_compute; reflexivity. Qed.

(* a history exercising every event kind, including a key that is deleted on disk, forgotten by a
   restart and created again (two records for "a" in the keys file, the older one dead) *)
Example history_demo :
  option_map ds_mem (druns dinit
    [DvSet "a" "1" (-1) 1; DvSet "b" "x" (-1) 2; DvSnap false ["b"; "a"]; DvRemove "a"; DvInc "c" 5 3;
     DvSnap false ["c"; "a"; "zz"]; DvRestart; DvSet "a" "new" (-1) 4; DvSnap false []; DvRemove "b";
     DvInc "c" (-7) 9; DvSnap true ["a"]; DvRestart])
  = Some [("a", mkV "new" 0 9 VOk 0 0); ("c", mkV "-2" 2 10 VOk 15 21)].
Proof. vm_compute. reflexivity. Qed.

(* the side conditions are satisfiable (the theorems are not vacuous) *)
Example devs_ok_demo :
  devs_ok dinit [DvSet "a" "1" (-1) 1; DvInc "n" 3 2; DvSnap false ["a"]; DvRemove "a"; DvSnap true ["n"; "a"]; DvRestart].
Proof.
  (* after evaluation the conjuncts are: UTF-8 checks and version bounds that compute ([reflexivity],
     [discriminate] under [<=]), [NoDup] of a concrete order ([constructor], [intuition discriminate]),
     and size bounds of concrete files *)
  vm_compute. repeat split; try (intros; discriminate); try reflexivity;
    repeat constructor; cbn; intuition discriminate.
Qed.
