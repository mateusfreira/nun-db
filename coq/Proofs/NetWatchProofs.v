(* Property C03 at the level of the transports (Model/Net.v): what a TCP or
   WebSocket client reads from its connection when a key is written. *)
From Coq Require Import List String Ascii ZArith NArith Bool Lia.
From NunDB Require Import Base Pending Parse Node Net AssocLemmas NodeLemmas DbProofs Footprint GuardProofs NetProofs
  NetProofs2 WatchProofs.
Import ListNotations.
Open Scope string_scope. Open Scope list_scope.

Lemma term_tcp_version_error key ov ver old ch st :
  term_tcp (RVersionError key ov ver old ch st) = "ok " +++ nlS.
Proof. reflexivity. Qed.

Lemma term_ws_version_error key ov ver old ch st :
  term_ws (RVersionError key ov ver old ch st) = "error Invalid version! " +++ nlS.
Proof. reflexivity. Qed.

Lemma term_tcp_error m : term_tcp (RError m) = "error " +++ m +++ " " +++ nlS.
Proof. reflexivity. Qed.
Lemma term_ws_error m : term_ws (RError m) = "error " +++ m +++ " " +++ nlS.
Proof. reflexivity. Qed.

(* the refusals a client is answered: RError and RVersionError; RPanic is not one here, unlike in
   NodeLemmas.step_refused *)
Definition refused (r : resp) : Prop :=
  match r with RError _ | RVersionError _ _ _ _ _ _ => True | _ => False end.

(* the line the guards queue for the refused client before the answer is returned *)
Definition refusal_msgs (r : resp) : list str :=
  match r with
  | RError m => if String.eqb m no_db_msg || String.eqb m denied_msg then [m] else []
  | _ => []
  end.

Lemma term_ws_tcp r : ~ is_verr r -> term_ws r = term_tcp r.
Proof. destruct r; cbn; try reflexivity. intros H. now destruct H. Qed.

Lemma guard_go_lt n c k req dbn d : guard_safe n c k req = GGo dbn d -> (c < List.length (n_sess n))%nat.
Proof.
  intros G. destruct (guard_safe_go _ _ _ _ _ _ G) as [Hsel _].
  destruct (Nat.lt_ge_cases c (List.length (n_sess n))) as [H|H]; [exact H|].
  unfold get_sess in Hsel. rewrite nth_overflow in Hsel by exact H. discriminate.
Qed.

Lemma step_set n c l k v ver :
  parse_request (trim_char nl l) = POk (RqSet k v ver) ->
  step n c l = (let '(n1, r) := handle n c (RqSet k v ver) in
                replicate_request n1 (RqSet k v ver) (s_db (get_sess n c)) r).
Proof. intros H. apply (step_eq _ _ _ _ H). intros i o. discriminate. Qed.

Lemma replicate_request_set_ok n1 dbn k v ver r :
  has_db n1 dbn = true -> ~ refused r -> r <> RPanic ->
  replicate_request n1 (RqSet k v ver) (Some dbn) r = (replicate_web n1 (replicate_msg dbn k v ver), ROk).
Proof.
  intros H Hr Hp. unfold replicate_request.
  destruct r; try (exfalso; apply Hr; exact I); try congruence; rewrite H; reflexivity.
Qed.

Lemma resp_eq_panic r : r = RPanic \/ r <> RPanic.
Proof. destruct r; (now left) || (right; discriminate). Qed.

(* the handler's set on a database without conflict strategy, primary or not *)
Lemma handle_set_outcome n c k v ver dbn d n' r :
  guard_safe n c k PWrite = GGo dbn d -> d_strat d = SNone ->
  handle n c (RqSet k v ver) = (n', r) ->
  exists n1, set_outcome n n1 dbn d k v r /\ n_dbs n' = n_dbs n1 /\ n_sess n' = n_sess n1.
Proof.
  intros Hg Hs. unfold handle. cbv zeta. rewrite Hg.
  destruct (guard_safe_go _ _ _ _ _ _ Hg) as [_ Hdb].
  destruct (set_key_value n dbn k v ver) as [n1 r1] eqn:E.
  destruct (set_key_value_outcome _ _ _ _ _ _ _ _ Hdb Hs E) as [Ho _].
  intros [= <- <-]. exists n1. split; [exact Ho|]. destruct (is_primary n1); split; reflexivity.
Qed.

Lemma step_set_accepted n c l k v ver dbn d :
  parse_request (trim_char nl l) = POk (RqSet k v ver) ->
  guard_safe n c k PWrite = GGo dbn d -> d_strat d = SNone ->
  snd (step n c l) = ROk ->
  exists d' nv, get_db (fst (step n c l)) dbn = Some d' /\ d_watch d' = d_watch d /\
                get_value d' k = Some nv /\ v_val nv = v /\
                delivered n (fst (step n c l))
                  (fun s => concat (repeat (change_lines k v (v_ver nv)) (nsubs d k s))).
Proof.
  intros Hp Hg Hs. rewrite (step_set _ _ _ _ _ _ Hp).
  destruct (guard_safe_go _ _ _ _ _ _ Hg) as [Hsel Hdb]. rewrite Hsel.
  destruct (handle n c (RqSet k v ver)) as [n1 r] eqn:E.
  destruct (handle_set_outcome _ _ _ _ _ _ _ _ _ Hg Hs E) as (n0 & Ho & Ed & Es).
  destruct Ho as [(-> & d' & nv & H1 & H2 & H3 & H4 & H5)|[Hv _]].
  - assert (Hh : has_db n1 dbn = true).
    { unfold has_db, get_db. rewrite Ed. fold (get_db n0 dbn). now rewrite H1. }
    rewrite replicate_request_set_ok; [|exact Hh|intros []|discriminate].
    intros _. cbn [fst]. exists d', nv.
    split; [|split; [exact H2|split; [exact H3|split; [exact H4|]]]].
    + change (get_db (replicate_web n1 (replicate_msg dbn k v ver)) dbn) with (get_db n1 dbn).
      unfold get_db. rewrite Ed. exact H1.
    + eapply delivered_sess; [exact H5|]. cbn. exact Es.
  - rewrite replicate_request_refused by (destruct r; try destruct Hv; exact I).
    cbn [snd]. intros ->. destruct Hv.
Qed.

Lemma apply_change_refused n dbn d ch n1 r :
  get_db n dbn = Some d -> d_strat d <> SArbiter -> apply_change n dbn ch = (n1, r) -> refused r ->
  is_verr r /\ n_dbs n1 = n_dbs n /\ n_sess n1 = n_sess n.
Proof.
  intros Hdb Hs. unfold apply_change. rewrite Hdb.
  destruct (set_value_cases d ch) as [(d1 & msgs & E)|(old & _ & E)]; rewrite E; cbv beta iota zeta.
  - intros [= <- <-] [].
  - destruct (d_strat d) eqn:S.
    + intros [= <- <-] _. repeat split.
    + destruct (N.ltb _ _).
      * unfold tick. cbv beta iota zeta.
        match goal with |- context [set_value d ?c] =>
          destruct (set_value_cases d c) as [(d2 & msgs2 & E2)|(old2 & _ & E2)]; rewrite E2 end.
        -- intros [= <- <-] [].
        -- intros [= <- <-] _. split; [exact I|].
           cbn [sends fold_left].
           rewrite put_db_same by (rewrite get_db_set_clock; exact Hdb). split; reflexivity.
      * intros [= <- <-] [].
    + congruence.
Qed.

Lemma handle_set_refused n c k v ver n' r :
  (forall dbn d, guard_safe n c k PWrite = GGo dbn d -> d_strat d <> SArbiter) ->
  handle n c (RqSet k v ver) = (n', r) -> refused r ->
  n_dbs n' = n_dbs n /\ delivered n n' (fun s => if Nat.eqb s c then refusal_msgs r else []).
Proof.
  intros Hst. unfold handle. cbv zeta.
  destruct (guard_safe n c k PWrite) as [dbn d|n1 r1] eqn:G.
  - destruct (guard_safe_go _ _ _ _ _ _ G) as [_ Hdb].
    specialize (Hst dbn d eq_refl).
    unfold set_key_value, tick. cbv beta iota zeta.
    destruct (apply_change _ dbn _) as [n1 r1] eqn:E.
    intros [= <- <-] Hr.
    apply apply_change_refused with (d := d) in E; [|rewrite get_db_set_clock; exact Hdb|exact Hst|exact Hr].
    destruct E as (Hv & Ed & Es). cbn [n_set_clock n_dbs n_sess] in Ed, Es.
    split; [destruct (is_primary n1); exact Ed|].
    eapply delivered_ext; [|eapply delivered_sess; [apply delivered_refl|]].
    + intros s. cbn beta. destruct r1; try destruct Hv. cbn [refusal_msgs]. now destruct (Nat.eqb s c).
    + destruct (is_primary n1); exact Es.
  - intros [= <- <-] _.
    assert (Hsend : forall m, refusal_msgs (RError m) = [m] ->
              n_dbs (send n c m) = n_dbs n /\
              delivered n (send n c m) (fun s => if Nat.eqb s c then refusal_msgs (RError m) else [])).
    { intros m Hm. split; [reflexivity|]. rewrite Hm.
      eapply delivered_ext; [|apply delivered_send, delivered_refl]. reflexivity. }
    destruct (guard_safe_stop _ _ _ _ _ _ G) as [[-> ->]|[[-> ->]|[-> ->]]]; try (apply Hsend; reflexivity).
    split; [reflexivity|].
    eapply delivered_ext; [|apply delivered_refl]. intros s. cbn. now destruct (Nat.eqb s c).
Qed.

Lemma handle_set_unrefused_go n c k v ver n1 r :
  handle n c (RqSet k v ver) = (n1, r) -> ~ refused r ->
  exists dbn d, guard_safe n c k PWrite = GGo dbn d.
Proof.
  unfold handle. cbv zeta. destruct (guard_safe n c k PWrite) as [dbn d|n2 r2] eqn:G; [eauto|].
  destruct (guard_safe_stop _ _ _ _ _ _ G) as [[_ ->]|[[_ ->]|[_ ->]]];
    intros [= <- <-] H; exfalso; apply H; exact I.
Qed.

Lemma step_set_refused n c l k v ver :
  parse_request (trim_char nl l) = POk (RqSet k v ver) ->
  (forall dbn d, guard_safe n c k PWrite = GGo dbn d -> d_strat d <> SArbiter) ->
  refused (snd (step n c l)) ->
  n_dbs (fst (step n c l)) = n_dbs n /\
  delivered n (fst (step n c l)) (fun s => if Nat.eqb s c then refusal_msgs (snd (step n c l)) else []).
Proof.
  intros Hp Hst. rewrite (step_set _ _ _ _ _ _ Hp).
  destruct (handle n c (RqSet k v ver)) as [n1 r] eqn:E.
  assert (Hdec : refused r \/ ~ refused r) by (destruct r; cbn; auto).
  destruct Hdec as [Hr|Hr].
  - rewrite replicate_request_refused by (destruct r; try exact I; destruct Hr). cbn [fst snd]. intros _.
    now apply (handle_set_refused n c k v ver).
  - destruct (handle_set_unrefused_go _ _ _ _ _ _ _ E Hr) as (dbn & d & G).
    destruct (guard_safe_go _ _ _ _ _ _ G) as [Hsel Hdb]. rewrite Hsel.
    destruct (resp_eq_panic r) as [->|Hnp].
    + cbn. intros [].
    + rewrite replicate_request_set_ok; [cbn; intros []| |exact Hr|exact Hnp].
      pose proof (handle_keeps n c (RqSet k v ver) dbn) as K. rewrite E in K. cbn [fst] in K.
      apply K. unfold has_db. now rewrite Hdb.
Qed.

(* the notification lines session s is owed for one write of k *)
Definition notes (d : db) (k v : str) (ver : Z) (s : nat) : list str :=
  concat (repeat (change_lines k v ver) (nsubs d k s)).

Lemma notes_none d k v ver s : nsubs d k s = 0%nat -> notes d k v ver s = [].
Proof. unfold notes. now intros ->. Qed.

Lemma notes_one d k v ver s : nsubs d k s = 1%nat -> notes d k v ver s = change_lines k v ver.
Proof. unfold notes. intros ->. reflexivity. Qed.

(* what the inboxes hold after an accepted set answered with terminator [t] *)
Definition set_stream (n n' : node) (w : nat) (dbn : str) (d : db) (k v : str) (t : str) : Prop :=
  exists d' nv,
    get_db n' dbn = Some d' /\ d_watch d' = d_watch d /\ get_value d' k = Some nv /\ v_val nv = v /\
    List.length (n_sess n') = List.length (n_sess n) /\
    (forall s, sess_static (get_sess n' s) (get_sess n s)) /\
    (* every other session: its notification lines, once per subscription, nothing else *)
    (forall s, s <> w -> (s < List.length (n_sess n))%nat ->
       s_inbox (get_sess n' s) = s_inbox (get_sess n s) ++ notes d k v (v_ver nv) s) /\
    (* the writer: its own notification lines (if it watches k), then the terminator, last *)
    (w < List.length (n_sess n))%nat /\
    s_inbox (get_sess n' w) = s_inbox (get_sess n w) ++ notes d k v (v_ver nv) w ++ [t].

Lemma set_stream_of_step n w l k v ver dbn d t :
  parse_request (trim_char nl l) = POk (RqSet k v ver) ->
  guard_safe n w k PWrite = GGo dbn d -> d_strat d = SNone ->
  snd (step n w l) = ROk ->
  set_stream n (send (fst (step n w l)) w t) w dbn d k v t.
Proof.
  intros Hp Hg Hs Hr.
  destruct (step_set_accepted _ _ _ _ _ _ _ _ Hp Hg Hs Hr) as (d' & nv & H1 & H2 & H3 & H4 & H5).
  pose proof (guard_go_lt _ _ _ _ _ _ Hg) as Hw.
  destruct (delivered_send _ _ _ w t H5) as [L H].
  exists d', nv. split; [exact H1|]. split; [exact H2|]. split; [exact H3|]. split; [exact H4|].
  split; [exact L|]. split; [intros s; apply H|]. split; [|split; [exact Hw|]].
  - intros s Hne Hlt. destruct (H s) as [_ Hi]. rewrite (Hi Hlt). cbv beta. unfold notes.
    destruct (Nat.eqb_spec s w); [contradiction|]. now rewrite app_nil_r.
  - destruct (H w) as [_ Hi]. rewrite (Hi Hw). cbv beta. rewrite Nat.eqb_refl. reflexivity.
Qed.

(* [ver]: -1 for "set", the client's version for "set-safe" *)
Theorem tcp_set_stream n w line k v ver dbn d :
  utf8_valid line = true ->
  parse_request (trim_char nl (line +++ nlS)) = POk (RqSet k v ver) ->
  guard_safe n w k PWrite = GGo dbn d -> d_strat d = SNone ->
  snd (step n w (line +++ nlS)) = ROk ->
  snd (tcp_line n w line) = Serving /\
  set_stream n (fst (tcp_line n w line)) w dbn d k v ("ok " +++ nlS).
Proof.
  intros Hu Hp Hg Hs Hr.
  rewrite tcp_line_eq; [|exact Hu|rewrite Hr; discriminate]. cbn [fst snd].
  split; [reflexivity|]. rewrite Hr. cbn [term_tcp].
  now apply (set_stream_of_step n w (line +++ nlS) k v ver).
Qed.

Theorem ws_frame_set_stream n w p k v ver dbn d :
  AdminInv n -> utf8_valid p = true -> (forall i, get i p <> Some ";"%char) ->
  parse_request (trim_char nl p) = POk (RqSet k v ver) ->
  guard_safe n w k PWrite = GGo dbn d -> d_strat d = SNone ->
  snd (step n w p) = ROk ->
  snd (ws_frame n w p) = Serving /\
  set_stream n (fst (ws_frame n w p)) w dbn d k v ("ok " +++ nlS).
Proof.
  intros Hi Hu Hno Hp Hg Hs Hr.
  rewrite (ws_frame_single n w p Hi Hu Hno). cbn [fst snd].
  split; [reflexivity|]. rewrite Hr. cbn [term_ws].
  now apply (set_stream_of_step n w p k v ver).
Qed.

Lemma step_set_answers n w l k v ver dbn d :
  parse_request (trim_char nl l) = POk (RqSet k v ver) ->
  guard_safe n w k PWrite = GGo dbn d -> d_strat d = SNone ->
  snd (step n w l) = ROk \/ is_verr (snd (step n w l)).
Proof.
  intros Hp Hg Hs. rewrite (step_set _ _ _ _ _ _ Hp).
  destruct (guard_safe_go _ _ _ _ _ _ Hg) as [Hsel Hdb]. rewrite Hsel.
  destruct (handle n w (RqSet k v ver)) as [n1 r] eqn:E.
  destruct (handle_set_outcome _ _ _ _ _ _ _ _ _ Hg Hs E) as (n0 & Ho & Ed & Es).
  destruct Ho as [(-> & d' & nv & H1 & _)|[Hv _]].
  - left. rewrite replicate_request_set_ok; [reflexivity| |intros []|discriminate].
    unfold has_db, get_db. rewrite Ed. fold (get_db n0 dbn). now rewrite H1.
  - right. rewrite replicate_request_refused by (destruct r; try destruct Hv; exact I). exact Hv.
Qed.

(* what the inboxes hold after a refused command answered [r] with terminator [t] *)
Definition refused_stream (n n' : node) (w : nat) (r : resp) (t : str) : Prop :=
  n_dbs n' = n_dbs n /\
  List.length (n_sess n') = List.length (n_sess n) /\
  (forall s, s <> w -> get_sess n' s = get_sess n s) /\
  sess_static (get_sess n' w) (get_sess n w) /\
  ((w < List.length (n_sess n))%nat ->
   s_inbox (get_sess n' w) = s_inbox (get_sess n w) ++ refusal_msgs r ++ [t]).

Lemma refused_stream_of_step n w l k v ver t :
  parse_request (trim_char nl l) = POk (RqSet k v ver) ->
  (forall dbn d, guard_safe n w k PWrite = GGo dbn d -> d_strat d <> SArbiter) ->
  refused (snd (step n w l)) ->
  refused_stream n (send (fst (step n w l)) w t) w (snd (step n w l)) t.
Proof.
  intros Hp Hst Hr. destruct (step_set_refused _ _ _ _ _ _ Hp Hst Hr) as [Hd Hdel].
  pose proof (delivered_send _ _ _ w t Hdel) as Hdel2.
  split; [exact Hd|]. split; [apply Hdel2|]. split; [|split].
  - intros s Hne. apply (delivered_nil_eq _ _ _ s Hdel2).
    destruct (Nat.eqb_spec s w); [contradiction|reflexivity].
  - apply Hdel2.
  - intros Hw. destruct Hdel2 as [_ H]. destruct (H w) as [_ Hi]. rewrite (Hi Hw), Nat.eqb_refl. reflexivity.
Qed.

Theorem tcp_refused_stream n w line k v ver :
  utf8_valid line = true ->
  parse_request (trim_char nl (line +++ nlS)) = POk (RqSet k v ver) ->
  (forall dbn d, guard_safe n w k PWrite = GGo dbn d -> d_strat d <> SArbiter) ->
  refused (snd (step n w (line +++ nlS))) ->
  snd (tcp_line n w line) = Serving /\
  refused_stream n (fst (tcp_line n w line)) w (snd (step n w (line +++ nlS)))
                 (term_tcp (snd (step n w (line +++ nlS)))).
Proof.
  intros Hu Hp Hst Hr.
  rewrite tcp_line_eq; [|exact Hu|intros E; rewrite E in Hr; destruct Hr]. cbn [fst snd].
  split; [reflexivity|]. now apply (refused_stream_of_step n w (line +++ nlS) k v ver).
Qed.

Theorem ws_frame_refused_stream n w p k v ver :
  AdminInv n -> utf8_valid p = true -> (forall i, get i p <> Some ";"%char) ->
  parse_request (trim_char nl p) = POk (RqSet k v ver) ->
  (forall dbn d, guard_safe n w k PWrite = GGo dbn d -> d_strat d <> SArbiter) ->
  refused (snd (step n w p)) ->
  snd (ws_frame n w p) = Serving /\
  refused_stream n (fst (ws_frame n w p)) w (snd (step n w p)) (term_ws (snd (step n w p))).
Proof.
  intros Hi Hu Hno Hp Hst Hr.
  rewrite (ws_frame_single n w p Hi Hu Hno). cbn [fst snd].
  split; [reflexivity|]. now apply (refused_stream_of_step n w p k v ver).
Qed.

(* the refused version over the two transports: same inboxes but for the last line *)
Corollary tcp_version_refused_stream n w line k v ver dbn d :
  utf8_valid line = true ->
  parse_request (trim_char nl (line +++ nlS)) = POk (RqSet k v ver) ->
  guard_safe n w k PWrite = GGo dbn d -> d_strat d = SNone ->
  snd (step n w (line +++ nlS)) <> ROk ->
  let n' := fst (tcp_line n w line) in
  n_dbs n' = n_dbs n /\ (forall s, s <> w -> get_sess n' s = get_sess n s) /\
  s_inbox (get_sess n' w) = s_inbox (get_sess n w) ++ ["ok " +++ nlS].
Proof.
  intros Hu Hp Hg Hs Hr n'.
  destruct (step_set_answers _ _ _ _ _ _ _ _ Hp Hg Hs) as [E|Hv]; [contradiction|].
  destruct (tcp_refused_stream n w line k v ver Hu Hp) as [_ (A & _ & B & _ & C)].
  - intros dbn0 d0 G. rewrite Hg in G. injection G as <- <-. congruence.
  - destruct (snd (step n w (line +++ nlS))); try destruct Hv; exact I.
  - split; [exact A|]. split; [exact B|]. unfold n'. rewrite (C (guard_go_lt _ _ _ _ _ _ Hg)).
    destruct (snd (step n w (line +++ nlS))); try destruct Hv. reflexivity.
Qed.

Corollary ws_version_refused_stream n w p k v ver dbn d :
  AdminInv n -> utf8_valid p = true -> (forall i, get i p <> Some ";"%char) ->
  parse_request (trim_char nl p) = POk (RqSet k v ver) ->
  guard_safe n w k PWrite = GGo dbn d -> d_strat d = SNone ->
  snd (step n w p) <> ROk ->
  let n' := fst (ws_frame n w p) in
  n_dbs n' = n_dbs n /\ (forall s, s <> w -> get_sess n' s = get_sess n s) /\
  s_inbox (get_sess n' w) = s_inbox (get_sess n w) ++ ["error Invalid version! " +++ nlS].
Proof.
  intros Hi Hu Hno Hp Hg Hs Hr n'.
  destruct (step_set_answers _ _ _ _ _ _ _ _ Hp Hg Hs) as [E|Hv]; [contradiction|].
  destruct (ws_frame_refused_stream n w p k v ver Hi Hu Hno Hp) as [_ (A & _ & B & _ & C)].
  - intros dbn0 d0 G. rewrite Hg in G. injection G as <- <-. congruence.
  - destruct (snd (step n w p)); try destruct Hv; exact I.
  - split; [exact A|]. split; [exact B|]. unfold n'. rewrite (C (guard_go_lt _ _ _ _ _ _ Hg)).
    destruct (snd (step n w p)); try destruct Hv. reflexivity.
Qed.

(* [conn_closed n c]:
   (a) no other session's subscription moves (any database, any key);
   (b) c holds no subscription on the database it had selected;
   (c) any strategy: a session without subscription in that database is not touched at all;
   (d) no strategy: the only lines queued are the notifications of the "$connections" write of
       Client::left, for the sessions that watch "$connections" in that database (so "nothing is
       sent to anybody" holds exactly for the sessions that do not watch that key; see
       [closing_notifies_connections_watchers] below for a session that does);
   (e) no database selected (or it is gone): only c's own inbox gets the guard's error line. *)
Theorem conn_closed_keeps_others n c :
  (forall x k s, s <> c -> nsubs_n (conn_closed n c) x k s = nsubs_n n x k s) /\
  (forall dbn, s_db (get_sess n c) = Some dbn -> forall k, nsubs_n (conn_closed n c) dbn k c = 0%nat) /\
  (forall dbn d s, s <> c -> s_db (get_sess n c) = Some dbn -> get_db n dbn = Some d -> quiet d s ->
     get_sess (conn_closed n c) s = get_sess n s) /\
  (forall dbn d, s_db (get_sess n c) = Some dbn -> get_db n dbn = Some d -> d_strat d = SNone ->
     (exists ver, forall s, (s < List.length (n_sess n))%nat ->
        s_inbox (get_sess (conn_closed n c) s) =
        s_inbox (get_sess n s) ++
        concat (repeat (change_lines "$connections" (Z_to_str (d_conn d - 1)) ver)
                       (if Nat.eqb s c then 0%nat else nsubs d "$connections" s)))
     \/ n_sess (conn_closed n c) = n_sess n) /\
  ((s_db (get_sess n c) = None \/ exists dbn, s_db (get_sess n c) = Some dbn /\ get_db n dbn = None) ->
     conn_closed n c = send n c no_db_msg).
Proof.
  unfold conn_closed. destruct (disconnect_subs n c) as (A & B & _).
  split; [exact A|]. split; [exact B|]. split; [|split].
  - intros dbn d s. apply disconnect_quiet.
  - intros dbn d. apply disconnect_none_inbox.
  - apply disconnect_no_db.
Qed.

Corollary conn_closed_silent n c dbn d s :
  s_db (get_sess n c) = Some dbn -> get_db n dbn = Some d -> d_strat d = SNone ->
  (s < List.length (n_sess n))%nat -> (s = c \/ nsubs d "$connections" s = 0%nat) ->
  s_inbox (get_sess (conn_closed n c) s) = s_inbox (get_sess n s).
Proof.
  intros Hsel Hdb Hs Hlt Hq.
  destruct (conn_closed_keeps_others n c) as (_ & _ & _ & D & _).
  destruct (D dbn d Hsel Hdb Hs) as [[ver H]|E].
  - rewrite (H s Hlt).
    assert (Z : (if Nat.eqb s c then 0%nat else nsubs d "$connections" s) = 0%nat).
    { destruct Hq as [->|Hq]; [now rewrite Nat.eqb_refl|]. now destruct (Nat.eqb s c). }
    rewrite Z. cbn. now rewrite app_nil_r.
  - unfold get_sess. now rewrite E.
Qed.

(* [wframe c n0 n]: same number of sessions, and for every session but c the same number of
   subscriptions on every key of every database *)
Definition wframe (c : nat) (n0 n : node) : Prop :=
  List.length (n_sess n) = List.length (n_sess n0) /\
  forall x k s, s <> c -> nsubs_n n x k s = nsubs_n n0 x k s.

Lemma wframe_refl c n : wframe c n n.
Proof. split; auto. Qed.

Lemma wframe_same c n0 n n' : wframe c n0 n -> (forall x, get_db n' x = get_db n x) ->
  List.length (n_sess n') = List.length (n_sess n) -> wframe c n0 n'.
Proof.
  intros [L H] Ed El. split; [congruence|]. intros x k s Hs. rewrite <- H by exact Hs.
  unfold nsubs_n. now rewrite Ed.
Qed.

Lemma wframe_put_db c n0 n k d' : wframe c n0 n ->
  (forall k' s, s <> c -> nsubs d' k' s = nsubs_n n k k' s) -> wframe c n0 (put_db n k d').
Proof.
  intros [L H] Hw. split; [exact L|]. intros x k' s Hs. rewrite nsubs_n_put, <- H by exact Hs.
  destruct (String.eqb_spec x k) as [->|]; [auto|reflexivity].
Qed.

Lemma wframe_put_sess c n0 n i s : wframe c n0 n -> wframe c n0 (put_sess n i s).
Proof.
  intros H. eapply wframe_same; [exact H|reflexivity|apply put_sess_len].
Qed.

(* one database operation of c: the arbiter registration and a watch add a subscription of c
   itself, an unwatch removes some; nobody else's moves *)
Lemma dedit_nsubs a c d d' : dedit a c d d' -> forall k s, s <> c -> nsubs d' k s = nsubs d k s.
Proof.
  intros [d1 E _|k0|k0|] k s Hs.
  - exact (nsubs_watch_eq _ _ (f_equal d_watch E) k s).
  - rewrite nsubs_watch_key. destruct (Nat.eqb_spec s c); [contradiction|]. rewrite andb_false_r. lia.
  - rewrite nsubs_unwatch_key. destruct (Nat.eqb_spec s c); [contradiction|]. now rewrite andb_false_r.
  - rewrite nsubs_unwatch_all. destruct (Nat.eqb_spec s c); [contradiction|reflexivity].
Qed.

(* every command of connection c, use-db and the end of the connection included *)
Lemma edits_wframe p c n n' : edits p c n n' -> wframe c n n'.
Proof.
  induction 1 as [|m m' _ IH Ed Es|m i msg _ IH|m s _ IH _ _|m k d d' _ IH Hg De|m k id st d' _ _ IH Hg De|m k d z _ _ IH Hg].
  - apply wframe_refl.
  - apply (wframe_same c n m m' IH Ed). now rewrite Es.
  - now apply wframe_put_sess.
  - now apply wframe_put_sess.
  - apply (wframe_put_db _ _ _ _ _ IH). intros k' s Hs. unfold nsubs_n. rewrite Hg. now apply (dedit_nsubs _ c _ _ De).
  - apply (wframe_put_db _ _ _ _ _ IH). intros k' s Hs. unfold nsubs_n. rewrite Hg. now apply (dedit_nsubs _ c _ _ De).
  - apply (wframe_put_db _ _ _ _ _ IH). intros k' s Hs. unfold nsubs_n. now rewrite Hg.
Qed.

Definition ev_not_by (s : nat) (e : net_ev) : Prop :=
  match e with
  | NTcpLine c _ | NWsFrame c _ | NClosed c => c <> s
  | NConnect | NHttp _ => True
  end.

(* [subs_stable s n n']: no session disappeared and s holds the same subscriptions *)
Definition subs_stable (s : nat) (n n' : node) : Prop :=
  (List.length (n_sess n) <= List.length (n_sess n'))%nat /\
  forall x k, nsubs_n n' x k s = nsubs_n n x k s.

Lemma edits_stable c s n n' : c <> s -> edits all_caps c n n' -> subs_stable s n n'.
Proof. intros Hne He. destruct (edits_wframe _ _ _ _ He) as [L H]. split; [lia|]. intros x k. apply H. congruence. Qed.

Lemma subs_stable_trans s a b c : subs_stable s a b -> subs_stable s b c -> subs_stable s a c.
Proof. intros [L1 H1] [L2 H2]. split; [lia|]. intros x k. now rewrite H2. Qed.

Lemma connect_stable s n : subs_stable s n (fst (connect n)).
Proof.
  unfold connect. cbn [fst]. split.
  - cbn [n_set_sess n_sess]. rewrite app_length. lia.
  - reflexivity.
Qed.

(* an HTTP request runs on a temporary session of its own, numbered after the open ones *)
Lemma http_request_stable s n body : (s < List.length (n_sess n))%nat -> subs_stable s n (fst (http_request n body)).
Proof.
  intros Hs. unfold http_request.
  pose proof (connect_stable s n) as H0.
  assert (Hc : snd (connect n) = List.length (n_sess n)) by reflexivity.
  destruct (connect n) as [n0 c]. cbn [fst snd] in *.
  pose proof (http_commands_edits c (split_char ";" body) n0 []) as H1.
  destruct (http_commands n0 c (split_char ";" body) []) as [n1 out]. cbn [fst] in *.
  eapply subs_stable_trans; [exact H0|].
  apply (edits_stable c); [lia|].
  exact (edits_trans H1 (edits_all_caps (disconnect_edits c n1))).
Qed.

Lemma net_step_stable s n e : (s < List.length (n_sess n))%nat -> ev_not_by s e ->
  subs_stable s n (fst (net_step n e)).
Proof.
  intros Hs He. rewrite net_step_eq. destruct e as [|c b|c b|b|c]; cbn [fst ev_not_by] in *.
  - apply connect_stable.
  - apply (edits_stable c); [exact He|apply tcp_line_edits].
  - apply (edits_stable c); [exact He|apply ws_frame_edits].
  - unfold http_bytes. destruct (utf8_valid b); cbn [negb fst].
    + now apply http_request_stable.
    + split; [lia|reflexivity].
  - apply (edits_stable c); [exact He|]. exact (edits_all_caps (disconnect_edits _ _)).
Qed.

Theorem net_run_subscription_stable evs : forall n s,
  (s < List.length (n_sess n))%nat -> Forall (ev_not_by s) evs ->
  (s < List.length (n_sess (fst (net_run n evs))))%nat /\
  forall x k, nsubs_n (fst (net_run n evs)) x k s = nsubs_n n x k s.
Proof.
  induction evs as [|e r IH]; intros n s Hs Hall; [split; [exact Hs|reflexivity]|].
  inversion Hall as [|e' r' He Hr]; subst.
  rewrite net_run_cons.
  destruct (net_step_stable s n e Hs He) as [L H].
  destruct (IH (fst (net_step n e)) s) as [L2 H2]; [lia|exact Hr|].
  split; [exact L2|]. intros x k. now rewrite H2.
Qed.

Corollary net_run_subscription_stable_db evs n s dbn d k :
  (s < List.length (n_sess n))%nat -> Forall (ev_not_by s) evs -> get_db n dbn = Some d ->
  match get_db (fst (net_run n evs)) dbn with
  | Some d' => nsubs d' k s = nsubs d k s
  | None => nsubs d k s = 0%nat
  end.
Proof.
  intros Hs Hall Hdb. destruct (net_run_subscription_stable evs n s Hs Hall) as [_ H].
  specialize (H dbn k). unfold nsubs_n in H. rewrite Hdb in H.
  destruct (get_db (fst (net_run n evs)) dbn); auto.
Qed.

Definition nw0 : node := init_node "u" "p" "a" 1 Primary 0.

(* two TCP connections on database "a" (no conflict strategy) of a primary; connection 1 watches k *)
Definition nw1 : node := fst (net_run nw0
  [NConnect; NConnect; NTcpLine 0 "auth u p"; NTcpLine 0 "create-db a ta"; NTcpLine 0 "create-db b tb";
   NTcpLine 0 "use-db a ta"; NTcpLine 1 "use-db a ta"; NTcpLine 1 "watch k"]).

(* same text as NetProofs2.okT *)
Definition okT : str := "ok " +++ nlS.

Definition inbox0 : list str :=
  ["valid auth" +++ nlS; okT; "create-db success" +++ nlS; okT; "create-db success" +++ nlS; okT; okT].
Definition inbox1 : list str := [okT; okT].

(* connection 0 sets k: the watcher reads the two change lines, the writer reads "ok \n" *)
Example tcp_watch_set_example :
  let n := fst (tcp_line nw1 0 "set k v1") in
  s_inbox (get_sess nw1 0) = inbox0 /\ s_inbox (get_sess nw1 1) = inbox1 /\
  s_inbox (get_sess n 0) = inbox0 ++ [okT] /\
  s_inbox (get_sess n 1) = inbox1 ++ ["changed k v1" +++ nlS; "changed-version k 0 v1" +++ nlS] /\
  s_inbox (get_sess n 1) = inbox1 ++ change_lines "k" "v1" 0.
Proof. vm_compute. repeat split; reflexivity. Qed.

(* the hypotheses of [tcp_set_stream] hold there: the theorem applies to this very step *)
Example tcp_set_stream_applies :
  exists d, set_stream nw1 (fst (tcp_line nw1 0 "set k v1")) 0 "a" d "k" "v1" ("ok " +++ nlS).
Proof.
  eexists. eapply (tcp_set_stream nw1 0 "set k v1" "k" "v1" (-1)%Z "a").
  - vm_compute. reflexivity.
  - vm_compute. reflexivity.
  - vm_compute. reflexivity.
  - vm_compute. reflexivity.
  - vm_compute. reflexivity.
Qed.

(* a writer that watches the key itself: its change lines come BEFORE its terminator; then a
   refused version: "ok \n" over TCP, "error Invalid version! \n" over WebSocket, and nothing for
   the watcher; then a refusal by the guard: the error line, for the writer only *)
Example stream_order_example :
  let n2 := fst (net_run nw1 [NTcpLine 1 "set k v1"]) in
  let n3 := fst (net_run n2 [NTcpLine 0 "set-safe k 0 v2"]) in
  let n4 := fst (net_run n3 [NTcpLine 0 "set-safe k 0 v0"]) in
  let n5 := fst (net_run n4 [NWsFrame 0 "set-safe k 0 v0"]) in
  let n6 := fst (net_run n5 [NTcpLine 0 "set $$x 1"; NWsFrame 1 "set $$x 1"]) in
  s_inbox (get_sess n2 1) = inbox1 ++ change_lines "k" "v1" 0 ++ [okT] /\
  s_inbox (get_sess n2 0) = inbox0 /\
  s_inbox (get_sess n3 1) = s_inbox (get_sess n2 1) ++ change_lines "k" "v2" 1 /\
  s_inbox (get_sess n3 0) = inbox0 ++ [okT] /\
  s_inbox (get_sess n4 1) = s_inbox (get_sess n3 1) /\
  s_inbox (get_sess n4 0) = s_inbox (get_sess n3 0) ++ [okT] /\
  s_inbox (get_sess n5 1) = s_inbox (get_sess n3 1) /\
  s_inbox (get_sess n5 0) = s_inbox (get_sess n4 0) ++ ["error Invalid version! " +++ nlS] /\
  s_inbox (get_sess n6 0) = s_inbox (get_sess n5 0) ++ [okT] /\      (* connection 0 is the admin: accepted *)
  s_inbox (get_sess n6 1) = s_inbox (get_sess n5 1) ++
                            ["error To read security keys you must auth as an admin! " +++ nlS].
Proof. vm_compute. repeat split; reflexivity. Qed.

(* a connection without database: the guard's line, then the terminator *)
Example no_db_refusal_example :
  let n := fst (net_run nw0 [NConnect; NTcpLine 0 "set k v"]) in
  s_inbox (get_sess n 0) = [no_db_msg; "error " +++ no_db_msg +++ " " +++ nlS] /\
  refusal_msgs (snd (step (fst (net_run nw0 [NConnect])) 0 ("set k v" +++ nlS))) = [no_db_msg].
Proof. vm_compute. split; reflexivity. Qed.

(* why [tcp_refused_stream] excludes the arbiter strategy: on a database with the arbiter strategy a
   refused version is a conflict; the writer is answered an error, but the arbiter client (another
   session) is sent the "resolve ..." line -- a refused write that does reach somebody else *)
Example arbiter_refusal_reaches_the_arbiter :
  let n1 := fst (net_run nw0
    [NConnect; NConnect; NTcpLine 0 "auth u p"; NTcpLine 0 "create-db a ta arbiter";
     NTcpLine 0 "use-db a ta"; NTcpLine 1 "use-db a ta"; NTcpLine 1 "arbiter";
     NTcpLine 0 "set k v1"; NTcpLine 0 "set k v2"]) in
  let n2 := fst (tcp_line n1 0 "set-safe k 0 v0") in
  snd (step n1 0 ("set-safe k 0 v0" +++ nlS)) = RError "$$conflitct unresolved $conflicts_k_11" /\
  s_inbox (get_sess n1 1) = [okT; okT] /\
  s_inbox (get_sess n2 1) = [okT; okT; "resolve 11 a 1 k v2 v0"] /\
  s_inbox (get_sess n2 0) = s_inbox (get_sess n1 0) ++ ["error $$conflitct unresolved $conflicts_k_11 " +++ nlS].
Proof. vm_compute. repeat split; reflexivity. Qed.

(* why (d) of [conn_closed_keeps_others] counts the watchers of "$connections": the end of
   connection 0 writes the connection counter of its database, and a session watching that key is
   notified *)
Example closing_notifies_connections_watchers :
  let n := fst (net_run nw1 [NTcpLine 1 "watch $connections"]) in
  let n' := conn_closed n 0 in
  s_inbox (get_sess n' 1) = s_inbox (get_sess n 1) ++ change_lines "$connections" "1" 2 /\
  nsubs_n n' "a" "k" 1 = 1%nat /\ nsubs_n n' "a" "$connections" 1 = 1%nat /\
  s_inbox (get_sess n' 0) = s_inbox (get_sess n 0).
Proof. vm_compute. repeat split; reflexivity. Qed.

(* [net_run_subscription_stable] on the example: connection 0 and an HTTP client do what they like, connection 1 keeps
   its subscription, and is notified of the last write *)
Example run_keeps_subscription_example :
  let evs := [NTcpLine 0 "watch k"; NTcpLine 0 "unwatch k"; NTcpLine 0 "unwatch-all"; NConnect;
              NHttp "use-db a ta;watch k;unwatch-all"; NWsFrame 2 "use-db a ta;watch k"; NClosed 2;
              NTcpLine 0 "use-db b tb"; NClosed 0; NWsFrame 2 "use-db a ta;set k v9"] in
  let n := fst (net_run nw1 evs) in
  Forall (ev_not_by 1) evs /\
  nsubs_n nw1 "a" "k" 1 = 1%nat /\ nsubs_n n "a" "k" 1 = 1%nat /\
  last (s_inbox (get_sess n 1)) "" = "changed-version k 0 v9" +++ nlS.
Proof.
  cbv zeta. split; [repeat constructor; discriminate|]. vm_compute. repeat split; reflexivity.
Qed.

(* the hypothesis "s is an open connection" of [net_run_subscription_stable] is needed: an HTTP request runs on the next
   session number; if it watches a key, selects another database and ends, that number keeps the
   subscription (the stale subscription of WatchProofs.stale_subscription_after_db_switch) *)
Example unopened_session_number_is_not_stable :
  let evs := [NHttp "use-db a ta;watch k;use-db b tb"] in
  List.length (n_sess nw1) = 2%nat /\ Forall (ev_not_by 2) evs /\
  nsubs_n nw1 "a" "k" 2 = 0%nat /\ nsubs_n (fst (net_run nw1 evs)) "a" "k" 2 = 1%nat.
Proof.
  cbv zeta. split; [reflexivity|]. split; [repeat constructor|]. vm_compute. split; reflexivity.
Qed.

Check term_tcp_version_error. Check term_ws_version_error.
Check tcp_set_stream. Check ws_frame_set_stream.
Check tcp_refused_stream. Check ws_frame_refused_stream.
Check tcp_version_refused_stream. Check ws_version_refused_stream.
Check conn_closed_keeps_others. Check conn_closed_silent.
Check net_run_subscription_stable. Check net_run_subscription_stable_db.
Print set_stream. Print refused_stream. Print notes. Print refused. Print refusal_msgs.
Print wframe. Print ev_not_by.
Print Assumptions term_tcp_version_error.
Print Assumptions term_ws_version_error.
Print Assumptions tcp_set_stream.
Print Assumptions ws_frame_set_stream.
Print Assumptions tcp_refused_stream.
Print Assumptions ws_frame_refused_stream.
Print Assumptions tcp_version_refused_stream.
Print Assumptions ws_version_refused_stream.
Print Assumptions conn_closed_keeps_others.
Print Assumptions conn_closed_silent.
Print Assumptions net_run_subscription_stable.
Print Assumptions net_run_subscription_stable_db.
Print Assumptions tcp_watch_set_example.
Print Assumptions tcp_set_stream_applies.
Print Assumptions stream_order_example.
Print Assumptions arbiter_refusal_reaches_the_arbiter.
Print Assumptions closing_notifies_connections_watchers.
Print Assumptions run_keeps_subscription_example.
Print Assumptions unopened_session_number_is_not_stable.
