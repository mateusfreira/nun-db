(* List facts missing from the Coq 8.16 standard library, by topic: NoDup, membership and the boolean
   tests, filter and counting, folds, positions (nth_error, skipn, firstn, last), Forall2, sorted
   lists, choice. *)
From NunDB Require Import Model.Base.
From Coq Require Import Lia Sorting.Sorted.

Lemma nodup_app {A} (a b : list A) : NoDup a -> NoDup b -> (forall x, In x a -> ~ In x b) -> NoDup (a ++ b).
Proof.
  induction a as [|x a IH]; cbn; auto. intros Ha Hb Hd. inversion Ha; subst.
  constructor.
  - rewrite in_app_iff. intros [H|H]; auto. eapply Hd; eauto.
  - apply IH; auto.
Qed.

Lemma nodup_snoc {A} (l : list A) x : NoDup l -> ~ In x l -> NoDup (l ++ [x]).
Proof.
  intros Hnd Hnin. apply nodup_app; [exact Hnd|repeat constructor; intros []|]. intros y Hy [<-|[]]. auto.
Qed.

Lemma existsb_eqb_In {A} (eqb : A -> A -> bool) (eqb_spec : forall a b, reflect (a = b) (eqb a b)) x l :
  existsb (eqb x) l = true <-> In x l.
Proof.
  rewrite existsb_exists. split.
  - intros (y & Hin & E). destruct (eqb_spec x y); congruence.
  - intros H. exists x. split; auto. destruct (eqb_spec x x); congruence.
Qed.

Lemma existsb_ext_in {A} (f g : A -> bool) l :
  (forall x, In x l -> f x = g x) -> existsb f l = existsb g l.
Proof.
  induction l as [|a l IH]; cbn; auto. intros H. rewrite (H a) by auto. rewrite IH; auto.
Qed.

Fixpoint nodupb {A} (eqb : A -> A -> bool) (l : list A) : bool :=
  match l with [] => true | x :: r => negb (existsb (eqb x) r) && nodupb eqb r end.

Lemma nodupb_NoDup {A} (eqb : A -> A -> bool) (eqb_spec : forall a b, reflect (a = b) (eqb a b)) l :
  nodupb eqb l = true -> NoDup l.
Proof.
  induction l as [|x r IH]; cbn [nodupb]; intros H; constructor; apply andb_true_iff in H as [Hx Hr]; auto.
  apply negb_true_iff in Hx. intros Hin. apply (existsb_eqb_In eqb eqb_spec) in Hin. congruence.
Qed.

Lemma nth_error_Forall {A} (P : A -> Prop) l i x : Forall P l -> nth_error l i = Some x -> P x.
Proof. intros H E. rewrite Forall_forall in H. apply H. eapply nth_error_In; eauto. Qed.

Lemma nth_error_forallb {A} (p : A -> bool) l i x :
  forallb p l = true -> nth_error l i = Some x -> p x = true.
Proof. intros H Hn. rewrite forallb_forall in H. apply H. eapply nth_error_In; exact Hn. Qed.

Lemma filter_all_true {A} (f : A -> bool) l : (forall x, In x l -> f x = true) -> filter f l = l.
Proof.
  induction l as [|y r IH]; intros H; cbn [filter]; [reflexivity|].
  rewrite (H y (or_introl eq_refl)), IH; [reflexivity|].
  intros x Hx. apply H. now right.
Qed.

Lemma filter_idem {A} (P : A -> bool) l : filter P (filter P l) = filter P l.
Proof. apply filter_all_true. intros x Hx. now apply filter_In in Hx. Qed.

Lemma filter_map_length {A B} (f : A -> B) (p : B -> bool) l :
  List.length (filter p (map f l)) = List.length (filter (fun x => p (f x)) l).
Proof. induction l as [|x r IH]; cbn; [reflexivity|]. destruct (p (f x)); cbn; now rewrite IH. Qed.

Lemma count_occ_filter_negb_eqb l s c :
  count_occ Nat.eq_dec (filter (fun x => negb (Nat.eqb x c)) l) s =
  if Nat.eqb s c then O else count_occ Nat.eq_dec l s.
Proof.
  induction l as [|x l IH]; cbn [filter].
  - now destruct (Nat.eqb s c).
  - destruct (Nat.eqb_spec x c) as [Exc|Hxc]; cbn [negb].
    + rewrite IH. destruct (Nat.eqb_spec s c) as [Esc|Hsc]; auto.
      rewrite count_occ_cons_neq by congruence. reflexivity.
    + destruct (Nat.eq_dec x s) as [Exs|Hxs].
      * rewrite !count_occ_cons_eq by assumption. rewrite IH.
        destruct (Nat.eqb_spec s c); [congruence|reflexivity].
      * rewrite !count_occ_cons_neq by assumption. exact IH.
Qed.

Lemma fold_left_ext {A B} (f g : A -> B -> A) :
  (forall a b, f a b = g a b) -> forall l a, fold_left f l a = fold_left g l a.
Proof. intros H. induction l as [|b l IH]; intros a; cbn; auto. now rewrite H, IH. Qed.

Lemma concat_repeat_comm {A} (l : list A) m : l ++ concat (repeat l m) = concat (repeat l m) ++ l.
Proof.
  induction m as [|m IH]; cbn [repeat concat]; [now rewrite app_nil_r|].
  now rewrite <- app_assoc, <- IH.
Qed.

Lemma last_cons_ne {A} (a : A) l d : l <> [] -> last (a :: l) d = last l d.
Proof. destruct l; [congruence|reflexivity]. Qed.

Lemma rev_last_hd {A} (l : list A) (d : A) :
  match rev l with x :: _ => l <> [] /\ last l d = x | [] => l = [] end.
Proof.
  destruct l as [|a l] using rev_ind; cbn; auto.
  rewrite rev_app_distr. cbn. split.
  - now destruct l.
  - apply last_last.
Qed.

Lemma skipn_nth {A} (l : list A) : forall i x, nth_error l i = Some x -> skipn i l = x :: skipn (S i) l.
Proof.
  induction l as [|a r IH]; intros [|i] x E; try discriminate; cbn in *.
  - now injection E as ->.
  - now apply IH.
Qed.

Lemma firstn_S_nth {A} (l : list A) : forall i x, nth_error l i = Some x -> firstn (S i) l = firstn i l ++ [x].
Proof.
  induction l as [|a r IH]; intros [|i] x E; try discriminate; cbn in *.
  - now injection E as ->.
  - f_equal. now apply IH.
Qed.

Lemma in_skipn_nth {A} : forall s (l : list A) a, In a (skipn s l) ->
  exists i, (s <= i)%nat /\ nth_error l i = Some a.
Proof.
  induction s as [|s IH]; intros l a Hin.
  - apply In_nth_error in Hin. destruct Hin as [i Hi]. exists i. split; [lia|exact Hi].
  - destruct l as [|b l]; [destruct Hin|]. cbn [skipn] in Hin.
    destruct (IH l a Hin) as (i & Hi & Hn). exists (S i). split; [lia|exact Hn].
Qed.

Lemma skipn_length_app {A} (a b : list A) : skipn (List.length a) (a ++ b) = b.
Proof. induction a as [|x a IH]; cbn; [reflexivity|exact IH]. Qed.

Lemma ltb_length_app {A} (a b : list A) :
  Nat.ltb (List.length a) (List.length (a ++ b)) = negb (Nat.eqb (List.length b) 0).
Proof.
  rewrite app_length. destruct (List.length b); cbn [Nat.eqb negb]; [apply Nat.ltb_ge|apply Nat.ltb_lt]; lia.
Qed.

Lemma Forall2_in_l {A B} (R : A -> B -> Prop) : forall l l', Forall2 R l l' ->
  forall a, In a l -> exists b, In b l' /\ R a b.
Proof.
  induction 1 as [|a0 b0 l l' H0 H IH]; intros a Hin; [destruct Hin|].
  destruct Hin as [<-|Hin].
  - exists b0. split; [now left|exact H0].
  - destruct (IH a Hin) as (b & Hb & Hr). exists b. split; [now right|exact Hr].
Qed.

Lemma Forall2_in_r {A B} (R : A -> B -> Prop) : forall l l', Forall2 R l l' ->
  forall b, In b l' -> exists a, In a l /\ R a b.
Proof.
  induction 1 as [|a0 b0 l l' H0 H IH]; intros b Hin; [destruct Hin|].
  destruct Hin as [<-|Hin].
  - exists a0. split; [now left|exact H0].
  - destruct (IH b Hin) as (a & Ha & Hr). exists a. split; [now right|exact Hr].
Qed.

Lemma Forall2_mid {A B} (R : A -> B -> Prop) s1 a s2 l : Forall2 R (s1 ++ a :: s2) l ->
  exists t1 b t2, l = t1 ++ b :: t2 /\ R a b /\ Forall2 R s2 t2.
Proof.
  intros H. apply Forall2_app_inv_l in H as (t1 & t' & _ & H & ->).
  inversion H as [|? b ? t2 Hab H2]; subst. now exists t1, b, t2.
Qed.

Lemma Forall2_imp {A B} (R R' : A -> B -> Prop) l l' :
  (forall a b, R a b -> R' a b) -> Forall2 R l l' -> Forall2 R' l l'.
Proof. intros H. induction 1; constructor; auto. Qed.

Lemma Forall2_map_eq {A B} (R : A -> A -> Prop) (f : A -> B) :
  (forall a b, R a b <-> f a = f b) -> forall l1 l2, Forall2 R l1 l2 <-> map f l1 = map f l2.
Proof.
  intros H l1. induction l1 as [|a l1 IH]; intros [|b l2]; cbn; split; intros H1;
    try discriminate; try inversion H1; subst; auto.
  - f_equal; [now apply H | now apply IH].
  - constructor; [now apply H | now apply IH].
Qed.

Lemma ssorted_app_inv {A} (R : A -> A -> Prop) u w : StronglySorted R (u ++ w) ->
  StronglySorted R u /\ StronglySorted R w /\ forall a b, In a u -> In b w -> R a b.
Proof.
  induction u as [|x u IH]; cbn [app]; intros H.
  - split; [constructor|]. split; [exact H|]. intros a b [].
  - inversion H as [|y l Hss Hfa]; subst. destruct (IH Hss) as (H1 & H2 & H3).
    rewrite Forall_forall in Hfa. split; [|split; [exact H2|]].
    + constructor; [exact H1|]. apply Forall_forall. intros c Hc. apply Hfa, in_or_app. now left.
    + intros a b [->|Ha] Hb; [apply Hfa, in_or_app; now right|now apply H3].
Qed.

Lemma ssorted_app_tail {A} (R : A -> A -> Prop) u b w : StronglySorted R (u ++ b :: w) -> Forall (R b) w.
Proof. intros H. apply ssorted_app_inv in H as (_ & H & _). now inversion H. Qed.

Lemma ssorted_snoc {A} (R : A -> A -> Prop) l x : StronglySorted R (l ++ [x]) -> Forall (fun y => R y x) l.
Proof.
  intros H. apply ssorted_app_inv in H as (_ & _ & H). apply Forall_forall. intros y Hy. apply H; [exact Hy|now left].
Qed.

Lemma choice_list {K A} (eq_dec : forall x y : K, {x = y} + {x <> y}) (R : K -> A -> Prop) (d : A) l :
  (forall x, In x l -> exists a, R x a) -> exists f, forall x, In x l -> R x (f x).
Proof.
  induction l as [|y l IH]; intros H; [exists (fun _ => d); intros x []|].
  destruct IH as [f Hf]; [intros x Hx; apply H; now right|].
  destruct (H y (or_introl eq_refl)) as [a Ha].
  exists (fun x => if eq_dec x y then a else f x). intros x Hx.
  destruct (eq_dec x y) as [->|Hne]; [exact Ha|]. destruct Hx as [->|Hx]; [congruence|auto].
Qed.
