(* Property C09 (credentials), revocation part:
   "a user without a permission list can reach no key's value; permission changes
    made mid-session take effect on the very next command".

   The administrator's `remove $$permission_$<user>` either drops the entry (state VNew)
   or leaves a tombstone (text "<Empty>", state VDeleted).  [has_permission] parses the
   stored text without looking at the state, so the defect class to exclude is the
   tombstone text being read as a permission statement that grants something.

   ClusterProofs and ConvergeProofs are imported for the client line `remove <key>` ([remove_line],
   [parse_remove_line]) and for [simple_tok u]: the user name is one non-empty word without white
   space that does not end in ';', so that the administrator's line parses back to the request. *)
From NunDB Require Import Model.Base Model.Pending Model.Parse Model.Node
  Proofs.AssocLemmas Proofs.StrLemmas Proofs.NodeLemmas Proofs.DbProofs Proofs.GuardProofs Proofs.ClusterProofs Proofs.ConvergeProofs.
Local Open Scope Z_scope.

Definition perm_key (u : str) : str := "$$permission_$" +++ u.

Definition list_grants (ps : list permission) (key : str) (kind : perm_kind) : bool :=
  existsb (fun p => existsb (perm_kind_eqb kind) (pm_kinds p) &&
                    existsb (fun pat => pattern_match key pat) (pm_keys p)) ps.

(* the same as a Prop: [GuardProofs.grants] without its [get_value] conjunct, for a list already read;
   [list_grants_iff] is the [Some] branch of [GuardProofs.has_permission_spec_gen] *)
Definition list_grants_P (ps : list permission) (key : str) (kind : perm_kind) : Prop :=
  exists p pat, In p ps /\
    (exists kd, In kd (pm_kinds p) /\ perm_kind_eqb kind kd = true) /\
    In pat (pm_keys p) /\ pattern_match key pat = true.

Lemma list_grants_iff ps key kind : list_grants ps key kind = true <-> list_grants_P ps key kind.
Proof.
  unfold list_grants, list_grants_P. rewrite existsb_exists. split.
  - intros (p & Hin & Hb). apply andb_true_iff in Hb as [H1 H2].
    apply existsb_exists in H1 as (kd & Hkd & Ekd). apply existsb_exists in H2 as (pat & Hpat & Epat).
    exists p, pat. repeat split; eauto.
  - intros (p & pat & Hin & (kd & Hkd & Ekd) & Hpat & Epat).
    exists p. split; auto. apply andb_true_iff. split; apply existsb_exists; eauto.
Qed.

Lemma has_permission_list n c key d kind u :
  starts_with key "$$" = false -> s_user (get_sess n c) = Some u ->
  has_permission n c key d kind =
    match get_value d (perm_key u) with
    | Some v => list_grants (permissions_from_str (v_val v)) key kind
    | None => String.eqb u "all"
    end.
Proof. intros Hk Hu. unfold has_permission, perm_key, list_grants. rewrite Hk, Hu. reflexivity. Qed.

(* "<Empty>" has no space, so it is read as a list of kinds (each of its seven bytes is
   not one of r/w/i/x and so counts as Read) with NO key pattern at all. *)
Lemma empty_text_parsed :
  permissions_from_str "<Empty>" = [mkPerm [PRead; PRead; PRead; PRead; PRead; PRead; PRead] []].
Proof. vm_compute. reflexivity. Qed.

Theorem empty_text_grants_nothing key kind :
  list_grants (permissions_from_str "<Empty>") key kind = false.
Proof.
  rewrite empty_text_parsed. unfold list_grants. cbn [existsb pm_keys].
  rewrite andb_false_r. reflexivity.
Qed.

Corollary empty_text_grants_nothing_P key kind :
  ~ list_grants_P (permissions_from_str "<Empty>") key kind.
Proof. rewrite <- list_grants_iff, empty_text_grants_nothing. discriminate. Qed.

(* stated without [s_auth = false]: on an ordinary key [has_permission] does not look at it *)
Theorem tombstone_list_denies n c u d v key kind :
  s_user (get_sess n c) = Some u -> starts_with key "$$" = false ->
  get_value d (perm_key u) = Some v -> v_val v = "<Empty>" ->
  has_permission n c key d kind = false.
Proof.
  intros Hu Hk Hv Ht. rewrite (has_permission_list n c key d kind u Hk Hu), Hv, Ht.
  apply empty_text_grants_nothing.
Qed.

(* needs u <> "all": the user named "all" with no list is the open-access default *)
Theorem absent_list_denies n c u d key kind :
  s_user (get_sess n c) = Some u -> u <> "all" -> starts_with key "$$" = false ->
  get_value d (perm_key u) = None ->
  has_permission n c key d kind = false.
Proof.
  intros Hu Hne Hk Hv. rewrite (has_permission_list n c key d kind u Hk Hu), Hv.
  now apply String.eqb_neq.
Qed.

Definition rm_db (d : db) (k : str) : db := fst (fst (remove_value d k)).

Definition list_revoked (d : db) (u : str) : Prop :=
  get_value d (perm_key u) = None \/
  exists v, get_value d (perm_key u) = Some v /\ v_val v = "<Empty>" /\ v_st v = VDeleted.

Lemma perm_key_not_token u : perm_key u <> "$$token".
Proof. discriminate. Qed.

Lemma perm_key_secure u : starts_with (perm_key u) "$$" = true.
Proof. reflexivity. Qed.

Theorem remove_list_state d u : list_revoked (rm_db d (perm_key u)) u.
Proof.
  pose proof (remove_value_state d (perm_key u) (perm_key_not_token u)) as S.
  unfold list_revoked, rm_db. destruct (get_value d (perm_key u)) as [v|] eqn:E.
  - destruct (vstate_eqb (v_st v) VNew); [now left | right; exact S].
  - left. now rewrite S.
Qed.

(* a list that had been written to disk leaves its tombstone *)
Lemma rm_db_persisted d u v :
  get_value d (perm_key u) = Some v -> v_st v <> VNew ->
  exists t, get_value (rm_db d (perm_key u)) (perm_key u) = Some t /\ v_val t = "<Empty>" /\ v_st t = VDeleted.
Proof.
  intros H Hs. pose proof (remove_value_state d (perm_key u) (perm_key_not_token u)) as S.
  rewrite H in S. destruct (vstate_eqb_spec (v_st v) VNew); [contradiction | exact S].
Qed.

Lemma revoked_denies n c u d key kind :
  s_user (get_sess n c) = Some u -> u <> "all" -> starts_with key "$$" = false ->
  list_revoked d u -> has_permission n c key d kind = false.
Proof.
  intros Hu Hne Hk [Hn|(v & Hv & Ht & _)].
  - eapply absent_list_denies; eauto.
  - eapply tombstone_list_denies; eauto.
Qed.

(* whatever the entry's state before; n is any node (has_permission reads only the
   session's user from it) *)
Theorem remove_list_revokes n c u d key kind :
  s_user (get_sess n c) = Some u -> u <> "all" -> starts_with key "$$" = false ->
  has_permission n c key (rm_db d (perm_key u)) kind = false.
Proof. intros Hu Hne Hk. eapply revoked_denies; eauto. apply remove_list_state. Qed.

(* for ANY user name (also "all") when the entry had been written to disk: a tombstone stays *)
Theorem remove_list_revokes_persisted n' c u d v key kind :
  s_user (get_sess n' c) = Some u -> starts_with key "$$" = false ->
  get_value d (perm_key u) = Some v -> v_st v <> VNew ->
  has_permission n' c key (rm_db d (perm_key u)) kind = false.
Proof.
  intros Hu Hk Hv Hs. destruct (rm_db_persisted d u v Hv Hs) as (t & Ht & Hval & _).
  eapply tombstone_list_denies; eauto.
Qed.

(* [remove_list_revokes] and [absent_list_denies] need u <> "all" *)
Definition all_node : node :=
  mkNode [] [mkSess false (Some "d") (Some "all") None []] Primary 0 "u" "p" "a" 1 [] [] [] [] [] [].
Definition all_db (st : vstate) : db :=
  mkDb [("$$permission_$all", mkV "r a*" 1 0 st 0 0)] [] 0 1 SNone.

(* the list "r a*" of user "all" does not let it write key b ... *)
Example all_before : has_permission all_node 0 "b" (all_db VNew) PWrite = false.
Proof. vm_compute. reflexivity. Qed.
(* ... removing the never-snapshotted list OPENS everything to "all" (absent list = open access) ... *)
Example all_remove_new_opens :
  has_permission all_node 0 "b" (rm_db (all_db VNew) (perm_key "all")) PWrite = true.
Proof. vm_compute. reflexivity. Qed.
(* ... while removing the same list after a snapshot CLOSES everything (tombstone = empty list):
   the effect of `remove $$permission_$all` depends on whether a snapshot happened in between *)
Example all_remove_persisted_closes :
  has_permission all_node 0 "b" (rm_db (all_db VOk) (perm_key "all")) PWrite = false /\
  has_permission all_node 0 "a" (rm_db (all_db VOk) (perm_key "all")) PRead = false.
Proof. vm_compute. split; reflexivity. Qed.
Example absent_all_open :
  has_permission all_node 0 "b" (mkDb [] [] 0 1 SNone) PWrite = true.
Proof. vm_compute. reflexivity. Qed.

Lemma perm_key_tok u : simple_tok u -> simple_tok (perm_key u).
Proof.
  intros (Hne & Hw & Hs). unfold perm_key. split; [|split].
  - discriminate.
  - rewrite nows_app, Hw. reflexivity.
  - apply no_semi_end_app; auto.
Qed.

Lemma parse_remove_list_line u : simple_tok u ->
  parse_request (trim_char nl ("remove $$permission_$" +++ u)) = POk (RqRemove (perm_key u)).
Proof.
  intros Hu. change ("remove $$permission_$" +++ u) with (remove_line (perm_key u)).
  apply parse_remove_line. now apply perm_key_tok.
Qed.

(* the administrator passes the guard because [perm_key u] is a `$$` key: only [s_auth] is consulted *)
Lemma admin_remove_handle n a dbn d u :
  s_auth (get_sess n a) = true -> s_db (get_sess n a) = Some dbn -> get_db n dbn = Some d ->
  exists n1, handle n a (RqRemove (perm_key u)) = (n1, ROk) /\
    n_dbs n1 = n_dbs (put_db n dbn (rm_db d (perm_key u))) /\
    forall c, same_attrs (get_sess n1 c) (get_sess n c).
Proof.
  intros Ha Hs Hd. unfold handle. cbv zeta.
  rewrite (guard_safe_intro n a (perm_key u) PRemove dbn d Hs Hd);
    [|now rewrite has_permission_secure by apply perm_key_secure|now intros _].
  rewrite (remove_value_eq d (perm_key u) (perm_key_not_token u)). fold (rm_db d (perm_key u)). cbv beta iota.
  set (msgs := map _ _). set (n1 := sends _ msgs).
  assert (Hdbs : n_dbs n1 = n_dbs (put_db n dbn (rm_db d (perm_key u)))) by apply n_dbs_sends.
  assert (Hsess : forall c, same_attrs (get_sess n1 c) (get_sess n c)).
  { intros c. apply (same_attrs_sends msgs (put_db n dbn (rm_db d (perm_key u))) c). }
  destruct (is_primary n1); eexists; (split; [reflexivity|]); split; auto.
Qed.

Lemma admin_remove_step n a dbn d u :
  s_auth (get_sess n a) = true -> s_db (get_sess n a) = Some dbn -> get_db n dbn = Some d ->
  simple_tok u ->
  snd (step n a ("remove $$permission_$" +++ u)) = ROk /\
  get_db (fst (step n a ("remove $$permission_$" +++ u))) dbn = Some (rm_db d (perm_key u)) /\
  forall c, same_attrs (get_sess (fst (step n a ("remove $$permission_$" +++ u))) c) (get_sess n c).
Proof.
  intros Ha Hs Hd Hu.
  rewrite (step_eq n a _ (RqRemove (perm_key u)) (parse_remove_list_line u Hu)) by discriminate.
  destruct (admin_remove_handle n a dbn d u Ha Hs Hd) as (n1 & Hh & Hdbs & Hsess).
  rewrite Hh. cbv iota. unfold replicate_request. rewrite Hs.
  assert (Hhas : has_db n1 dbn = true).
  { rewrite (has_db_dbs _ _ _ Hdbs), has_db_put, String.eqb_refl. reflexivity. }
  rewrite Hhas. cbn [negb fst snd]. split; [reflexivity|]. split.
  - rewrite (get_db_dbs n1) by apply n_dbs_replicate_web.
    rewrite (get_db_dbs _ _ _ Hdbs). apply get_db_put_same.
  - intros c. rewrite get_sess_replicate_web. apply Hsess.
Qed.

Lemma denied_after_remove n a c dbn d u :
  s_auth (get_sess n a) = true -> s_db (get_sess n a) = Some dbn -> get_db n dbn = Some d ->
  simple_tok u ->
  s_auth (get_sess n c) = false -> s_user (get_sess n c) = Some u -> s_db (get_sess n c) = Some dbn ->
  (forall m k kind, s_user (get_sess m c) = Some u -> starts_with k "$$" = false ->
     has_permission m c k (rm_db d (perm_key u)) kind = false) ->
  let n' := fst (step n a ("remove $$permission_$" +++ u)) in
  (forall rq k kind, rq_key_kind rq = Some (k, kind) -> starts_with k "$$" = false ->
     handle n' c rq = (send n' c denied_msg, RError denied_msg)) /\
  (forall line rq k kind, parse_request (trim_char nl line) = POk rq ->
     rq_key_kind rq = Some (k, kind) -> starts_with k "$$" = false ->
     step n' c line = (send n' c denied_msg, RError denied_msg)).
Proof.
  intros Ha Hs Hd Hu Hca Hcu Hcs Hden n'.
  destruct (admin_remove_step n a dbn d u Ha Hs Hd Hu) as (_ & Hd' & Hsess).
  fold n' in Hd', Hsess. destruct (Hsess c) as (Ea & Eb & Ec & _).
  assert (Hca' : s_auth (get_sess n' c) = false) by congruence.
  assert (Hcs' : s_db (get_sess n' c) = Some dbn) by congruence.
  assert (Hcu' : s_user (get_sess n' c) = Some u) by congruence.
  split.
  - intros rq k kind Hq Hk.
    apply (user_denied n' c dbn (rm_db d (perm_key u)) rq k kind); auto.
  - intros line rq k kind Hp Hq Hk.
    apply (user_denied_line n' c dbn (rm_db d (perm_key u)) line rq k kind); auto.
Qed.

(* C09: after the administrator's remove, EVERY guarded data request of the user's session on
   an ordinary key is answered "permission denied"; the node changes exactly as for any denied
   request ([user_denied]): the refusal is pushed on the session's inbox, nothing else; at the
   protocol level ([user_denied_line]) nothing is replicated either. *)
Theorem revocation_immediate n a c dbn d u :
  s_auth (get_sess n a) = true -> s_db (get_sess n a) = Some dbn -> get_db n dbn = Some d ->
  simple_tok u -> u <> "all" ->
  s_auth (get_sess n c) = false -> s_user (get_sess n c) = Some u -> s_db (get_sess n c) = Some dbn ->
  let n' := fst (step n a ("remove $$permission_$" +++ u)) in
  snd (step n a ("remove $$permission_$" +++ u)) = ROk /\
  get_db n' dbn = Some (rm_db d (perm_key u)) /\
  list_revoked (rm_db d (perm_key u)) u /\
  (forall rq k kind, rq_key_kind rq = Some (k, kind) -> starts_with k "$$" = false ->
     handle n' c rq = (send n' c denied_msg, RError denied_msg)) /\
  (forall line rq k kind, parse_request (trim_char nl line) = POk rq ->
     rq_key_kind rq = Some (k, kind) -> starts_with k "$$" = false ->
     step n' c line = (send n' c denied_msg, RError denied_msg)).
Proof.
  intros Ha Hs Hd Hu Hne Hca Hcu Hcs n'.
  destruct (admin_remove_step n a dbn d u Ha Hs Hd Hu) as (Hr & Hd' & _).
  split; [exact Hr|]. split; [exact Hd'|]. split; [apply remove_list_state|].
  apply (denied_after_remove n a c dbn d u); auto. intros m k kind Hm Hk. now apply remove_list_revokes.
Qed.

(* the same for any user name when the list had been written to disk (tombstone case) *)
Theorem revocation_immediate_persisted n a c dbn d u v :
  s_auth (get_sess n a) = true -> s_db (get_sess n a) = Some dbn -> get_db n dbn = Some d ->
  simple_tok u -> get_value d (perm_key u) = Some v -> v_st v <> VNew ->
  s_auth (get_sess n c) = false -> s_user (get_sess n c) = Some u -> s_db (get_sess n c) = Some dbn ->
  let n' := fst (step n a ("remove $$permission_$" +++ u)) in
  (exists d' t, get_db n' dbn = Some d' /\ get_value d' (perm_key u) = Some t /\
                v_val t = "<Empty>" /\ v_st t = VDeleted) /\
  (forall rq k kind, rq_key_kind rq = Some (k, kind) -> starts_with k "$$" = false ->
     handle n' c rq = (send n' c denied_msg, RError denied_msg)) /\
  (forall line rq k kind, parse_request (trim_char nl line) = POk rq ->
     rq_key_kind rq = Some (k, kind) -> starts_with k "$$" = false ->
     step n' c line = (send n' c denied_msg, RError denied_msg)).
Proof.
  intros Ha Hs Hd Hu Hv Hst Hca Hcu Hcs n'.
  destruct (admin_remove_step n a dbn d u Ha Hs Hd Hu) as (_ & Hd' & _).
  split; [exists (rm_db d (perm_key u)); destruct (rm_db_persisted d u v Hv Hst) as (t & Ht); eauto|].
  apply (denied_after_remove n a c dbn d u); auto.
  intros m k kind Hm Hk. eapply remove_list_revokes_persisted; eauto.
Qed.

Example covered_requests k v ver i :
  rq_key_kind (RqGet k) = Some (k, PRead) /\ rq_key_kind (RqGetSafe k) = Some (k, PRead) /\
  rq_key_kind (RqSet k v ver) = Some (k, PWrite) /\ rq_key_kind (RqRemove k) = Some (k, PRemove) /\
  rq_key_kind (RqIncrement k i) = Some (k, PIncrement) /\ rq_key_kind (RqWatch k) = Some (k, PRead).
Proof. repeat split. Qed.

Definition steps (n : node) (c : nat) (ls : list str) : node :=
  fold_left (fun n l => fst (step n c l)) ls n.

Definition rx0 : node := fst (connect (init_node "u" "p" "addr" 1 Primary 0)).
Definition rx1 : node :=
  steps rx0 0 ["auth u p"; "create-db d1 tok"; "use-db d1 tok"; "create-user bob pw";
               "set-permissions bob rw a*"; "set a 1"].
Definition rx2 : node := fst (step (fst (connect rx1)) 1 "use-db d1 bob pw").

Definition the_db (n : node) : db := match get_db n "d1" with Some d => d | None => empty_db 0 SNone end.
Definition bob_list (n : node) : option (str * vstate) :=
  match get_value (the_db n) (perm_key "bob") with Some v => Some (v_val v, v_st v) | None => None end.

(* variant A: the list is removed before any snapshot *)
Definition rxA : node := fst (step rx2 0 "remove $$permission_$bob").
(* variant B: snapshot, flush (the entry becomes VOk), then remove *)
Definition rxB0 : node := flush_snapshots (fst (step rx2 0 "snapshot false")).
Definition rxB : node := fst (step rxB0 0 "remove $$permission_$bob").

Example revoke_example :
  bob_list rx2 = Some ("rw a*", VNew) /\
  snd (step rx2 1 "get a") = RValue "a" "1" 0 /\
  (* A: the entry is dropped; bob's very next commands are denied *)
  bob_list rxA = None /\
  snd (step rxA 1 "get a") = RError denied_msg /\
  snd (step rxA 1 "set a 2") = RError denied_msg /\
  fst (step rxA 1 "get a") = send rxA 1 denied_msg /\
  (* B: after the flush the entry is VOk; the remove leaves the tombstone "<Empty>" *)
  bob_list rxB0 = Some ("rw a*", VOk) /\
  snd (step rxB0 1 "get a") = RValue "a" "1" 0 /\
  bob_list rxB = Some ("<Empty>", VDeleted) /\
  snd (step rxB 1 "get a") = RError denied_msg /\
  snd (step rxB 1 "set a 2") = RError denied_msg /\
  snd (step rxB 1 "increment a 1") = RError denied_msg /\
  snd (step rxB 1 "remove a") = RError denied_msg /\
  snd (step rxB 1 "watch a") = RError denied_msg /\
  fst (step rxB 1 "get a") = send rxB 1 denied_msg.
Proof. vm_compute. repeat split; reflexivity. Qed.

Check empty_text_grants_nothing. Check empty_text_grants_nothing_P.
Check tombstone_list_denies. Check absent_list_denies.
Check remove_list_state. Check remove_list_revokes. Check remove_list_revokes_persisted.
Check parse_remove_list_line. Check admin_remove_step.
Check revocation_immediate. Check revocation_immediate_persisted.
Check revoke_example.
Check all_remove_new_opens. Check all_remove_persisted_closes.
Print Assumptions empty_text_grants_nothing.
Print Assumptions tombstone_list_denies.
Print Assumptions absent_list_denies.
Print Assumptions remove_list_revokes.
Print Assumptions remove_list_revokes_persisted.
Print Assumptions revocation_immediate.
Print Assumptions revocation_immediate_persisted.
Print Assumptions revoke_example.
