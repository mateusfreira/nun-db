(* The transports (Model/Net.v): UTF-8 validity splits at an ASCII byte ([utf8_valid_split]), hence at
   ';', so a WebSocket frame is its commands one after the other (C20 for WebSocket frames); and C17
   ("$connections equals the number of open sessions that selected the database") over TCP lines,
   WebSocket frames, HTTP requests, connection ends. *)
From Coq Require Import List String Ascii ZArith NArith Bool Lia.
From NunDB Require Import Base Parse Node Net ListLemmas GuardProofs NetProofs ConnProofs.
Import ListNotations.
Open Scope string_scope. Open Scope list_scope.

Definition is_ascii (x : ascii) : bool := (byte_of x <=? 127)%N.

Lemma ascii_not_range x lo hi : is_ascii x = true -> (128 <= lo)%N -> in_range x lo hi = false.
Proof.
  unfold is_ascii, in_range. intros H Hlo. apply N.leb_le in H.
  apply andb_false_iff. left. apply N.leb_gt. lia.
Qed.

Lemma ascii_not_cont x : is_ascii x = true -> is_cont x = false.
Proof. intros H. change (is_cont x) with (in_range x 128 191). apply ascii_not_range; [exact H|lia]. Qed.

Lemma utf8_valid_cons_ascii x b : is_ascii x = true -> utf8_valid (String x b) = utf8_valid b.
Proof. unfold is_ascii. intros H. cbn [utf8_valid]. rewrite H. reflexivity. Qed.

(* An ASCII byte [x] (hypothesis [Hx]) lies in no continuation or lead range, so every test of the
   decoder on it is false: a multi-byte sequence cut by [x] is invalid whichever side is read. *)
Ltac kill_ranges Hx :=
  repeat (rewrite (ascii_not_cont _ Hx) || rewrite (ascii_not_range _ _ _ Hx) by lia);
  rewrite ?andb_false_r; cbn [andb].

(* closes the cases where the sequence begun by the lead byte is cut by [x] after 0, 1 or 2 bytes of [b] *)
Ltac cut_by_ascii Hx b :=
  solve [ kill_ranges Hx; reflexivity
        | destruct b as [|? [|? ?]]; kill_ranges Hx; reflexivity ].

(* A split at an ASCII byte.  [utf8_valid] recurses after 1 to 4 bytes, so the induction is on a bound
   of the length of [a]; per lead byte, either the sequence ends inside [a] (induction) or [x] cuts it
   ([cut_by_ascii]). *)
Lemma utf8_valid_split_len x b (Hx : is_ascii x = true) : forall k a, (String.length a <= k)%nat ->
  utf8_valid (a +++ String x b) = utf8_valid a && utf8_valid b.
Proof.
  induction k as [|k IH]; intros a Hl.
  - destruct a; [|cbn in Hl; lia]. cbn [append]. rewrite utf8_valid_cons_ascii by exact Hx. reflexivity.
  - destruct a as [|y r]; [cbn [append]; rewrite utf8_valid_cons_ascii by exact Hx; reflexivity|].
    cbn [String.length] in Hl.
    cbn [append]. cbn [utf8_valid].
    destruct (byte_of y <=? 127)%N; [apply IH; lia|].
    destruct (in_range y 194 223).
    { destruct r as [|c1 r1]; cbn [append]; [cut_by_ascii Hx b|].
      cbn [String.length] in Hl. rewrite IH by lia. apply andb_assoc. }
    destruct (byte_of y =? 224)%N.
    { destruct r as [|c1 [|c2 r2]]; cbn [append]; try (cut_by_ascii Hx b).
      cbn [String.length] in Hl. rewrite IH by lia. apply andb_assoc. }
    destruct (in_range y 225 236 || in_range y 238 239).
    { destruct r as [|c1 [|c2 r2]]; cbn [append]; try (cut_by_ascii Hx b).
      cbn [String.length] in Hl. rewrite IH by lia. apply andb_assoc. }
    destruct (byte_of y =? 237)%N.
    { destruct r as [|c1 [|c2 r2]]; cbn [append]; try (cut_by_ascii Hx b).
      cbn [String.length] in Hl. rewrite IH by lia. apply andb_assoc. }
    destruct (byte_of y =? 240)%N.
    { destruct r as [|c1 [|c2 [|c3 r3]]]; cbn [append]; try (cut_by_ascii Hx b).
      cbn [String.length] in Hl. rewrite IH by lia. apply andb_assoc. }
    destruct (in_range y 241 243).
    { destruct r as [|c1 [|c2 [|c3 r3]]]; cbn [append]; try (cut_by_ascii Hx b).
      cbn [String.length] in Hl. rewrite IH by lia. apply andb_assoc. }
    destruct (byte_of y =? 244)%N.
    { destruct r as [|c1 [|c2 [|c3 r3]]]; cbn [append]; try (cut_by_ascii Hx b).
      cbn [String.length] in Hl. rewrite IH by lia. apply andb_assoc. }
    reflexivity.
Qed.

Lemma utf8_valid_split a x b : is_ascii x = true ->
  utf8_valid (a +++ String x b) = utf8_valid a && utf8_valid b.
Proof. intros Hx. apply (utf8_valid_split_len x b Hx (String.length a)). lia. Qed.

Theorem utf8_valid_app_inv : forall a b, utf8_valid (a +++ ";" +++ b) = true -> utf8_valid a = true /\ utf8_valid b = true.
Proof.
  intros a b H. change (";" +++ b) with (String ";"%char b) in H.
  rewrite utf8_valid_split in H by reflexivity. apply andb_prop in H. exact H.
Qed.

Theorem ws_parts_app : forall l1 l2 n c,
  ws_parts n c (l1 ++ l2) =
  (let '(n1, f) := ws_parts n c l1 in
   match f with Serving => ws_parts n1 c l2 | ThreadDied => (n1, ThreadDied) end).
Proof.
  induction l1 as [|p r IH]; intros l2 n c; [reflexivity|].
  cbn [app ws_parts]. destruct (step n c p) as [n1 resp]. destruct resp; try apply IH. reflexivity.
Qed.

Theorem split_semi_app : forall a b, split_char ";" (a +++ ";" +++ b) = split_char ";" a ++ split_char ";" b.
Proof. intros a b. unfold split_char. apply StrLemmas.split_char_acc_app. Qed.

Theorem ws_frame_seq : forall n c a b, utf8_valid a = true -> utf8_valid b = true ->
  ws_frame n c (a +++ ";" +++ b) =
  (let '(n1, f) := ws_frame n c a in
   match f with Serving => ws_frame n1 c b | ThreadDied => (n1, ThreadDied) end).
Proof.
  intros n c a b Ha Hb. unfold ws_frame.
  rewrite (utf8_valid_split a ";"%char b eq_refl : utf8_valid (a +++ ";" +++ b) = _), Ha, Hb. cbn [andb negb].
  rewrite split_semi_app. apply ws_parts_app.
Qed.

Theorem ws_frame_single : forall n c p, AdminInv n -> utf8_valid p = true ->
  (forall i, get i p <> Some ";"%char) ->
  ws_frame n c p = (send (fst (step n c p)) c (term_ws (snd (step n c p))), Serving).
Proof.
  intros n c p Hi Hu Hno. unfold ws_frame. rewrite Hu. cbn [negb].
  rewrite StrLemmas.split_char_nochar by exact Hno. cbn [ws_parts].
  pose proof (step_no_panic n c p Hi) as Hp.
  destruct (step n c p) as [n1 r]. cbn [fst snd] in *.
  destruct r; try reflexivity. contradiction.
Qed.

Corollary ws_frame_seq_valid : forall n c a b, utf8_valid (a +++ ";" +++ b) = true ->
  ws_frame n c (a +++ ";" +++ b) =
  (let '(n1, f) := ws_frame n c a in
   match f with Serving => ws_frame n1 c b | ThreadDied => (n1, ThreadDied) end).
Proof. intros n c a b H. apply utf8_valid_app_inv in H. destruct H. apply ws_frame_seq; assumption. Qed.

(* one command of a frame: executed, and its own terminator queued *)
Definition ws_one (c : nat) (n : node) (p : str) : node :=
  send (fst (step n c p)) c (term_ws (snd (step n c p))).

Definition cmd_ok (p : str) : Prop := utf8_valid p = true /\ forall i, get i p <> Some ";"%char.

Lemma utf8_valid_join cmds : Forall cmd_ok cmds -> utf8_valid (join ";" cmds) = true.
Proof.
  induction 1 as [|x l [Hx _] Hl IH]; [reflexivity|].
  destruct l as [|y r]; [exact Hx|].
  change (join ";" (x :: y :: r)) with (x +++ String ";"%char (join ";" (y :: r))).
  rewrite utf8_valid_split, Hx by reflexivity. exact IH.
Qed.

Lemma ws_one_inv c n p : AdminInv n -> AdminInv (ws_one c n p).
Proof. intros Hi. unfold ws_one. apply send_inv, step_inv. exact Hi. Qed.

(* any number of commands: each is executed once, in order, and queues its own terminator *)
Theorem ws_frame_cmds : forall cmds n c, AdminInv n -> cmds <> [] -> Forall cmd_ok cmds ->
  ws_frame n c (join ";" cmds) = (fold_left (ws_one c) cmds n, Serving).
Proof.
  induction cmds as [|x l IH]; intros n c Hi Hne Hall; [congruence|].
  inversion Hall as [|x' l' [Hx Hno] Hl]; subst. cbn [fold_left].
  destruct l as [|y r].
  - apply ws_frame_single; assumption.
  - change (join ";" (x :: y :: r)) with (x +++ ";" +++ join ";" (y :: r)).
    rewrite ws_frame_seq; [|exact Hx|apply utf8_valid_join; exact Hl].
    rewrite (ws_frame_single n c x Hi Hx Hno).
    (* the node is given: left to find it, unification unfolds [step] *)
    apply (IH (ws_one c n x) c); [apply ws_one_inv; exact Hi|discriminate|exact Hl].
Qed.

Definition ex_node : node := fst (connect (init_node "u" "p" "a" 1 Primary 0)).
Definition ex_cmds : list str := ["auth u p"; "create-db d t"; "use-db d t"; "set k v"; "get k"].
Definition ex_frame : str := "auth u p;create-db d t;use-db d t;set k v;get k".
Definition okT : str := "ok " +++ nlS.

(* each command sent as a frame of its own, the inbox emptied before it: what that command alone queues *)
Fixpoint own_outputs (n : node) (c : nat) (cmds : list str) : list (list str) :=
  match cmds with
  | [] => []
  | p :: rest => let n1 := fst (ws_frame (fst (drain n c)) c p) in
                 s_inbox (get_sess n1 c) :: own_outputs n1 c rest
  end.

Example ws_frame_five_commands :
  snd (connect (init_node "u" "p" "a" 1 Primary 0)) = 0%nat /\
  ex_frame = join ";" ex_cmds /\
  snd (ws_frame ex_node 0 ex_frame) = Serving /\
  s_inbox (get_sess (fst (ws_frame ex_node 0 ex_frame)) 0) =
    [ "valid auth" +++ nlS; okT;
      "create-db success" +++ nlS; okT;
      okT;
      okT;
      "value v" +++ nlS; okT ] /\
  own_outputs ex_node 0 ex_cmds =
    [ [ "valid auth" +++ nlS; okT ]; [ "create-db success" +++ nlS; okT ]; [ okT ]; [ okT ]; [ "value v" +++ nlS; okT ] ] /\
  s_inbox (get_sess (fst (ws_frame ex_node 0 ex_frame)) 0) = concat (own_outputs ex_node 0 ex_cmds) /\
  fst (ws_frame ex_node 0 ex_frame) = fold_left (fun n p => fst (ws_frame n 0 p)) ex_cmds ex_node.
Proof. vm_compute. repeat split; reflexivity. Qed.

(* ConnProofs.nstep over the transports' events: the node component is that of Net.net_step, beside it the
   list of open sessions; [net_ev_ok]: the event names an open session *)
Definition net_nstep (st : node * list nat) (e : net_ev) : node * list nat :=
  let '(n, op) := st in
  match e with
  | NConnect => let '(n', c) := connect n in (n', op ++ [c])
  | NTcpLine c b => (fst (tcp_line n c b), op)
  | NWsFrame c b => (fst (ws_frame n c b), op)
  | NHttp b => (fst (http_bytes n b), op)
  | NClosed c => (conn_closed n c, filter (fun x => negb (Nat.eqb x c)) op)
  end.

Definition net_ev_ok (op : list nat) (e : net_ev) : bool :=
  match e with
  | NConnect | NHttp _ => true
  | NTcpLine c _ | NWsFrame c _ | NClosed c => existsb (Nat.eqb c) op
  end.

Fixpoint net_run_ok (st : node * list nat) (evs : list net_ev) : bool :=
  match evs with [] => true | e :: r => net_ev_ok (snd st) e && net_run_ok (net_nstep st e) r end.

(* the invariant reads nothing of a session but its selected database (so, in particular, not the inbox) *)
Lemma ConnInv_inbox op c n s : ConnInv (n, op) -> s_db s = s_db (get_sess n c) -> ConnInv (put_sess n c s, op).
Proof. intros HI E. eapply frame_ConnInv; [|exact HI]. apply frame_put_sess; [apply frame_refl|exact E]. Qed.

(* the temporary session of an HTTP request is opened and closed inside: the open list is unchanged *)
Lemma http_request_ConnInv n body op : ConnInv (n, op) -> ConnInv (fst (http_request n body), op).
Proof.
  intros HI. unfold http_request.
  pose proof (connect_ConnInv n op HI) as H0.
  assert (Hfresh : ~ In (snd (connect n)) op).
  { destruct HI as (_ & Hlt & _). intros Hin. apply Hlt in Hin. cbn in Hin. lia. }
  destruct (connect n) as [n0 c]. cbn [fst snd] in *.
  assert (Hin : In c (op ++ [c])) by (apply in_or_app; right; left; reflexivity).
  pose proof (http_commands_closed (fun m => ConnInv (m, op ++ [c])) c
                (step_ConnInv _ c Hin) (ConnInv_inbox _ c) (split_char ";" body) n0 [] H0) as H1.
  destruct (http_commands n0 c (split_char ";" body) []) as [n1 out]. cbn [fst] in *.
  pose proof (conn_step (n1, op ++ [c]) (EDisconnect c) H1) as H2.
  cbn [nstep snd ev_ok] in H2. fold (rm c (op ++ [c])) in H2. rewrite (rm_snoc c op Hfresh) in H2.
  apply H2. apply (existsb_eqb_In _ Nat.eqb_spec). exact Hin.
Qed.

Lemma http_bytes_ConnInv n body op : ConnInv (n, op) -> ConnInv (fst (http_bytes n body), op).
Proof.
  intros HI. unfold http_bytes. destruct (utf8_valid body); cbn [negb fst]; [|exact HI].
  apply http_request_ConnInv. exact HI.
Qed.

Theorem net_conn_step : forall st e, ConnInv st -> net_ev_ok (snd st) e = true -> ConnInv (net_nstep st e).
Proof.
  intros [n op] e HI Hok. destruct e as [|c b|c b|b|c]; cbn [net_nstep net_ev_ok snd] in *.
  - pose proof (connect_ConnInv n op HI) as H. destruct (connect n) as [n' c]. exact H.
  - apply (existsb_eqb_In _ Nat.eqb_spec) in Hok.
    exact (tcp_line_closed (fun m => ConnInv (m, op)) c (step_ConnInv op c Hok) (ConnInv_inbox op c) n b HI).
  - apply (existsb_eqb_In _ Nat.eqb_spec) in Hok.
    exact (ws_frame_closed (fun m => ConnInv (m, op)) c (step_ConnInv op c Hok) (ConnInv_inbox op c) n b HI).
  - apply http_bytes_ConnInv. exact HI.
  - exact (conn_step (n, op) (EDisconnect c) HI Hok).
Qed.

Theorem net_conn_run : forall evs st, ConnInv st -> net_run_ok st evs = true ->
  ConnInv (fold_left net_nstep evs st).
Proof.
  induction evs as [|e r IH]; intros st HI Hok; cbn [fold_left]; [exact HI|].
  cbn [net_run_ok] in Hok. apply andb_prop in Hok. destruct Hok as [H1 H2].
  apply IH; [apply net_conn_step; assumption|exact H2].
Qed.

Corollary net_conn_run_from_init u p a pid r c0 evs :
  net_run_ok (init_node u p a pid r c0, []) evs = true ->
  ConnInv (fold_left net_nstep evs (init_node u p a pid r c0, [])).
Proof. apply net_conn_run. apply conn_init. Qed.

Check utf8_valid_app_inv. Check utf8_valid_split.
Check ws_parts_app. Check split_semi_app. Check ws_frame_seq. Check ws_frame_single. Check ws_frame_cmds.
Check ws_frame_five_commands.
Check net_conn_step. Check net_conn_run. Check net_conn_run_from_init.
Print Assumptions ws_frame_seq.
Print Assumptions ws_frame_single.
Print Assumptions utf8_valid_app_inv.
Print Assumptions net_conn_run.
Print Assumptions net_conn_run_from_init.
Print Assumptions ws_frame_cmds.
