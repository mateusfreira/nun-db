(* Facts about the byte strings of Model/Base: append and length, reverse, prefix and suffix tests,
   dropping and trimming a character, the pieces of a split, decimal printing against the parsers of
   unsigned and signed numbers, [sort_strs]. *)
From NunDB Require Import Model.Base.
From Coq Require Import DecimalN DecimalPos Sorting.Sorted Sorting.Permutation Lia.

Lemma app_assoc_s (a b c : str) : (a +++ b) +++ c = a +++ b +++ c.
Proof. induction a as [|x a IH]; cbn; auto. now rewrite IH. Qed.

Lemma app_nil_r_s (a : str) : a +++ "" = a.
Proof. induction a as [|x a IH]; cbn; auto. now rewrite IH. Qed.

Lemma str_length_app (a b : str) : String.length (a +++ b) = String.length a + String.length b.
Proof. induction a as [|x a IH]; cbn; auto. Qed.

Lemma sget_app_l a b i : (i < String.length a)%nat -> String.get i (a +++ b) = String.get i a.
Proof. intros H. symmetry. now apply String.append_correct1. Qed.
Lemma sget_app_r a b j : String.get (String.length a + j) (a +++ b) = String.get j b.
Proof. rewrite Nat.add_comm. symmetry. apply String.append_correct2. Qed.

Lemma eqb_nonempty s : s <> "" -> String.eqb s "" = false.
Proof. intros H. destruct (String.eqb_spec s ""); congruence. Qed.

Lemma str_rev_acc_spec s : forall acc, str_rev_acc s acc = str_rev s +++ acc.
Proof.
  unfold str_rev. induction s as [|a r IH]; intros acc; cbn [str_rev_acc]; auto.
  rewrite (IH (String a acc)), (IH (String a "")), app_assoc_s. reflexivity.
Qed.

Lemma str_rev_app a b : str_rev (a +++ b) = str_rev b +++ str_rev a.
Proof.
  induction a as [|x a IH]; cbn [append].
  - now rewrite app_nil_r_s.
  - unfold str_rev at 1 3. cbn [str_rev_acc]. rewrite !str_rev_acc_spec, IH, app_assoc_s. reflexivity.
Qed.

Lemma str_rev_invol s : str_rev (str_rev s) = s.
Proof.
  induction s as [|a r IH]; auto.
  change (String a r) with (String a "" +++ r) at 1.
  rewrite str_rev_app, str_rev_app, IH. reflexivity.
Qed.

Lemma length_str_rev_acc s acc :
  String.length (str_rev_acc s acc) = String.length s + String.length acc.
Proof.
  revert acc. induction s as [|a s IH]; intros acc; cbn; auto.
  rewrite IH. cbn. lia.
Qed.

Lemma length_str_rev s : String.length (str_rev s) = String.length s.
Proof. unfold str_rev. rewrite length_str_rev_acc. cbn. lia. Qed.

Lemma prefix_spec p : forall s, str_eqb_prefix p s = true <-> exists r, s = p +++ r.
Proof.
  induction p as [|a p IH]; intros s.
  - cbn. split; [intros _; now exists s|reflexivity].
  - destruct s as [|b s]; cbn [str_eqb_prefix append].
    + split; [discriminate|]. intros [r Hr]. discriminate Hr.
    + rewrite andb_true_iff, IH. split.
      * intros [Hab [r Hr]]. apply Ascii.eqb_eq in Hab. subst. now exists r.
      * intros [r Hr]. injection Hr as -> ->. split; [apply Ascii.eqb_refl|now exists r].
Qed.

Lemma prefix_app p r : str_eqb_prefix p (p +++ r) = true.
Proof. apply prefix_spec. now exists r. Qed.

Lemma starts_with_spec k p : starts_with k p = true <-> exists r, k = p +++ r.
Proof. apply prefix_spec. Qed.

Lemma starts_with_app s p : starts_with (p +++ s) p = true.
Proof. apply prefix_app. Qed.

Lemma starts_with_refl s : starts_with s s = true.
Proof. apply starts_with_spec. exists "". now rewrite app_nil_r_s. Qed.

Lemma ends_with_spec k p : ends_with k p = true <-> exists l, k = l +++ p.
Proof.
  unfold ends_with. rewrite prefix_spec. split.
  - intros [r Hr]. exists (str_rev r).
    rewrite <- (str_rev_invol k), Hr, str_rev_app, str_rev_invol. reflexivity.
  - intros [l ->]. exists (str_rev l). apply str_rev_app.
Qed.

Lemma length_drop_leading c s : String.length (drop_leading c s) <= String.length s.
Proof.
  induction s as [|a s IH]; cbn; auto.
  destruct (Ascii.eqb a c); cbn; lia.
Qed.

Lemma length_trim_end_char c s : String.length (trim_end_char c s) <= String.length s.
Proof.
  unfold trim_end_char. rewrite length_str_rev.
  etransitivity; [apply length_drop_leading|]. now rewrite length_str_rev.
Qed.

Lemma length_trim_char c s : String.length (trim_char c s) <= String.length s.
Proof.
  unfold trim_char. etransitivity; [apply length_trim_end_char|]. apply length_drop_leading.
Qed.

Lemma drop_leading_app_keep c a x b : Ascii.eqb x c = false ->
  exists a', drop_leading c (a +++ String x b) = a' +++ String x b.
Proof.
  intros Hx. induction a as [|y a IH]; cbn [append drop_leading].
  - rewrite Hx. exists "". reflexivity.
  - destruct (Ascii.eqb y c); [exact IH|]. exists (String y a). reflexivity.
Qed.

Lemma remove_char_app c a b : remove_char c (a +++ b) = remove_char c a +++ remove_char c b.
Proof.
  induction a as [|x a IH]; cbn [append remove_char]; [reflexivity|].
  destruct (Ascii.eqb x c); [exact IH|]. cbn [append]. now rewrite IH.
Qed.

Lemma split_char_acc_app c a b : forall cur,
  split_char_acc c (a +++ String c b) cur = split_char_acc c a cur ++ split_char_acc c b "".
Proof.
  induction a as [|y r IH]; intros cur; cbn [append split_char_acc].
  - rewrite Ascii.eqb_refl. reflexivity.
  - destruct (Ascii.eqb y c); [rewrite IH; reflexivity|apply IH].
Qed.

Lemma split_char_acc_nochar c p : (forall i, get i p <> Some c) -> forall cur,
  split_char_acc c p cur = [str_rev_acc cur p].
Proof.
  induction p as [|y r IH]; intros H cur; cbn [split_char_acc]; [reflexivity|].
  destruct (Ascii.eqb_spec y c) as [->|Hne].
  - exfalso. apply (H O). reflexivity.
  - rewrite IH; [reflexivity|]. intros i. exact (H (S i)).
Qed.

Lemma split_char_nochar c p : (forall i, get i p <> Some c) -> split_char c p = [p].
Proof. intros H. unfold split_char. rewrite split_char_acc_nochar by exact H. reflexivity. Qed.

Fixpoint total_len (l : list str) : nat :=
  match l with [] => O | x :: r => (String.length x + total_len r)%nat end.

(* the pieces of splitn, plus one separator between consecutive pieces, make up the input *)
Lemma splitn_acc_total n c s cur : n <> O ->
  (total_len (splitn_acc n c s cur) + List.length (splitn_acc n c s cur)
   = S (String.length s + String.length cur))%nat.
Proof.
  revert n cur. induction s as [|a s IH]; intros n cur Hn.
  - destruct n as [|[|n]]; [congruence| |]; cbn.
    + rewrite length_str_rev_acc. cbn. lia.
    + rewrite length_str_rev. lia.
  - destruct n as [|[|n]]; [congruence| |].
    + cbn. rewrite length_str_rev_acc. cbn. lia.
    + cbn [splitn_acc]. destruct (Ascii.eqb a c).
      * cbn [total_len List.length]. rewrite length_str_rev.
        specialize (IH (S n) EmptyString). cbn [String.length] in *. lia.
      * rewrite IH by congruence. cbn. lia.
Qed.

Lemma total_len_in x l : In x l -> (String.length x <= total_len l)%nat.
Proof. induction l as [|y r IH]; cbn; [tauto|]. intros [->|H]; [lia|]. specialize (IH H). lia. Qed.

(* two pieces at least: a separator was found *)
Lemma splitn_piece_shorter n c s x : n <> O -> (2 <= List.length (splitn n c s))%nat ->
  In x (splitn n c s) -> (String.length x < String.length s)%nat.
Proof.
  intros Hn H2 Hx. pose proof (splitn_acc_total n c s EmptyString Hn) as H. apply total_len_in in Hx.
  unfold splitn in *. cbn [String.length] in H. lia.
Qed.

Fixpoint alldigits (s : str) : bool :=
  match s with EmptyString => true | String a r => is_digit a && alldigits r end.

(* the value of a [Decimal.uint], most significant digit first, with an accumulator: the mirror of
   [digits_val] of Model/Base on the printed text *)
Fixpoint uval (d : Decimal.uint) (acc : N) : N :=
  match d with
  | Decimal.Nil => acc
  | Decimal.D0 l => uval l (acc * 10 + 0)%N
  | Decimal.D1 l => uval l (acc * 10 + 1)%N
  | Decimal.D2 l => uval l (acc * 10 + 2)%N
  | Decimal.D3 l => uval l (acc * 10 + 3)%N
  | Decimal.D4 l => uval l (acc * 10 + 4)%N
  | Decimal.D5 l => uval l (acc * 10 + 5)%N
  | Decimal.D6 l => uval l (acc * 10 + 6)%N
  | Decimal.D7 l => uval l (acc * 10 + 7)%N
  | Decimal.D8 l => uval l (acc * 10 + 8)%N
  | Decimal.D9 l => uval l (acc * 10 + 9)%N
  end.

Lemma digits_val_uint d : forall acc,
  digits_val (NilEmpty.string_of_uint d) acc = Some (uval d acc).
Proof. induction d; intros acc; cbn [NilEmpty.string_of_uint uval]; auto; apply IHd. Qed.

Lemma alldigits_uint d : alldigits (NilEmpty.string_of_uint d) = true.
Proof. induction d; cbn [NilEmpty.string_of_uint alldigits]; auto. Qed.

Lemma uval_pos d : forall acc, uval d (Npos acc) = Npos (Pos.of_uint_acc d acc).
Proof.
  induction d; intros acc; cbn [uval Pos.of_uint_acc]; auto;
    rewrite <- IHd; f_equal; lia.
Qed.

Lemma uval_0 d : uval d 0 = Pos.of_uint d.
Proof.
  induction d; cbn [uval Pos.of_uint]; auto;
    try (rewrite <- uval_pos; reflexivity); exact IHd.
Qed.

Lemma digits_val_N n : digits_val (N_to_str n) 0 = Some n.
Proof.
  unfold N_to_str. rewrite digits_val_uint, uval_0.
  f_equal. apply DecimalN.Unsigned.of_to.
Qed.

Lemma alldigits_N n : alldigits (N_to_str n) = true.
Proof. apply alldigits_uint. Qed.

Lemma N_to_str_inj p q : N_to_str p = N_to_str q -> p = q.
Proof. intros H. pose proof (digits_val_N p) as A. rewrite H, digits_val_N in A. congruence. Qed.

Lemma N_to_str_cons n : exists a r, N_to_str n = String a r /\ is_digit a = true.
Proof.
  pose proof (alldigits_N n) as H. pose proof (digits_val_N n) as Hv.
  destruct (N_to_str n) as [|a r] eqn:E.
  - (* empty text would be the number 0, printed "0" *)
    cbn in Hv. injection Hv as <-. discriminate E.
  - cbn in H. apply andb_true_iff in H as [Ha _]. eauto.
Qed.

Lemma len_string_of_uint u : String.length (NilEmpty.string_of_uint u) = Decimal.nb_digits u.
Proof. induction u; cbn [NilEmpty.string_of_uint Decimal.nb_digits String.length]; auto. Qed.

Lemma nb_digits_revapp u : forall v, Decimal.nb_digits (Decimal.revapp u v) = (Decimal.nb_digits u + Decimal.nb_digits v)%nat.
Proof. induction u; intros v; cbn [Decimal.revapp Decimal.nb_digits]; auto; rewrite IHu; cbn [Decimal.nb_digits]; lia. Qed.

Lemma nb_digits_double u :
  (Decimal.nb_digits (Decimal.Little.double u) <= S (Decimal.nb_digits u) /\
   Decimal.nb_digits (Decimal.Little.succ_double u) <= S (Decimal.nb_digits u))%nat.
Proof. induction u; cbn [Decimal.Little.double Decimal.Little.succ_double Decimal.nb_digits]; lia. Qed.

Lemma nb_digits_little p : (Decimal.nb_digits (Pos.to_little_uint p) <= Pos.size_nat p)%nat.
Proof.
  induction p; cbn [Pos.to_little_uint Pos.size_nat Decimal.nb_digits]; auto.
  - pose proof (proj2 (nb_digits_double (Pos.to_little_uint p))). lia.
  - pose proof (proj1 (nb_digits_double (Pos.to_little_uint p))). lia.
Qed.

Lemma size_nat_bound p : forall n, (Zpos p < 2 ^ Z.of_nat n)%Z -> (Pos.size_nat p <= n)%nat.
Proof.
  induction p; intros n H; cbn [Pos.size_nat].
  - destruct n; [cbn in H; lia|]. rewrite Nat2Z.inj_succ, Z.pow_succ_r in H by lia.
    apply le_n_S, IHp. lia.
  - destruct n; [cbn in H; lia|]. rewrite Nat2Z.inj_succ, Z.pow_succ_r in H by lia.
    apply le_n_S, IHp. lia.
  - destruct n; [cbn in H; lia|]. lia.
Qed.

(* a number has at most as many decimal digits as binary ones *)
Lemma len_N_to_str_pos p : (String.length (N_to_str (Npos p)) <= Pos.size_nat p)%nat.
Proof.
  unfold N_to_str. rewrite len_string_of_uint. cbn [N.to_uint]. unfold Pos.to_uint, Decimal.rev.
  rewrite nb_digits_revapp. cbn [Decimal.nb_digits]. pose proof (nb_digits_little p). lia.
Qed.

Lemma N_to_str_nonempty n : N_to_str n <> "".
Proof. destruct (N_to_str_cons n) as (a & r & -> & _). discriminate. Qed.

Lemma Z_to_str_nonempty z : Z_to_str z <> "".
Proof. destruct z; cbn [Z_to_str]; try discriminate. apply N_to_str_nonempty. Qed.

(* A text that starts with a digit has no sign for the parsers to strip. *)
Lemma parse_unsigned_digit bound a r : is_digit a = true ->
  parse_unsigned bound (String a r) =
  match digits_val (String a r) 0%N with
  | Some v => if N.ltb v bound then Some v else None
  | None => None
  end.
Proof.
  intros H. destruct a as [[] [] [] [] [] [] [] []];
    try (vm_compute in H; discriminate H); reflexivity.
Qed.

Lemma parse_i32_digit a r : is_digit a = true ->
  parse_i32 (String a r) =
  match digits_val (String a r) 0%N with
  | Some v => if (Z.leb (-2147483648) (Z.of_N v) && Z.leb (Z.of_N v) 2147483647)%Z
              then Some (Z.of_N v) else None
  | None => None
  end.
Proof.
  intros H. destruct a as [[] [] [] [] [] [] [] []];
    try (vm_compute in H; discriminate H); reflexivity.
Qed.

Lemma parse_unsigned_N bound n : (n < bound)%N -> parse_unsigned bound (N_to_str n) = Some n.
Proof.
  intros Hb. destruct (N_to_str_cons n) as (a & r & E & Ha).
  pose proof (digits_val_N n) as Hv. rewrite E in *.
  rewrite parse_unsigned_digit, Hv by assumption.
  apply N.ltb_lt in Hb. now rewrite Hb.
Qed.

Theorem parse_u64_N n : (n < 2 ^ 64)%N -> parse_u64 (N_to_str n) = Some n.
Proof. apply parse_unsigned_N. Qed.

Definition sle (a b : str) : Prop := str_leb a b = true.

Lemma str_leb_total a b : str_leb a b = true \/ str_leb b a = true.
Proof.
  revert b. induction a as [|x a IH]; intros [|y b]; cbn; auto.
  destruct (N.ltb_spec (N_of_ascii x) (N_of_ascii y)); auto.
  destruct (N.ltb_spec (N_of_ascii y) (N_of_ascii x)); auto.
Qed.

Lemma str_leb_trans a b c : str_leb a b = true -> str_leb b c = true -> str_leb a c = true.
Proof.
  revert b c. induction a as [|x a IH]; intros [|y b] [|z c]; cbn; auto; try discriminate.
  destruct (N.ltb_spec (N_of_ascii x) (N_of_ascii y)),
           (N.ltb_spec (N_of_ascii y) (N_of_ascii x)),
           (N.ltb_spec (N_of_ascii y) (N_of_ascii z)),
           (N.ltb_spec (N_of_ascii z) (N_of_ascii y)),
           (N.ltb_spec (N_of_ascii x) (N_of_ascii z)),
           (N.ltb_spec (N_of_ascii z) (N_of_ascii x)); auto; try discriminate; try lia.
  apply IH.
Qed.

Lemma insert_sorted_perm x l : Permutation (x :: l) (insert_sorted x l).
Proof.
  induction l as [|y r IH]; cbn; auto.
  destruct (str_leb x y); auto.
  eapply perm_trans; [apply perm_swap|]. now constructor.
Qed.

Lemma sort_strs_perm l : Permutation l (sort_strs l).
Proof.
  induction l as [|x r IH]; cbn; auto.
  eapply perm_trans; [|apply insert_sorted_perm]. now constructor.
Qed.

Lemma in_sort_strs x l : In x (sort_strs l) <-> In x l.
Proof.
  split; apply Permutation_in; [apply Permutation_sym|]; apply sort_strs_perm.
Qed.

Lemma nodup_sort_strs l : NoDup l -> NoDup (sort_strs l).
Proof. apply Permutation_NoDup, sort_strs_perm. Qed.

Lemma insert_sorted_sorted x l : StronglySorted sle l -> StronglySorted sle (insert_sorted x l).
Proof.
  induction l as [|y r IH]; cbn; intros H.
  - repeat constructor.
  - inversion H as [|? ? Hr Hall]; subst.
    destruct (str_leb x y) eqn:E.
    + constructor; auto. constructor; auto.
      eapply Forall_impl; [|exact Hall]. intros z Hz. unfold sle in *. eapply str_leb_trans; eauto.
    + constructor; auto.
      eapply Permutation_Forall; [apply insert_sorted_perm|].
      constructor; auto. unfold sle. destruct (str_leb_total x y); congruence.
Qed.

Lemma sort_strs_sorted l : StronglySorted sle (sort_strs l).
Proof.
  induction l as [|x r IH]; cbn; [constructor|]. now apply insert_sorted_sorted.
Qed.
