(* ElectionProofs.v -- what holds, and what does not, of the election protocol
   modelled in Model/Election.v (C07). *)
From NunDB Require Import Model.Base Model.Pending Model.Parse Model.Node Model.Cluster Model.Election.
From NunDB Require Proofs.ClusterProofs.
Require Import String List NArith ZArith Bool Lia. Import ListNotations.
Open Scope string_scope.
Open Scope list_scope.
Open Scope N_scope.

Lemma is_eligible_agree : forall n, Election.is_eligible n = Node.is_eligible n.
Proof. intros n. unfold Election.is_eligible, Node.is_eligible. destruct (n_role n); reflexivity. Qed.

Lemma is_eligible_role : forall n, Election.is_eligible n = true <-> n_role n = StartingUp.
Proof. intros n. unfold Election.is_eligible. destruct (n_role n); simpl; split; congruence. Qed.

(* the number of wake-ups a frame can still take before the one that ends it *)
Definition fmeasureN (timeout : N) (f : frame) : N :=
  match f_phase f with
  | PFinal => 0
  | PAcks => (timeout - f_t f) / 2
  | PRegister => (timeout - 1 - f_t f) / 2 + 1 + timeout / 2
  end.
Definition fmeasure (timeout : N) (f : frame) : nat := N.to_nat (fmeasureN timeout f).

(* all of a frame but its phase and its loop timer *)
Definition same_call (f f' : frame) : Prop :=
  f_node f' = f_node f /\ f_id f' = f_id f /\ f_link f' = f_link f /\ f_client f' = f_client f /\
  f_held f' = f_held f /\ f_late f' = f_late f.

Lemma acks_check_sleep : forall timeout n f t f',
  acks_check timeout n f t = FSleep f' ->
  same_call f f' /\ ((f_phase f' = PFinal /\ f_t f' = 0) \/ (f_phase f' = PAcks /\ f_t f' = t)).
Proof.
  intros timeout n f t f' H. unfold acks_check in H.
  destruct (pending_get n (f_id f)) as [m|].
  - destruct (full_ack m).
    + inversion H; subst; clear H. unfold same_call; cbn. repeat split; auto.
    + destruct (negb (Election.is_eligible n)); [discriminate|].
      inversion H; subst; clear H. unfold same_call; cbn. repeat split; auto.
  - inversion H; subst; clear H. unfold same_call; cbn. repeat split; auto.
Qed.

Lemma div2_lt : forall a b : N, b + 2 <= a -> (a - (b + 2)) / 2 < (a - b) / 2.
Proof.
  intros a b H.
  replace (a - b) with ((a - (b + 2)) + 1 * 2) by lia.
  rewrite N.div_add by lia. lia.
Qed.

(* The four moves a wake-up can make -- to the final sleep, from the registration loop to the
   acknowledgement loop, once more round either loop -- all lower the measure. *)
Lemma fmeasureN_lt : forall timeout f f',
  (f_phase f' = PFinal /\ (f_phase f = PRegister \/ f_phase f = PAcks /\ f_t f + 2 <= timeout)) \/
  (f_phase f' = PAcks /\ f_t f' = 0 /\ f_phase f = PRegister) \/
  (f_phase f' = PAcks /\ f_t f' = f_t f + 2 /\ f_phase f = PAcks /\ f_t f + 2 <= timeout) \/
  (f_phase f' = PRegister /\ f_t f' = f_t f + 2 /\ f_phase f = PRegister /\ f_t f + 2 < timeout) ->
  fmeasureN timeout f' < fmeasureN timeout f.
Proof.
  intros timeout f f'. unfold fmeasureN.
  intros [[-> [->|[-> H]]]|[[-> [-> ->]]|[[-> [-> [-> H]]]|[-> [-> [-> H]]]]]].
  - generalize ((timeout - 1 - f_t f) / 2) (timeout / 2). lia.
  - exact (N.le_lt_trans _ _ _ (N.le_0_l _) (div2_lt timeout (f_t f) H)).
  - rewrite N.sub_0_r. generalize ((timeout - 1 - f_t f) / 2) (timeout / 2). lia.
  - exact (div2_lt timeout (f_t f) H).
  - assert (Hd : (timeout - 1 - (f_t f + 2)) / 2 < (timeout - 1 - f_t f) / 2) by (apply div2_lt; lia).
    revert Hd. generalize ((timeout - 1 - (f_t f + 2)) / 2) ((timeout - 1 - f_t f) / 2) (timeout / 2). lia.
Qed.

Lemma progress_from_fmeasureN : forall timeout f f',
  f_t f' <= timeout + 2 -> same_call f f' -> fmeasureN timeout f' < fmeasureN timeout f ->
  (fmeasure timeout f' < fmeasure timeout f)%nat /\ f_t f' <= timeout + 2 /\ same_call f f'.
Proof. unfold fmeasure. intros timeout f f' Ht Hs Hm. split; [lia|auto]. Qed.

(* acks_check is entered from the registration loop (the acknowledgement loop starts at 0) and
   from the acknowledgement loop before its timeout *)
Lemma acks_check_progress : forall timeout n f t f',
  acks_check timeout n f t = FSleep f' ->
  (f_phase f = PRegister /\ t = 0) \/ (f_phase f = PAcks /\ t = f_t f + 2 /\ t <= timeout) ->
  (fmeasure timeout f' < fmeasure timeout f)%nat /\ f_t f' <= timeout + 2 /\ same_call f f'.
Proof.
  intros timeout n f t f' H Hc. apply acks_check_sleep in H. destruct H as [Hs Hf'].
  destruct Hc as [[Hp ->]|[Hp [-> Hle]]]; destruct Hf' as [[Hp' Ht']|[Hp' Ht']];
    (apply progress_from_fmeasureN; [lia|exact Hs|apply fmeasureN_lt; tauto]).
Qed.

(* no bound on [f_t f] is assumed: the timer of the next frame is bounded whatever this one's is *)
Theorem frame_wake_progress : forall timeout n f f',
  frame_wake timeout n f = FSleep f' ->
  (fmeasure timeout f' < fmeasure timeout f)%nat /\ f_t f' <= timeout + 2 /\ same_call f f'.
Proof.
  intros timeout n f f' H. unfold frame_wake in H. destruct (f_phase f) eqn:Hp.
  - destruct (pending_get n (f_id f)) as [m|].
    + apply (acks_check_progress _ _ _ _ _ H). auto.
    + destruct (N.ltb_spec (f_t f + 2) timeout) as [Hlt|Hge]; [|discriminate].
      injection H as <-.
      apply progress_from_fmeasureN; [cbn; lia|repeat split; reflexivity|apply fmeasureN_lt; cbn; tauto].
  - destruct (N.ltb_spec timeout (f_t f + 2)) as [Hlt|Hge]; [discriminate|].
    apply (acks_check_progress _ _ _ _ _ H). auto.
  - destruct (Election.is_eligible n); discriminate.
Qed.

(* frame_start: when no pending entry is there yet the frame goes to sleep UNCHANGED (its first
   sleep is inside the first loop, start_time = 0), so the measure cannot strictly decrease:
   it does not increase, and it decreases strictly whenever the frame changes. *)
Theorem frame_start_progress : forall timeout n f f',
  f_phase f = PRegister -> f_t f = 0 ->
  frame_start timeout n f = FSleep f' ->
  (fmeasure timeout f' <= fmeasure timeout f)%nat /\ f_t f' <= timeout + 2 /\ same_call f f' /\
  (f' = f \/ (fmeasure timeout f' < fmeasure timeout f)%nat).
Proof.
  intros timeout n f f' Hp Ht H. unfold frame_start in H.
  destruct (pending_get n (f_id f)) as [m|].
  - destruct (acks_check_progress _ _ _ _ _ H (or_introl (conj Hp eq_refl))) as (Hm & Ht' & Hs).
    split; [lia|auto].
  - destruct (N.ltb 0 timeout); [|discriminate].
    injection H as <-.
    split; [lia|split; [lia|split; [unfold same_call; repeat split; reflexivity|left; reflexivity]]].
Qed.

(* the frame is woken up again and again; the node's state at each wake-up is arbitrary *)
Fixpoint wakes (timeout : N) (ns : list node) (f : frame) : fout :=
  match ns with
  | [] => FSleep f
  | n :: r => match frame_wake timeout n f with
              | FSleep f' => wakes timeout r f'
              | FDone n' => FDone n'
              end
  end.

Theorem frame_terminates : forall timeout ns f,
  (List.length ns > fmeasure timeout f)%nat -> exists n', wakes timeout ns f = FDone n'.
Proof.
  intros timeout ns. induction ns as [|n r IH]; intros f Hlen.
  - cbn in Hlen. lia.
  - cbn [wakes]. destruct (frame_wake timeout n f) as [f'|n'] eqn:Hw.
    + apply frame_wake_progress in Hw. destruct Hw as [Hm _].
      apply IH. cbn in Hlen. lia.
    + eexists; reflexivity.
Qed.

Lemma fmeasure_bound : forall timeout f, (fmeasure timeout f <= N.to_nat timeout + 1)%nat.
Proof.
  intros timeout f. unfold fmeasure, fmeasureN.
  assert (H1 : timeout / 2 * 2 <= timeout).
  { rewrite N.mul_comm. apply N.mul_div_le. lia. }
  destruct (f_phase f).
  - assert (H2 : (timeout - 1 - f_t f) / 2 * 2 <= timeout - 1 - f_t f).
    { rewrite N.mul_comm. apply N.mul_div_le. lia. }
    destruct (N.eq_dec timeout 0) as [->|Hnz].
    + cbn. lia.
    + lia.
  - assert (H2 : (timeout - f_t f) / 2 * 2 <= timeout - f_t f).
    { rewrite N.mul_comm. apply N.mul_div_le. lia. }
    lia.
  - lia.
Qed.

(* every blocked election call returns after at most timeout + 2 wake-ups, whatever the node's
   state is at each of them.  The timeout is in ms, a wake-up every 2 ms: at most
   (timeout-1)/2 + 1 wake-ups in the first loop, the last of them entering the second; there
   timeout/2 that sleep again and one more, which is the one that times out or the one from the
   final sleep.  That is timeout + 1 for timeout >= 1 (bound_is_tight_20); the + 2 is met by a
   frame in the first loop when timeout = 0. *)
Corollary frame_terminates_bound : forall timeout ns f,
  (List.length ns >= N.to_nat timeout + 2)%nat -> exists n', wakes timeout ns f = FDone n'.
Proof.
  intros timeout ns f H. apply frame_terminates.
  pose proof (fmeasure_bound timeout f). lia.
Qed.

(* the slowest run of a call at timeout 20: nine wake-ups without the pending entry keep frame0 in
   the registration loop (t = 2 .. 18 < 20), then the entry is there and never fully acknowledged *)
Definition pm_half : pmsg := mkP "m" 1 0 [("x", false)].
Definition node_with_pending (id : N) : node :=
  mkNode [] [] StartingUp 0 "u" "p" "a" 1 [] [] [] [(id, pm_half)] [] [].
Definition node_without_pending : node := mkNode [] [] StartingUp 0 "u" "p" "a" 1 [] [] [] [] [] [].
Definition frame0 : frame := mkF "a" 7 PRegister 0 None None [] [].
Definition slow_nodes (k : nat) : list node :=
  repeat node_without_pending 9 ++ repeat (node_with_pending 7) k.

(* the measure is exact: with timeout 20 a frame can sleep through 20 wake-ups; the 21st ends it *)
Example bound_is_tight_20 :
  fmeasure 20 frame0 = 20%nat /\
  (exists f', wakes 20 (slow_nodes 11) frame0 = FSleep f') /\
  (exists n', wakes 20 (slow_nodes 12) frame0 = FDone n').
Proof.
  split; [vm_compute; reflexivity|]. split; eexists; vm_compute; reflexivity.
Qed.

(* a frame is identified by (op id, node) in tick_one *)
Definition fkey (f : frame) : N * str := (f_id f, f_node f).
Definition keyeq (g f : frame) : bool := N.eqb (f_id g) (f_id f) && String.eqb (f_node g) (f_node f).
Definition keys_nodup (l : list frame) : Prop := NoDup (map fkey l).
(* wake-ups the frames of a list can still take, in total (one more than the measure each) *)
Definition weight (timeout : N) (l : list frame) : nat :=
  fold_right (fun f a => (S (fmeasure timeout f) + a)%nat) 0%nat l.

Lemma keyeq_spec : forall g f, keyeq g f = true <-> fkey g = fkey f.
Proof.
  intros g f. unfold keyeq, fkey. rewrite andb_true_iff, N.eqb_eq, String.eqb_eq.
  split; [intros [-> ->]; reflexivity|intros H; inversion H; auto].
Qed.

Lemma same_call_key : forall f f', same_call f f' -> fkey f' = fkey f.
Proof. intros f f' [H1 [H2 _]]. unfold fkey. congruence. Qed.

Definition replace_frame (f f' : frame) (l : list frame) : list frame :=
  map (fun g => if keyeq g f then f' else g) l.
Definition drop_frame (f : frame) (l : list frame) : list frame :=
  filter (fun g => negb (keyeq g f)) l.

Lemma weight_cons : forall t g r, weight t (g :: r) = (S (fmeasure t g) + weight t r)%nat.
Proof. reflexivity. Qed.
Lemma weight_app : forall t a b, weight t (a ++ b) = (weight t a + weight t b)%nat.
Proof.
  intros t a b. induction a as [|g a IH]; [reflexivity|].
  rewrite <- app_comm_cons, !weight_cons, IH. lia.
Qed.

Lemma absent_untouched : forall f f' l,
  ~ In (fkey f) (map fkey l) -> replace_frame f f' l = l /\ drop_frame f l = l.
Proof.
  intros f f' l. unfold replace_frame, drop_frame.
  induction l as [|g r IH]; intro Hn; [split; reflexivity|].
  cbn [map filter In] in Hn |- *. destruct (keyeq g f) eqn:E; cbn [negb].
  - apply keyeq_spec in E. tauto.
  - destruct IH as [-> ->]; [tauto|]. split; reflexivity.
Qed.

(* With distinct keys the list is l1 ++ f :: l2 with no other frame of f's key: a wake-up of f
   changes that one place. *)
Lemma frames_at : forall f f' l1 l2,
  ~ In (fkey f) (map fkey (l1 ++ l2)) ->
  replace_frame f f' (l1 ++ f :: l2) = l1 ++ f' :: l2 /\ drop_frame f (l1 ++ f :: l2) = l1 ++ l2.
Proof.
  intros f f' l1 l2. rewrite map_app, in_app_iff. intro Hn.
  destruct (absent_untouched f f' l1) as [R1 D1]; [tauto|].
  destruct (absent_untouched f f' l2) as [R2 D2]; [tauto|].
  unfold replace_frame, drop_frame in *. rewrite map_app, filter_app. cbn [map filter].
  rewrite (proj2 (keyeq_spec f f) eq_refl), R1, R2, D1, D2. split; reflexivity.
Qed.

Lemma others_stay : forall (g f : frame) s l1 l2,
  In g (l1 ++ f :: l2) -> g <> f -> In g (l1 ++ s ++ l2).
Proof.
  intros g f s l1 l2 Hg Hne. apply in_elt_inv in Hg. destruct Hg as [E|Hg]; [congruence|].
  rewrite !in_app_iff in *. tauto.
Qed.

Lemma tick_one_frames : forall e f,
  e_timeout (tick_one e f) = e_timeout e /\
  match node_of (sync_clocks (e_c e)) (f_node f) with
  | None => tick_one e f = e
  | Some n =>
      match frame_wake (e_timeout e) n f with
      | FSleep f' => e_frames (tick_one e f) = replace_frame f f' (e_frames e)
      | FDone _ => e_frames (tick_one e f) = drop_frame f (e_frames e)
      end
  end.
Proof.
  intros e f. unfold tick_one.
  destruct (node_of (sync_clocks (e_c e)) (f_node f)) as [n|]; [|split; reflexivity].
  destruct (frame_wake (e_timeout e) n f) as [f'|n']; split; reflexivity.
Qed.

Lemma tick_one_weight : forall e f,
  keys_nodup (e_frames e) -> In f (e_frames e) ->
  e_timeout (tick_one e f) = e_timeout e /\
  keys_nodup (e_frames (tick_one e f)) /\
  (forall g, In g (e_frames e) -> fkey g <> fkey f -> In g (e_frames (tick_one e f))) /\
  (weight (e_timeout e) (e_frames (tick_one e f)) <= weight (e_timeout e) (e_frames e))%nat /\
  (node_of (sync_clocks (e_c e)) (f_node f) <> None ->
   (weight (e_timeout e) (e_frames (tick_one e f)) < weight (e_timeout e) (e_frames e))%nat).
Proof.
  intros e f Hnd Hin. destruct (tick_one_frames e f) as [Ht Hf]. split; [exact Ht|].
  destruct (node_of (sync_clocks (e_c e)) (f_node f)) as [n|];
    [|rewrite Hf; repeat split; auto; intros H; contradiction].
  apply in_split in Hin. destruct Hin as (l1 & l2 & El). rewrite El in Hnd, Hf |- *. clear El.
  unfold keys_nodup in *. rewrite map_app in Hnd. cbn [map] in Hnd.
  pose proof (NoDup_remove _ _ _ Hnd) as [Hnd' Hout]. rewrite <- map_app in Hnd', Hout.
  destruct (frame_wake (e_timeout e) n f) as [f'|n'] eqn:Hw; rewrite Hf.
  - apply frame_wake_progress in Hw. destruct Hw as [Hm [_ Hs]]. apply same_call_key in Hs.
    rewrite (proj1 (frames_at f f' l1 l2 Hout)). split; [|split].
    + rewrite map_app. cbn [map]. rewrite Hs. exact Hnd.
    + intros g Hg Hk. apply (others_stay g f [f'] l1 l2 Hg). congruence.
    + rewrite !weight_app, !weight_cons. lia.
  - rewrite (proj2 (frames_at f f l1 l2 Hout)). split; [|split].
    + exact Hnd'.
    + intros g Hg Hk. apply (others_stay g f [] l1 l2 Hg). congruence.
    + rewrite !weight_app, !weight_cons. lia.
Qed.

Lemma tick_fold_weight : forall l e,
  keys_nodup (e_frames e) -> keys_nodup l -> incl l (e_frames e) ->
  e_timeout (fold_left tick_one l e) = e_timeout e /\
  keys_nodup (e_frames (fold_left tick_one l e)) /\
  (weight (e_timeout e) (e_frames (fold_left tick_one l e)) <= weight (e_timeout e) (e_frames e))%nat /\
  (forall f r, l = f :: r -> node_of (sync_clocks (e_c e)) (f_node f) <> None ->
     (weight (e_timeout e) (e_frames (fold_left tick_one l e)) < weight (e_timeout e) (e_frames e))%nat).
Proof.
  induction l as [|f r IH]; intros e Hnd Hl Hincl.
  - cbn. repeat split; auto. discriminate.
  - cbn [fold_left].
    assert (Hin : In f (e_frames e)) by (apply Hincl; left; reflexivity).
    destruct (tick_one_weight e f Hnd Hin) as [Ht [Hnd1 [Hkeep [Hle Hlt]]]].
    unfold keys_nodup in Hl. cbn in Hl. inversion Hl as [|k ks Hnotin Hl']; subst.
    assert (Hincl' : incl r (e_frames (tick_one e f))).
    { intros g Hg. apply Hkeep; [apply Hincl; right; exact Hg|].
      intro Hk. apply Hnotin. rewrite <- Hk. apply in_map. exact Hg. }
    destruct (IH (tick_one e f) Hnd1 Hl' Hincl') as [Ht2 [Hnd2 [Hle2 _]]].
    rewrite Ht in Ht2, Hle2. repeat split; auto; [lia|].
    intros f0 r0 [= <- _] Hn. specialize (Hlt Hn). lia.
Qed.

Lemma node_of_sync_clocks : forall c nm, node_of (sync_clocks c) nm = None <-> node_of c nm = None.
Proof.
  intros c nm. unfold node_of, get_cn, sync_clocks. cbn [c_nodes].
  generalize (fold_left (fun a kv => N.max a (n_clock (cn_node (snd kv)))) (c_nodes c) 0) as mx.
  intro mx. induction (c_nodes c) as [|[k v] r IH]; [cbn; tauto|].
  cbn. destruct (String.eqb nm k); [cbn; split; discriminate|exact IH].
Qed.

(* Together with frame_terminates: frames do not block for ever; a run that does not quiesce
   (C07_no_quiescence_refuted) keeps STARTING new elections. *)
Theorem tick_frames_progress : forall e,
  keys_nodup (e_frames e) ->
  e_timeout (tick_frames e) = e_timeout e /\
  keys_nodup (e_frames (tick_frames e)) /\
  (weight (e_timeout e) (e_frames (tick_frames e)) <= weight (e_timeout e) (e_frames e))%nat /\
  (forall f r, e_frames e = f :: r -> node_of (e_c e) (f_node f) <> None ->
     (weight (e_timeout e) (e_frames (tick_frames e)) < weight (e_timeout e) (e_frames e))%nat).
Proof.
  intros e Hnd. unfold tick_frames.
  destruct (tick_fold_weight (e_frames e) e Hnd Hnd (incl_refl _)) as [Ht [Hnd' [Hle Hlt]]].
  repeat split; auto.
  intros f r Hfr Hnode. apply (Hlt f r Hfr). rewrite node_of_sync_clocks. exact Hnode.
Qed.

Lemma election_win_role : forall n, n_role (election_win n) = Primary.
Proof. reflexivity. Qed.
Lemma election_win_sup : forall n, n_sup (election_win n) = n_sup n ++ ["election-win self"].
Proof. reflexivity. Qed.
Lemma election_win_neq : forall n, election_win n <> n.
Proof.
  intros n H. apply (f_equal n_sup) in H. rewrite election_win_sup in H.
  apply (f_equal (@List.length str)) in H. rewrite app_length in H. cbn in H. lia.
Qed.

Lemma acks_check_done : forall timeout n f t n',
  acks_check timeout n f t = FDone n' ->
  n' = n /\ Election.is_eligible n = false /\
  exists m, pending_get n (f_id f) = Some m /\ full_ack m = false.
Proof.
  intros timeout n f t n' H. unfold acks_check in H.
  destruct (pending_get n (f_id f)) as [m|]; [|discriminate].
  destruct (full_ack m) eqn:Hfa; [discriminate|].
  destruct (Election.is_eligible n) eqn:He; cbn in H; [discriminate|].
  inversion H; subst. repeat split; auto. exists m; auto.
Qed.

(* How a wake-up ends a call: by claiming the primacy, in one of three ways, or by giving up. *)
Lemma frame_wake_done : forall timeout n f n',
  frame_wake timeout n f = FDone n' ->
  (n' = election_win n /\
   ((f_phase f = PRegister /\ pending_get n (f_id f) = None /\ timeout <= f_t f + 2) \/
    (f_phase f = PAcks /\ timeout < f_t f + 2) \/
    (f_phase f = PFinal /\ Election.is_eligible n = true))) \/
  (n' = n /\ Election.is_eligible n = false).
Proof.
  intros timeout n f n' H. unfold frame_wake in H. destruct (f_phase f).
  - destruct (pending_get n (f_id f)) as [m|].
    + apply acks_check_done in H. right. tauto.
    + destruct (N.ltb_spec (f_t f + 2) timeout); [discriminate|]. injection H as <-. left. auto.
  - destruct (N.ltb_spec timeout (f_t f + 2)).
    + injection H as <-. left. auto.
    + apply acks_check_done in H. right. tauto.
  - destruct (Election.is_eligible n) eqn:He; injection H as <-; [left|right]; auto.
Qed.

Theorem frame_done_role : forall timeout n f n',
  frame_wake timeout n f = FDone n' \/ frame_start timeout n f = FDone n' ->
  n' = n \/
  (n' = election_win n /\ n_role n' = Primary /\ n_sup n' = n_sup n ++ ["election-win self"]).
Proof.
  intros timeout n f n' [H|H].
  - destruct (frame_wake_done _ _ _ _ H) as [[-> _]|[-> _]]; auto.
  - unfold frame_start in H. destruct (pending_get n (f_id f)) as [m|].
    + apply acks_check_done in H. left; apply H.
    + destruct (N.ltb 0 timeout); [discriminate|]. injection H as <-. right; auto.
Qed.

Theorem frame_wake_wins_iff : forall timeout n f,
  frame_wake timeout n f = FDone (election_win n) <->
  (f_phase f = PRegister /\ pending_get n (f_id f) = None /\ timeout <= f_t f + 2) \/
  (f_phase f = PAcks /\ timeout < f_t f + 2) \/
  (f_phase f = PFinal /\ Election.is_eligible n = true).
Proof.
  intros timeout n f. split.
  - intro H. destruct (frame_wake_done _ _ _ _ H) as [[_ Hw]|[Hn _]]; [exact Hw|].
    apply election_win_neq in Hn. contradiction.
  - intros [[Hp [Hg Ht]]|[[Hp Ht]|[Hp He]]]; unfold frame_wake; rewrite Hp.
    + rewrite Hg. destruct (N.ltb_spec (f_t f + 2) timeout) as [Hlt|Hge]; [lia|reflexivity].
    + destruct (N.ltb_spec timeout (f_t f + 2)) as [Hlt|Hge]; [reflexivity|lia].
    + rewrite He. reflexivity.
Qed.

Corollary frame_done_final_win : forall timeout n f,
  f_phase f = PFinal ->
  (frame_wake timeout n f = FDone (election_win n) <-> n_role n = StartingUp).
Proof.
  intros timeout n f Hp. rewrite frame_wake_wins_iff, <- is_eligible_role, Hp.
  split; [intros [[H _]|[[H _]|[_ H]]]; [discriminate H|discriminate H|exact H]|auto].
Qed.

(* the acknowledgement loop before its timeout never claims the primacy itself: it ends only by
   giving up (the node is no longer StartingUp while acknowledgements are outstanding) *)
Theorem frame_done_acks_no_timeout : forall timeout n f n',
  f_phase f = PAcks -> f_t f + 2 <= timeout ->
  frame_wake timeout n f = FDone n' ->
  n' = n /\ Election.is_eligible n = false /\
  exists m, pending_get n (f_id f) = Some m /\ full_ack m = false.
Proof.
  intros timeout n f n' Hp Ht H. unfold frame_wake in H. rewrite Hp in H.
  destruct (N.ltb_spec timeout (f_t f + 2)) as [Hlt|Hge]; [lia|].
  apply acks_check_done in H. exact H.
Qed.

Theorem frame_done_register_seen : forall timeout n f n' m,
  f_phase f = PRegister -> pending_get n (f_id f) = Some m ->
  frame_wake timeout n f = FDone n' ->
  n' = n /\ Election.is_eligible n = false /\ full_ack m = false.
Proof.
  intros timeout n f n' m Hp Hg H. unfold frame_wake in H. rewrite Hp, Hg in H.
  apply acks_check_done in H. destruct H as [H1 [H2 [m' [H3 H4]]]].
  rewrite Hg in H3. inversion H3; subst. auto.
Qed.

(* the mechanism of the "second primary": a node that is NOT eligible any more (it already
   became Secondary, or is Primary) claims the primacy exactly when one of its two wait loops
   times out.  (Exact conditions of the code: the registration loop gives up when
   start_time + 2 >= timeout, the acknowledgement loop when start_time + 2 > timeout.) *)
Theorem claims_without_eligibility : forall timeout n f,
  (frame_wake timeout n f = FDone (election_win n) /\ Election.is_eligible n = false) <->
  (Election.is_eligible n = false /\
   ((f_phase f = PRegister /\ pending_get n (f_id f) = None /\ timeout <= f_t f + 2) \/
    (f_phase f = PAcks /\ timeout < f_t f + 2))).
Proof.
  intros timeout n f. rewrite frame_wake_wins_iff. split.
  - intros [[H|[H|[_ H]]] He]; try (split; [exact He|tauto]). congruence.
  - intros [He [H|H]]; split; auto.
Qed.

Theorem frame_start_wins_iff : forall timeout n f,
  frame_start timeout n f = FDone (election_win n) <->
  (pending_get n (f_id f) = None /\ timeout = 0).
Proof.
  intros timeout n f. unfold frame_start. split.
  - intro H. destruct (pending_get n (f_id f)) as [m|] eqn:Hg.
    + apply acks_check_done in H. destruct H as [H _]. apply election_win_neq in H. contradiction.
    + destruct (N.ltb_spec 0 timeout) as [Hlt|Hge]; [discriminate|]. split; [reflexivity|lia].
  - intros [Hg Ht]. rewrite Hg. subst timeout. reflexivity.
Qed.

Definition secondary_node : node := mkNode [] [] Secondary 0 "u" "p" "a" 1 [] [] [] [(7, pm_half)] [] [].
Example secondary_claims_primacy :
  n_role secondary_node = Secondary /\
  exists n', frame_wake 20 secondary_node (mkF "a" 7 PAcks 20 None None [] []) = FDone n' /\ n_role n' = Primary.
Proof. split; [reflexivity|]. eexists; split; vm_compute; reflexivity. Qed.

Definition candidate_msg (n : node) : str := "election candidate " +++ N_to_str (n_pid n) +++ " " +++ n_addr n.
Definition stamped (n : node) (msg : str) : str := "rp " +++ N_to_str (n_clock n) +++ " " +++ msg.

Lemma replicate_message_role : forall n m, n_role (replicate_message n m) = n_role n.
Proof. reflexivity. Qed.
Lemma replicate_message_repl : forall n m, n_repl (replicate_message n m) = n_repl n ++ [stamped n m].
Proof. reflexivity. Qed.
Lemma replicate_message_members : forall n m, n_members (replicate_message n m) = n_members n.
Proof. reflexivity. Qed.
Lemma replicate_message_sup : forall n m, n_sup (replicate_message n m) = n_sup n.
Proof. reflexivity. Qed.

Theorem election_eval_rule : forall n cand,
  (* its own candidacy coming back: nothing *)
  (cand = n_pid n -> election_eval n cand = n) /\
  (* a younger candidate: the node starts an election of its own, WITHOUT becoming StartingUp *)
  (n_pid n < cand ->
     election_eval n cand = start_election n /\
     ((1 < List.length (n_members n))%nat ->
        n_role (election_eval n cand) = n_role n /\
        n_repl (election_eval n cand) = n_repl n ++ [stamped n (candidate_msg n)] /\
        n_sup (election_eval n cand) = n_sup n /\
        n_members (election_eval n cand) = n_members n)) /\
  (* an older candidate: the node becomes Secondary and answers "election alive" *)
  (cand < n_pid n ->
     n_role (election_eval n cand) = Secondary /\
     n_repl (election_eval n cand) = n_repl n ++ [stamped n ("election alive " +++ n_addr n)] /\
     n_sup (election_eval n cand) = n_sup n /\
     n_members (election_eval n cand) = n_members n).
Proof.
  intros n cand. unfold election_eval.
  destruct (N.eqb_spec cand (n_pid n)) as [->|Hne]; [repeat split; intros; (reflexivity || lia)|].
  split; [intros; contradiction|].
  destruct (N.ltb_spec (n_pid n) cand) as [Hlt|Hge].
  - split; [intros _|intros; lia]. split; [reflexivity|]. intros Hm. unfold start_election.
    destruct (Nat.leb_spec (List.length (n_members n)) 1); [lia|]. repeat split; reflexivity.
  - split; [intros; lia|intros _]. repeat split; reflexivity.
Qed.

(* a Secondary's replication thread leaves the node as it is -- member outboxes included: it
   does not call fan_out, whatever the queued message is (an "rp <id> election candidate ..."
   in particular) *)
Theorem secondary_no_fanout : forall x msg,
  n_role (cn_node x) = Secondary ->
  n_members (cn_node (repl_one x msg)) = n_members (cn_node x) /\
  n_pending (cn_node (repl_one x msg)) = n_pending (cn_node x).
Proof. exact ClusterProofs.secondary_never_fans_out. Qed.

Corollary secondary_poll_repl_no_fanout : forall x,
  n_role (cn_node x) = Secondary ->
  n_members (cn_node (poll_repl x)) = n_members (cn_node x) /\
  n_pending (cn_node (poll_repl x)) = n_pending (cn_node x) /\
  n_repl (cn_node (poll_repl x)) = [].
Proof.
  intros x Hr. destruct (ClusterProofs.secondary_poll_never_fans_out x Hr) as (Hm & Hp & _ & Hq). auto.
Qed.

(* non-vacuity: the candidate message is a replication request the thread understands, a
   StartingUp node fans it out, the same node as Secondary does not *)
Definition two_member_node (r : role) : node :=
  mkNode [] [] r 5 "u" "p" "n1" 100 [] [] [] [] [] [("n1", (r, [nosender])); ("n2", (Secondary, []))].
Definition cand_line : str := "rp 5 election candidate 200 n2".
Example candidate_message_parses :
  parse_request cand_line = POk (RqReplicateRequest "election candidate 200 n2" 5) /\
  parse_request "election candidate 200 n2" = POk (RqElection 200 "n2").
Proof. split; vm_compute; reflexivity. Qed.
Example starting_up_fans_out :
  n_members (cn_node (repl_one (mkCN (two_member_node StartingUp) [] [] [] false) cand_line)) =
  [("n1", (StartingUp, [nosender])); ("n2", (Secondary, [cand_line]))].
Proof. vm_compute. reflexivity. Qed.
Example secondary_does_not_fan_out :
  n_members (cn_node (repl_one (mkCN (two_member_node Secondary) [] [] [] false) cand_line)) =
  [("n1", (Secondary, [nosender])); ("n2", (Secondary, []))].
Proof. vm_compute. reflexivity. Qed.

Theorem single_node_wins_at_once : forall n,
  (List.length (n_members n) <= 1)%nat -> start_election n = election_win n.
Proof.
  intros n H. unfold start_election.
  destruct (Nat.leb_spec (List.length (n_members n)) 1); [reflexivity|lia].
Qed.

Corollary single_node_new_election : forall n,
  (List.length (n_members n) <= 1)%nat ->
  n_role (start_new_election n) = Primary /\
  n_sup (start_new_election n) = n_sup n ++ ["election-win self"].
Proof.
  intros n H. unfold start_new_election.
  rewrite single_node_wins_at_once by exact H. split; reflexivity.
Qed.

(* Fuel is additive: a settled run is the same under any larger fuel (esettle_enough), an
   unsettled prefix can be split off (esettle_split_P). *)
Lemma esettle_add : forall a b e,
  esettle (a + b) e = if snd (esettle a e) then esettle a e else esettle b (fst (esettle a e)).
Proof.
  induction a as [|a IH]; intros b e; [reflexivity|].
  cbn [esettle plus]. destruct (esettle_round e) as [e1 moved].
  destruct moved; [apply IH|]. destruct (e_frames e1); [reflexivity|apply IH].
Qed.

Corollary esettle_enough : forall F e e1,
  esettle F e = (e1, true) -> forall fuel, (F <= fuel)%nat -> esettle fuel e = (e1, true).
Proof.
  intros F e e1 H fuel Hle. replace fuel with (F + (fuel - F))%nat by lia.
  rewrite esettle_add, H. reflexivity.
Qed.

Lemma esettle_split_P a b e (P : ecl * bool -> Prop) :
  snd (esettle a e) = false -> P (esettle b (fst (esettle a e))) -> P (esettle (a + b) e).
Proof. intros H. now rewrite esettle_add, H. Qed.

Definition mk_nodes (l : list (str * N * N)) : list (str * cnode) :=
  map (fun x => let '(nm, pid, clk) := x in (nm, init_cnode "nun" "pwd" nm pid StartingUp clk)) l.
Definition conn2 (c : cluster) (nm : str) : cluster := fst (client_conn (fst (client_conn c nm)) nm).
(* the harness's cluster: nodes with their own clock ranges, election timeout 20 ms, two client
   connections per node, client 0 of every node authenticated *)
Definition mk_ecl (l : list (str * N * N)) : ecl :=
  let names := map (fun x => fst (fst x)) l in
  let c := fold_left conn2 names (mkCl (mk_nodes l) [] 0) in
  fold_left (fun e nm => fst (ecmd e nm 0%nat "auth nun pwd")) names (mkE c [] 20 []).
Definition cmd (e : ecl) (nm : str) (k : nat) (line : str) : ecl := fst (ecmd e nm k line).
Definition auth1 (e : ecl) (names : list str) : ecl := fold_left (fun e nm => cmd e nm 1%nat "auth nun pwd") names e.
Definition roles (e : ecl) : list (str * role) :=
  map (fun kv => (fst kv, n_role (cn_node (snd kv)))) (c_nodes (e_c e)).
Definition member_tables (e : ecl) : list (str * list (str * role)) :=
  map (fun kv => (fst kv, map (fun m => (fst m, fst (snd m))) (n_members (cn_node (snd kv))))) (c_nodes (e_c e)).
Definition pids (e : ecl) : list (str * N) :=
  map (fun kv => (fst kv, n_pid (cn_node (snd kv)))) (c_nodes (e_c e)).
(* the nodes' initial clocks: op ids are clock readings, so every node stamps from a range of its own *)
Definition K1 : N := 1100000000000000000.
Definition K2 : N := 1200000000000000000.
Definition K3 : N := 1300000000000000000.

(* n1 is the older node (smaller process id) *)
Definition two_nodes : ecl := mk_ecl [("n1", 100, K1); ("n2", 200, K2)].

Example C07_sequential_formation_ok :
  let r := esettle 200 (cmd two_nodes "n1" 0 "join n2") in
  snd r = true /\
  roles (fst r) = [("n1", Primary); ("n2", Secondary)] /\
  member_tables (fst r) = [("n1", [("n2", Secondary); ("n1", Primary)]);
                           ("n2", [("n1", Primary); ("n2", Secondary)])].
Proof. vm_compute. repeat split; reflexivity. Qed.

Example C07_cross_joins_older_wins :
  let r := esettle 3000 (cmd (cmd two_nodes "n1" 0 "join n2") "n2" 0 "join n1") in
  snd r = true /\ roles (fst r) = [("n1", Primary); ("n2", Secondary)].
Proof. vm_compute. repeat split; reflexivity. Qed.

(* ... but the younger node does win, with n1 as its Secondary, as soon as the join request goes to
   the younger node first: alone (a), followed by the symmetric request after a settle (b) *)
Example C07_younger_node_wins_refuted :
  pids two_nodes = [("n1", 100); ("n2", 200)] /\
  (let r := esettle 3000 (cmd two_nodes "n2" 0 "join n1") in
   snd r = true /\
   roles (fst r) = [("n1", Secondary); ("n2", Primary)] /\
   member_tables (fst r) = [("n1", [("n2", Primary); ("n1", Secondary)]);
                            ("n2", [("n1", Secondary); ("n2", Primary)])]) /\
  (let r := esettle 3000 (cmd (fst (esettle 200 (cmd two_nodes "n2" 0 "join n1"))) "n1" 0 "join n2") in
   snd r = true /\
   roles (fst r) = [("n1", Secondary); ("n2", Primary)]).
Proof. vm_compute. repeat split; reflexivity. Qed.

Definition three_nodes_b : ecl :=
  auth1 (mk_ecl [("n1", 200, K1); ("n2", 400, K2); ("n3", 100, K3)]) ["n1"; "n2"; "n3"].

(* n1 is asked to take n2 and n3 in, then an election is forced on n3: the run settles with n1 AND
   n3 Primary; n1's member table names all three nodes (itself Primary), n2 follows n3 *)
Example C07_two_primaries_refuted :
  let e := cmd (cmd (cmd three_nodes_b "n1" 0 "join n2") "n1" 0 "join n3") "n3" 1 "debug force-election" in
  let r := esettle 3000 e in
  snd r = true /\
  e_frames (fst r) = [] /\
  roles (fst r) = [("n1", Primary); ("n2", Secondary); ("n3", Primary)] /\
  member_tables (fst r) = [("n1", [("n2", Secondary); ("n1", Primary); ("n3", Secondary)]);
                           ("n2", [("n1", Secondary); ("n2", Secondary); ("n3", Primary)]);
                           ("n3", [("n3", Primary); ("n2", Secondary)])].
Proof. vm_compute. repeat split; reflexivity. Qed.

Example C07_two_primaries_refuted_2 :
  let e := cmd (cmd (cmd three_nodes_b "n1" 0 "join n2") "n1" 0 "join n3") "n2" 1 "debug force-election" in
  let r := esettle 3000 e in
  snd r = true /\
  roles (fst r) = [("n1", Primary); ("n2", Primary); ("n3", Secondary)] /\
  member_tables (fst r) = [("n1", [("n2", Secondary); ("n1", Primary); ("n3", Secondary)]);
                           ("n2", [("n2", Primary); ("n3", Secondary)]);
                           ("n3", [("n1", Secondary); ("n2", Primary); ("n3", Secondary)])].
Proof. vm_compute. repeat split; reflexivity. Qed.

Definition three_nodes : ecl :=
  auth1 (mk_ecl [("n1", 100, K1); ("n2", 200, K2); ("n3", 300, K3)]) ["n1"; "n2"; "n3"].
Definition formed3 : ecl :=
  fst (esettle 200 (cmd (fst (esettle 200 (cmd three_nodes "n1" 0 "join n2"))) "n1" 0 "join n3")).

Example C07_formed3_ok :
  roles formed3 = [("n1", Primary); ("n2", Secondary); ("n3", Secondary)] /\
  e_frames formed3 = [] /\
  member_tables formed3 = [("n1", [("n2", Secondary); ("n1", Primary); ("n3", Secondary)]);
                           ("n2", [("n1", Primary); ("n2", Secondary); ("n3", Secondary)]);
                           ("n3", [("n1", Primary); ("n2", Secondary); ("n3", Secondary)])].
Proof. vm_compute. repeat split; reflexivity. Qed.

Local Notation forced := (cmd formed3 "n3" 1%nat "debug force-election") (only parsing).

Definition keys_nodupb (l : list frame) : bool :=
  (fix go l := match l with [] => true | f :: r => negb (existsb (fun g => keyeq g f) r) && go r end) l.

Lemma keys_nodupb_ok : forall l, keys_nodupb l = true -> keys_nodup l.
Proof.
  unfold keys_nodup. induction l as [|f r IH]; cbn; intros H; constructor;
    apply andb_true_iff in H as [Hf Hr]; auto.
  intros Hin. apply in_map_iff in Hin as (g & Hk & Hg). apply negb_true_iff in Hf.
  assert (E : existsb (fun g => keyeq g f) r = true); [|congruence].
  apply existsb_exists. exists g. split; [exact Hg|]. now apply keyeq_spec.
Qed.

(* The run is evaluated once, 3000 rounds in all, passing through the state after 600: every
   further evaluation would cost the independent checker as much again.  600 + 2400 because
   C07_no_quiescence_frames speaks of the state after 600 rounds and C07_no_quiescence_refuted of
   3000; 44 = 2 frames * (timeout 20 + 2), the bound on the weight stated there. *)
Definition forced_summary (e : ecl) : bool * bool * bool * bool * bool * bool :=
  let r1 := esettle 600 e in
  let e1 := fst r1 in
  let r2 := esettle 2400 e1 in
  (snd r1, keys_nodupb (e_frames e1), Nat.eqb (List.length (e_frames e1)) 2,
   Nat.leb (weight (e_timeout e1) (e_frames e1)) 44,
   snd r2, match e_frames (fst r2) with [] => false | _ => true end).

(* Stated over the very terms the examples below mention, so that they follow without any
   conversion that could make the kernel run [esettle] again. *)
Lemma forced_run :
  snd (esettle 600 forced) = false /\
  (keys_nodupb (e_frames (fst (esettle 600 forced))) = true /\
   Nat.eqb (List.length (e_frames (fst (esettle 600 forced)))) 2 = true /\
   Nat.leb (weight (e_timeout (fst (esettle 600 forced))) (e_frames (fst (esettle 600 forced)))) 44 = true) /\
  snd (esettle 2400 (fst (esettle 600 forced))) = false /\
  e_frames (fst (esettle 2400 (fst (esettle 600 forced)))) <> [].
Proof.
  assert (E : forced_summary forced = (false, true, true, true, false, true)) by (vm_compute; reflexivity).
  change (forced_summary forced) with
    (snd (esettle 600 forced), keys_nodupb (e_frames (fst (esettle 600 forced))),
     Nat.eqb (List.length (e_frames (fst (esettle 600 forced)))) 2,
     Nat.leb (weight (e_timeout (fst (esettle 600 forced))) (e_frames (fst (esettle 600 forced)))) 44,
     snd (esettle 2400 (fst (esettle 600 forced))),
     match e_frames (fst (esettle 2400 (fst (esettle 600 forced)))) with [] => false | _ => true end) in E.
  apply pair_equal_spec in E as [E E6]. apply pair_equal_spec in E as [E E5]. apply pair_equal_spec in E as [E E4].
  apply pair_equal_spec in E as [E E3]. apply pair_equal_spec in E as [E1 E2].
  refine (conj E1 (conj (conj E2 (conj E3 E4)) (conj E5 (fun H => _)))).
  rewrite H in E6. discriminate E6.
Qed.

(* an election forced on the youngest node of a healthy cluster: no quiescence within 3000
   scheduler rounds (the election timeout is 20 ms = 10 wake-ups) *)
Example C07_no_quiescence_refuted :
  let r := esettle 3000 (cmd formed3 "n3" 1 "debug force-election") in
  snd r = false /\ e_frames (fst r) <> [].
Proof.
  exact (esettle_split_P 600 2400 forced (fun r => snd r = false /\ e_frames (fst r) <> [])
           (proj1 forced_run) (proj2 (proj2 forced_run))).
Qed.

Example C07_no_quiescence_refuted_600 :
  snd (esettle 600 (cmd formed3 "n3" 1 "debug force-election")) = false.
Proof. exact (proj1 forced_run). Qed.

(* the blocked calls of that run have distinct keys (the hypothesis of tick_frames_progress),
   and their total remaining work is small: the run goes on because new elections keep starting *)
Example C07_no_quiescence_frames :
  let e := fst (esettle 600 (cmd formed3 "n3" 1 "debug force-election")) in
  keys_nodup (e_frames e) /\ List.length (e_frames e) = 2%nat /\
  (weight (e_timeout e) (e_frames e) <= 2 * (20 + 2))%nat.
Proof.
  destruct forced_run as (_ & (Hk & Hl & Hw) & _).
  exact (conj (keys_nodupb_ok _ Hk) (conj (proj1 (Nat.eqb_eq _ _) Hl) (proj1 (Nat.leb_le _ _) Hw))).
Qed.
