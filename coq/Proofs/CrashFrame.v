(* CrashFrame.v -- C11 (frame part): a crash at ANY point of an INCREMENTAL snapshot
   (reclaim = false) never damages a key that the snapshot does not touch.

   Writer side: every prefix of the plan leaves the keys file as
       kcat recs' +++ (whole write() fields of the appended key records)
   where recs' are the old records with the (version, address) fields of touched keys possibly
   rewritten, and the values file as  old +++ (whole write() fields of the appended value records).
   The BufWriter only ever hands WHOLE write() calls to the OS, so both appended streams are cut at
   a FIELD boundary, never inside a length, a key or a value.
   Loader side: the walk over such a file visits the old records at the old offsets, an untouched
   key's record is intact, and nothing after it can overwrite the key: appended records carry VNew
   keys; a torn tail decodes to the new key itself or -- when only the 8-byte length field made it to
   disk -- to a run of NUL bytes of the new key's length.
   Two corners, both witnessed by computation: an untouched key made of NUL bytes
   only CAN be overwritten (C11_nul_key_overwritten), and a brand-new database has a window in which
   the next start panics (C11_fresh_db_create_window_panics).  Everything here is for reclaim = false;
   for a reclaiming snapshot there are only the refutations of CrashProofs. *)
From NunDB Require Import Model.Base Model.Pending Model.Parse Model.Node Model.Disk
  Proofs.AssocLemmas Proofs.DiskProofs Proofs.CrashProofs.
From Coq Require Import Lia.
Open Scope string_scope.
Open Scope list_scope.
Local Open Scope N_scope.

Definition lprefix {A} (p l : list A) : Prop := exists rest, l = p ++ rest.

Lemma lprefix_refl {A} (l : list A) : lprefix l l.
Proof. exists []. now rewrite app_nil_r. Qed.
Lemma lprefix_nil {A} (l : list A) : lprefix [] l.
Proof. now exists l. Qed.
Lemma lprefix_app {A} (p a b : list A) : lprefix p a -> lprefix p (a ++ b).
Proof. intros [r ->]. exists (r ++ b). now rewrite app_assoc. Qed.
Lemma lprefix_app_l {A} (a b : list A) : lprefix a (a ++ b).
Proof. now exists b. Qed.
Lemma lprefix_app_same {A} (a p b : list A) : lprefix p b -> lprefix (a ++ p) (a ++ b).
Proof. intros [r ->]. exists r. now rewrite app_assoc. Qed.
Lemma lprefix_trans {A} (a b c : list A) : lprefix a b -> lprefix b c -> lprefix a c.
Proof. intros [r ->] [r' ->]. exists (r ++ r'). now rewrite app_assoc. Qed.
Lemma lprefix_nil_inv {A} (p : list A) : lprefix p [] -> p = [].
Proof. intros [r H]. destruct p; [reflexivity|discriminate]. Qed.
Lemma lprefix_cons_inv {A} (p : list A) x l : lprefix p (x :: l) -> p = [] \/ exists p0, p = x :: p0 /\ lprefix p0 l.
Proof.
  intros [r H]. destruct p as [|y p0]; [now left|right].
  cbn in H. inversion H; subst. exists p0. split; auto. now exists r.
Qed.
Lemma lprefix_Forall {A} (P : A -> Prop) p l : Forall P l -> lprefix p l -> Forall P p.
Proof. intros H [r ->]. apply Forall_app in H. tauto. Qed.

Lemma firstn_lprefix {A} n (l : list A) : lprefix (firstn n l) l.
Proof. exists (skipn n l). now rewrite firstn_skipn. Qed.
Lemma lprefix_cmp {A} : forall (l a b : list A), lprefix a l -> lprefix b l -> lprefix a b \/ lprefix b a.
Proof.
  induction l as [|x l IH]; intros a b Ha Hb.
  - apply lprefix_nil_inv in Ha. subst. left. apply lprefix_nil.
  - apply lprefix_cons_inv in Ha. apply lprefix_cons_inv in Hb.
    destruct Ha as [->|(a0 & -> & Ha)]; [left; apply lprefix_nil|].
    destruct Hb as [->|(b0 & -> & Hb)]; [right; apply lprefix_nil|].
    destruct (IH _ _ Ha Hb) as [[r ->]|[r ->]]; [left|right]; now exists r.
Qed.
Lemma lprefix_scat_len a b : lprefix a b -> (len (scat a) <= len (scat b))%nat.
Proof. intros [r ->]. rewrite scat_app, str_length_app. lia. Qed.

Definition kfields (r : arec) : list str :=
  [le_bytes 8 (slen (r_key r)); r_key r; i32_bytes (r_ver r); le_bytes 8 (r_va r)].
Lemma scat_kfields r : scat (kfields r) = krec r.
Proof. unfold kfields, krec. cbn [scat]. now rewrite app_nil_r_s. Qed.
Lemma scat_flat_kfields l : scat (flat_map kfields l) = kcat l.
Proof. induction l as [|r t IH]; cbn [flat_map kcat]; [reflexivity|]. now rewrite scat_app, scat_kfields, IH. Qed.

(* the write() calls of one value record, and the appended value stream *)
Definition vfields (v : str) : list str := [le_bytes 8 (slen v); v; le_bytes 4 0].
Definition vcat (l : list str) : str := scat (flat_map vfields l).
Lemma scat_vfields v : scat (vfields v) = vrec v.
Proof. unfold vfields, vrec. cbn [scat]. now rewrite app_nil_r_s. Qed.
Lemma vcat_app a b : vcat (a ++ b) = vcat a +++ vcat b.
Proof. unfold vcat. now rewrite flat_map_app, scat_app. Qed.
Lemma vcat_snoc l v : vcat (l ++ [v]) = vcat l +++ vrec v.
Proof. rewrite vcat_app. unfold vcat at 2. cbn [flat_map]. now rewrite app_nil_r, scat_vfields. Qed.

Section Frame.
Variable mem0 : list (str * value).     (* the memory map when the snapshot starts *)
Variable recs : list arec.              (* the records of the keys file then *)
Variable V0 : str.                      (* the values file then *)

Definition touched (k : str) : Prop :=
  exists v, assoc_get String.eqb k mem0 = Some v /\ (v_st v = VUpdated \/ v_st v = VDeleted).
Definition newkey (k : str) : Prop :=
  exists v, assoc_get String.eqb k mem0 = Some v /\ v_st v = VNew.

(* [bnd VS a]: a is the address of a record boundary of the appended value stream VS *)
Definition bnd (VS : list str) (a : N) : Prop :=
  exists l1 l2, VS = l1 ++ l2 /\ a = slen V0 + slen (vcat l1).
Lemma bnd_mono VS VS' a : lprefix VS VS' -> bnd VS a -> bnd VS' a.
Proof. intros [r ->] (l1 & l2 & -> & ->). exists l1, (l2 ++ r). now rewrite app_assoc. Qed.

(* an old record and what a crash can leave in its place: same key (hence same length and same
   position of every later record); the 12-byte (version, address) field may differ, and only if
   the key is being updated or deleted by this snapshot; its address is the old one, 0 (deleted)
   or a record boundary of the appended value stream (0 is safe to read because a values file
   that holds a record starts with a well-formed one: [vhead_ok], used in [vsafe_zero]) *)
Definition frame1 (VS : list str) (r r' : arec) : Prop :=
  r_key r' = r_key r /\ (r' = r \/ touched (r_key r)) /\
  (r_va r' = r_va r \/ r_va r' = 0 \/ bnd VS (r_va r')).

(* [CS VS fs' F1 G1] (a crash state): keys file = framed old records followed by the whole fields F1 of the
   appended key stream; values file = old values file followed by the whole fields G1 *)
Definition CS (VS : list str) (fs' : files) (F1 G1 : list str) : Prop :=
  exists recs', fcontent fs' FKeys = kcat recs' +++ scat F1 /\ Forall2 (frame1 VS) recs recs' /\
                fcontent fs' FVals = V0 +++ scat G1.

Lemma frame1_refl VS r : frame1 VS r r.
Proof. repeat split; auto. Qed.
Lemma Forall2_frame_refl VS l : Forall2 (frame1 VS) l l.
Proof. induction l; constructor; auto using frame1_refl. Qed.
Lemma frame1_mono VS VS' r r' : lprefix VS VS' -> frame1 VS r r' -> frame1 VS' r r'.
Proof. intros H (a & b & [c|[c|c]]); repeat split; eauto using bnd_mono. Qed.
Lemma CS_mono VS VS' fs' F G : lprefix VS VS' -> CS VS fs' F G -> CS VS' fs' F G.
Proof.
  intros H (recs' & a & b & c). exists recs'. split; auto. split; auto.
  eapply ListLemmas.Forall2_imp; [|exact b]. intros; eapply frame1_mono; eauto.
Qed.

Definition neutral (o : fop) : Prop := rewrites_file FKeys o = false /\ rewrites_file FVals o = false.

Lemma CS_neutral VS fs' F G o : neutral o -> CS VS fs' F G -> CS VS (apply_fop fs' o) F G.
Proof. intros [Hk Hv] (recs' & HK & HF & HV). exists recs'. now rewrite !fcontent_unwritten_op. Qed.

Lemma CS_neutrals VS ops : forall fs' F G, Forall neutral ops -> CS VS fs' F G -> CS VS (apply_fops fs' ops) F G.
Proof.
  induction ops as [|o t IH]; intros fs' F G Hn H; cbn [apply_fops fold_left]; auto.
  apply Forall_cons_iff in Hn. destruct Hn as [Ho Ht]. apply IH; auto. now apply CS_neutral.
Qed.

Lemma CS_append_keys VS fs' F G X : CS VS fs' F G -> CS VS (apply_fop fs' (OpAppend FKeys (scat X))) (F ++ X) G.
Proof.
  intros (recs' & HK & HF & HV). exists recs'.
  rewrite fcontent_append_same, fcontent_unwritten_op by reflexivity.
  rewrite HK, scat_app, app_assoc_s. auto.
Qed.
Lemma CS_append_vals VS fs' F G X : CS VS fs' F G -> CS VS (apply_fop fs' (OpAppend FVals (scat X))) F (G ++ X).
Proof.
  intros (recs' & HK & HF & HV). exists recs'.
  rewrite fcontent_append_same, fcontent_unwritten_op by reflexivity.
  rewrite HV, scat_app, app_assoc_s. auto.
Qed.
Lemma CS_scat VS fs' F F' G G' : scat F' = scat F -> scat G' = scat G -> CS VS fs' F G -> CS VS fs' F' G'.
Proof. intros EF EG (recs' & a & b & c). exists recs'. now rewrite EF, EG. Qed.

(* the frame of the record at [off] and its place in the framed list; any other frame of the same
   record may stand there *)
Lemma frame_at VS : forall l l', Forall2 (frame1 VS) l l' -> forall s off r, rec_at l s off r ->
  exists l1 x' l2, l' = l1 ++ x' :: l2 /\ s + ksize l1 = off /\ frame1 VS r x' /\
    forall y', frame1 VS r y' -> Forall2 (frame1 VS) l (l1 ++ y' :: l2).
Proof.
  induction 1 as [|x x' t t' Hx Ht IH]; intros s off r Hr; cbn [rec_at] in Hr; [tauto|].
  destruct Hr as [[-> ->]|Hr].
  - exists [], x', t'. cbn [app ksize]. split; [|split; [lia|split]]; auto.
  - destruct (IH _ _ _ Hr) as (l1 & z' & l2 & -> & Hoff & Hz & Hre).
    exists (x' :: l1), z', l2. cbn [app ksize]. rewrite (rsize_key x x' (proj1 Hx)).
    split; [|split; [lia|split]]; auto.
Qed.

(* one pwrite of update_key: the version field ... *)
Lemma CS_wver VS fs' F G off r z : CS VS fs' F G -> rec_at recs 0 off r -> touched (r_key r) ->
  CS VS (apply_fop fs' (OpWriteAt FKeys (off + 8 + slen (r_key r)) (i32_bytes z))) F G.
Proof.
  intros (recs' & HK & HF & HV) Hr Ht.
  destruct (frame_at VS _ _ HF 0 off r Hr) as (l1 & x' & l2 & -> & Hoff & (Hk & _ & Hva) & Hre).
  exists (l1 ++ mkR (r_key x') z (r_va x') (r_val x') :: l2).
  rewrite fcontent_writeat_same, fcontent_unwritten_op, HK by reflexivity.
  split; [|split; [apply Hre; repeat split; auto|exact HV]].
  rewrite !kcat_app. cbn [kcat]. rewrite !app_assoc_s, <- krec_write_ver.
  now rewrite <- Hk, <- Hoff, <- slen_kcat.
Qed.
(* ... and the address field *)
Lemma CS_wva VS fs' F G off r a : CS VS fs' F G -> rec_at recs 0 off r -> touched (r_key r) ->
  (a = 0 \/ bnd VS a) ->
  CS VS (apply_fop fs' (OpWriteAt FKeys (off + 8 + slen (r_key r) + 4) (le_bytes 8 a))) F G.
Proof.
  intros (recs' & HK & HF & HV) Hr Ht Ha.
  destruct (frame_at VS _ _ HF 0 off r Hr) as (l1 & x' & l2 & -> & Hoff & (Hk & _ & Hva) & Hre).
  exists (l1 ++ mkR (r_key x') (r_ver x') a (r_val x') :: l2).
  rewrite fcontent_writeat_same, fcontent_unwritten_op, HK by reflexivity.
  split; [|split; [apply Hre; repeat split; cbn [r_va]; tauto|exact HV]].
  rewrite !kcat_app. cbn [kcat]. rewrite !app_assoc_s, <- krec_write_va.
  now rewrite <- Hk, <- Hoff, <- slen_kcat.
Qed.

Variable fs : files.                    (* the files when the snapshot starts *)

(* after ALL operations issued so far: fields F1 / G1 are in the files, F2 / G2 in the BufWriters *)
Definition AtEnd (VS : list str) (w : wstate) (F G : list str) : Prop :=
  exists F1 F2 G1 G2, F1 ++ F2 = F /\ G1 ++ G2 = G /\ CS VS (apply_fops fs (w_ops w)) F1 G1 /\
                      w_kbuf w = scat F2 /\ w_vbuf w = scat G2.
(* after any prefix of them (all prefixes) *)
Definition AllP (VS : list str) (ops : list fop) (F G : list str) : Prop :=
  all_prefixes apply_fop fs ops (fun fs' => exists F1 G1, lprefix F1 F /\ lprefix G1 G /\ CS VS fs' F1 G1).
Definition writer_cuts (VS : list str) (w : wstate) (F G : list str) : Prop := AtEnd VS w F G /\ AllP VS (w_ops w) F G.

Lemma AllP_weaken VS VS' ops F F' G G' :
  lprefix VS VS' -> lprefix F F' -> lprefix G G' -> AllP VS ops F G -> AllP VS' ops F' G'.
Proof.
  intros HV HF HG. apply all_prefixes_impl. intros g (F1 & G1 & a & b & c).
  exists F1, G1. repeat split; eauto using lprefix_trans, CS_mono.
Qed.
Lemma AllP_at VS ops F G p : AllP VS ops F G -> lprefix p ops ->
  exists F1 G1, lprefix F1 F /\ lprefix G1 G /\ CS VS (apply_fops fs p) F1 G1.
Proof. intros H [rest E]. exact (H p rest E). Qed.
Lemma AllP_snoc VS ops o F G F1 G1 :
  AllP VS ops F G -> lprefix F1 F -> lprefix G1 G -> CS VS (apply_fops fs (ops ++ [o])) F1 G1 ->
  AllP VS (ops ++ [o]) F G.
Proof.
  intros HA HF HG HC. apply all_prefixes_snoc; [exact HA|]. rewrite apply_fops_app in HC. now exists F1, G1.
Qed.
Lemma AllP_app_neutral VS ops new F G F1 G1 :
  AllP VS ops F G -> lprefix F1 F -> lprefix G1 G -> CS VS (apply_fops fs ops) F1 G1 -> Forall neutral new ->
  AllP VS (ops ++ new) F G.
Proof.
  intros HA HF HG HC Hn. apply all_prefixes_app; [exact HA|].
  apply (all_prefixes_impl _ _ _ (fun g => CS VS g F1 G1)); [intros g Hg; now exists F1, G1|].
  apply (all_prefixes_stable apply_fop neutral); auto. intros g o. apply CS_neutral.
Qed.

Lemma writer_cuts_ext VS w w' F G : w_ops w' = w_ops w -> w_kbuf w' = w_kbuf w -> w_vbuf w' = w_vbuf w ->
  writer_cuts VS w F G -> writer_cuts VS w' F G.
Proof. unfold writer_cuts, AtEnd. intros -> -> ->. auto. Qed.
Lemma writer_cuts_mono VS VS' w F G : lprefix VS VS' -> writer_cuts VS w F G -> writer_cuts VS' w F G.
Proof.
  intros H [(F1 & F2 & G1 & G2 & a & b & c & d & e) HA]. split.
  - exists F1, F2, G1, G2. eauto 10 using CS_mono.
  - eapply AllP_weaken; eauto using lprefix_refl.
Qed.

(* with whole fields in its buffer the BufWriter hands over whole fields and keeps whole fields *)
Lemma bw_write_fields F2 d b out : bw_write (scat F2) d = (b, out) ->
  exists Xs F2', out = map scat Xs /\ b = scat F2' /\ concat Xs ++ F2' = F2 ++ [d].
Proof.
  intros H. destruct (bw_write_cases _ _ _ _ H) as [[-> ->]|[[-> ->]|[[-> ->]|(-> & -> & E)]]].
  - exists [], (F2 ++ [d]). now rewrite scat_snoc.
  - exists [F2], [d]. cbn. now rewrite !app_nil_r, app_nil_r_s.
  - exists [F2; [d]], []. cbn. now rewrite !app_nil_r, app_nil_r_s.
  - exists [F2 ++ [d]], []. cbn. now rewrite !app_nil_r, scat_snoc, E.
Qed.
Lemma bw_flush_fields F2 : exists Xs,
  bw_flush (scat F2) = map scat Xs /\ lprefix (concat Xs) F2 /\ scat (concat Xs) = scat F2.
Proof.
  unfold bw_flush. destruct (String.eqb_spec (scat F2) "") as [E|E]; [exists []|exists [F2]]; cbn;
    rewrite ?app_nil_r, ?E; auto using lprefix_nil, lprefix_refl.
Qed.

(* whole fields appended to one of the files, call by call: every state on the way is a crash state *)
Lemma AllP_emit_keys VS F G G1 : forall Xs ops F1,
  AllP VS ops F G -> lprefix (F1 ++ concat Xs) F -> lprefix G1 G -> CS VS (apply_fops fs ops) F1 G1 ->
  AllP VS (ops ++ emit FKeys (map scat Xs)) F G /\
  CS VS (apply_fops fs (ops ++ emit FKeys (map scat Xs))) (F1 ++ concat Xs) G1.
Proof.
  induction Xs as [|X Xs IH]; intros ops F1 HA HF HG HC; cbn [map emit concat] in *.
  - now rewrite !app_nil_r.
  - change (OpAppend FKeys (scat X) :: map (OpAppend FKeys) (map scat Xs))
      with ([OpAppend FKeys (scat X)] ++ emit FKeys (map scat Xs)).
    rewrite !app_assoc in *.
    assert (C1 : CS VS (apply_fops fs (ops ++ [OpAppend FKeys (scat X)])) (F1 ++ X) G1)
      by (rewrite apply_snoc; now apply CS_append_keys).
    apply IH; auto. apply (AllP_snoc VS _ _ _ _ (F1 ++ X) G1); auto.
    eapply lprefix_trans; [apply lprefix_app_l|exact HF].
Qed.
Lemma AllP_emit_vals VS F G F1 : forall Xs ops G1,
  AllP VS ops F G -> lprefix F1 F -> lprefix (G1 ++ concat Xs) G -> CS VS (apply_fops fs ops) F1 G1 ->
  AllP VS (ops ++ emit FVals (map scat Xs)) F G /\
  CS VS (apply_fops fs (ops ++ emit FVals (map scat Xs))) F1 (G1 ++ concat Xs).
Proof.
  induction Xs as [|X Xs IH]; intros ops G1 HA HF HG HC; cbn [map emit concat] in *.
  - now rewrite !app_nil_r.
  - change (OpAppend FVals (scat X) :: map (OpAppend FVals) (map scat Xs))
      with ([OpAppend FVals (scat X)] ++ emit FVals (map scat Xs)).
    rewrite !app_assoc in *.
    assert (C1 : CS VS (apply_fops fs (ops ++ [OpAppend FVals (scat X)])) F1 (G1 ++ X))
      by (rewrite apply_snoc; now apply CS_append_vals).
    apply IH; auto. apply (AllP_snoc VS _ _ _ _ F1 (G1 ++ X)); auto.
    eapply lprefix_trans; [apply lprefix_app_l|exact HG].
Qed.

Lemma writer_cuts_write_keys VS w d F G : writer_cuts VS w F G -> writer_cuts VS (w_write_keys w d) (F ++ [d]) G.
Proof.
  intros [(F1 & F2 & G1 & G2 & HF & HG & HC & HB & HB2) HA].
  unfold w_write_keys. destruct (bw_write (w_kbuf w) d) as [b out] eqn:E. rewrite HB in E.
  destruct (bw_write_fields _ _ _ _ E) as (Xs & F2' & -> & -> & EX).
  assert (EF : (F1 ++ concat Xs) ++ F2' = F ++ [d]) by now rewrite <- app_assoc, EX, app_assoc, HF.
  destruct (AllP_emit_keys VS (F ++ [d]) G G1 Xs (w_ops w) F1) as [HA' HC']; auto.
  - eapply AllP_weaken; eauto using lprefix_refl, lprefix_app_l.
  - rewrite <- EF. apply lprefix_app_l.
  - rewrite <- HG. apply lprefix_app_l.
  - split; [|exact HA']. exists (F1 ++ concat Xs), F2', G1, G2. cbn [w_ops w_kbuf w_vbuf]. auto 10.
Qed.

Lemma writer_cuts_write_vals VS w d F G : writer_cuts VS w F G -> writer_cuts VS (w_write_vals w d) F (G ++ [d]).
Proof.
  intros [(F1 & F2 & G1 & G2 & HF & HG & HC & HB & HB2) HA].
  unfold w_write_vals. destruct (bw_write (w_vbuf w) d) as [b out] eqn:E. rewrite HB2 in E.
  destruct (bw_write_fields _ _ _ _ E) as (Xs & G2' & -> & -> & EX).
  assert (EG : (G1 ++ concat Xs) ++ G2' = G ++ [d]) by now rewrite <- app_assoc, EX, app_assoc, HG.
  destruct (AllP_emit_vals VS F (G ++ [d]) F1 Xs (w_ops w) G1) as [HA' HC']; auto.
  - eapply AllP_weaken; eauto using lprefix_refl, lprefix_app_l.
  - rewrite <- HF. apply lprefix_app_l.
  - rewrite <- EG. apply lprefix_app_l.
  - split; [|exact HA']. exists F1, F2, (G1 ++ concat Xs), G2'. cbn [w_ops w_kbuf w_vbuf]. auto 10.
Qed.

Lemma writer_cuts_update_key VS w k ver va ka r F G :
  writer_cuts VS w F G -> rec_at recs 0 ka r -> r_key r = k -> touched k -> (va = 0 \/ bnd VS va) ->
  writer_cuts VS (w_update_key w k ver va ka) F G.
Proof.
  intros [(F1 & F2 & G1 & G2 & HF & HG & HC & HB & HB2) HA] Hr Hk Ht Hva. subst k.
  assert (PF : lprefix F1 F) by (rewrite <- HF; apply lprefix_app_l).
  assert (PG : lprefix G1 G) by (rewrite <- HG; apply lprefix_app_l).
  unfold w_update_key. set (o1 := OpWriteAt FKeys _ (i32_bytes ver)). set (o2 := OpWriteAt FKeys _ (le_bytes 8 va)).
  change [o1; o2] with ([o1] ++ [o2]). rewrite app_assoc.
  assert (C1 : CS VS (apply_fops fs (w_ops w ++ [o1])) F1 G1) by (rewrite apply_snoc; apply CS_wver; auto).
  assert (C2 : CS VS (apply_fops fs ((w_ops w ++ [o1]) ++ [o2])) F1 G1) by (rewrite apply_snoc; apply CS_wva; auto).
  (split; [unfold AtEnd|]); cbn [w_ops w_kbuf w_vbuf].
  - exists F1, F2, G1, G2. auto 10.
  - apply (AllP_snoc VS _ _ _ _ F1 G1); auto. apply (AllP_snoc VS _ _ _ _ F1 G1); auto.
Qed.

Lemma writer_cuts_value VS w v w1 rs F G : w_value w v = (w1, rs) -> writer_cuts VS w F G -> writer_cuts VS w1 F (G ++ vfields (v_val v)).
Proof.
  unfold w_value. intros E HW. apply pair_equal_spec in E. destruct E as [<- _].
  unfold vfields.
  replace (G ++ [le_bytes 8 (slen (v_val v)); v_val v; le_bytes 4 0])
    with (((G ++ [le_bytes 8 (slen (v_val v))]) ++ [v_val v]) ++ [le_bytes 4 (status_code VOk)])
    by (now rewrite <- !app_assoc).
  auto using writer_cuts_write_vals.
Qed.

Lemma writer_cuts_key VS w k v va w1 ks F G val : w_key w k v va = (w1, ks) -> writer_cuts VS w F G ->
  writer_cuts VS w1 (F ++ kfields (mkR k (v_ver v) va val)) G.
Proof.
  unfold w_key. intros E HW. apply pair_equal_spec in E. destruct E as [<- _].
  unfold kfields. cbn [r_key r_ver r_va].
  replace (F ++ [le_bytes 8 (slen k); k; i32_bytes (v_ver v); le_bytes 8 va])
    with ((((F ++ [le_bytes 8 (slen k)]) ++ [k]) ++ [i32_bytes (v_ver v)]) ++ [le_bytes 8 va])
    by (now rewrite <- !app_assoc).
  auto using writer_cuts_write_keys.
Qed.

Lemma w_vaddr_write_vals w d : w_vaddr (w_write_vals w d) = w_vaddr w.
Proof. unfold w_write_vals. now destruct (bw_write (w_vbuf w) d). Qed.
Lemma w_vaddr_write_keys w d : w_vaddr (w_write_keys w d) = w_vaddr w.
Proof. unfold w_write_keys. now destruct (bw_write (w_kbuf w) d). Qed.
Lemma w_vaddr_value w v w1 rs : w_value w v = (w1, rs) -> w_vaddr w1 = w_vaddr w /\ rs = slen (vrec (v_val v)).
Proof.
  unfold w_value. intros E. apply pair_equal_spec in E. destruct E as [<- <-].
  rewrite !w_vaddr_write_vals, slen_vrec. auto.
Qed.
Lemma w_vaddr_key w k v va w1 ks : w_key w k v va = (w1, ks) -> w_vaddr w1 = w_vaddr w.
Proof.
  unfold w_key. intros E. apply pair_equal_spec in E. destruct E as [<- _].
  now rewrite !w_vaddr_write_keys.
Qed.

(* what the frame argument needs to know about one selected (key, value) *)
Definition todo_ok (kv : str * value) : Prop :=
  assoc_get String.eqb (fst kv) mem0 = Some (snd kv) /\
  (v_st (snd kv) = VUpdated \/ v_st (snd kv) = VDeleted ->
   exists q, rec_at recs 0 (v_kaddr (snd kv)) q /\ r_key q = fst kv) /\
  str_ok (v_val (snd kv)).

(* a record appended for a new key: its value address is a boundary of the value stream *)
Definition newrec (VS : list str) (r : arec) : Prop := newkey (r_key r) /\ bnd VS (r_va r).
Lemma newrec_mono VS VS' r : lprefix VS VS' -> newrec VS r -> newrec VS' r.
Proof. intros H [a b]. split; eauto using bnd_mono. Qed.

Definition loop_inv (w : wstate) (news : list arec) (VS : list str) : Prop :=
  writer_cuts VS w (flat_map kfields news) (flat_map vfields VS) /\ w_vaddr w = slen V0 + slen (vcat VS) /\
  Forall (newrec VS) news /\ Forall str_ok VS.

Lemma bnd_end VS v : bnd (VS ++ [v]) (slen V0 + slen (vcat VS)).
Proof. exists VS, [v]. auto. Qed.

Lemma loop_inv_snap_one w news VS kv :
  loop_inv w news VS -> todo_ok kv -> exists news' VS', loop_inv (snap_one false w kv) news' VS'.
Proof.
  destruct kv as [k v]. intros (HW & Hva & Hn & Hs) (Hg & Hd & Hsv). cbn [fst snd] in *. unfold snap_one.
  destruct (v_st v) eqn:Est.
  - exists news, VS. exact (conj HW (conj Hva (conj Hn Hs))).
  - destruct Hd as (q & Hq & Hqk); auto.
    exists news, VS. cbv zeta. split; [|exact (conj Hva (conj Hn Hs))].
    eapply writer_cuts_ext; [| | |eapply (writer_cuts_update_key VS w k (-1)%Z 0 (v_kaddr v) q); eauto]; try reflexivity.
    exists v. auto.
  - destruct Hd as (q & Hq & Hqk); auto.
    exists news, (VS ++ [v_val v]).
    destruct (w_value w v) as [w1 rs] eqn:E1. cbv zeta.
    destruct (w_vaddr_value _ _ _ _ E1) as [Hv1 Hrs].
    assert (HP : lprefix VS (VS ++ [v_val v])) by apply lprefix_app_l.
    split; [|split; [|split]].
    + eapply writer_cuts_ext; [| | |eapply (writer_cuts_update_key (VS ++ [v_val v]) w1 k (v_ver v) (w_vaddr w) (v_kaddr v) q); eauto];
        try reflexivity.
      * rewrite flat_map_app. cbn [flat_map]. rewrite app_nil_r.
        eapply writer_cuts_value; eauto. eapply writer_cuts_mono; eauto.
      * exists v. auto.
      * right. rewrite Hva. apply bnd_end.
    + cbn [w_set_addrs w_vaddr]. rewrite vcat_snoc, slen_app, Hva, Hrs. lia.
    + eapply Forall_impl; [|exact Hn]. intros r. now apply newrec_mono.
    + apply Forall_app. auto.
  - exists (news ++ [mkR k (v_ver v) (w_vaddr w) (v_val v)]), (VS ++ [v_val v]).
    unfold new_key_value. destruct (w_value w v) as [w1 rs] eqn:E1.
    destruct (w_key w1 k v (w_vaddr w)) as [w2 ks] eqn:E2.
    destruct (w_vaddr_value _ _ _ _ E1) as [Hv1 Hrs].
    assert (HP : lprefix VS (VS ++ [v_val v])) by apply lprefix_app_l.
    split; [|split; [|split]].
    + rewrite !flat_map_app. cbn [flat_map]. rewrite !app_nil_r.
      eapply writer_cuts_ext; [| | |eapply writer_cuts_key; [exact E2|eapply writer_cuts_value; [exact E1|eapply writer_cuts_mono; eauto]]]; reflexivity.
    + cbn [w_set_addrs w_vaddr]. rewrite vcat_snoc, slen_app, Hva, Hrs. lia.
    + apply Forall_app. split.
      * eapply Forall_impl; [|exact Hn]. intros r. now apply newrec_mono.
      * constructor; auto. split; cbn [r_key r_va]; [exists v; auto|]. rewrite Hva. apply bnd_end.
    + apply Forall_app. auto.
Qed.

Lemma loop_inv_fold : forall todo w news VS,
  loop_inv w news VS -> Forall todo_ok todo -> exists news' VS', loop_inv (fold_left (snap_one false) todo w) news' VS'.
Proof.
  induction todo as [|kv t IH]; intros w news VS HW Ht; cbn [fold_left]; eauto.
  apply Forall_cons_iff in Ht. destruct Ht as [Hkv Ht].
  destruct (loop_inv_snap_one w news VS kv HW Hkv) as (n1 & V1 & HW1). eauto.
Qed.

Lemma writer_cuts_close VS w F G tail : writer_cuts VS w F G -> Forall neutral tail ->
  let ops := w_ops w ++ emit FKeys (bw_flush (w_kbuf w)) ++ emit FVals (bw_flush (w_vbuf w)) ++ tail in
  AllP VS ops F G /\ CS VS (apply_fops fs ops) F G.
Proof.
  intros [(F1 & F2 & G1 & G2 & HF & HG & HC & HB & HB2) HA] Hn. cbv zeta. rewrite HB, HB2.
  destruct (bw_flush_fields F2) as (Xk & -> & Pk & Ek). destruct (bw_flush_fields G2) as (Xv & -> & Pv & Ev).
  assert (PF : lprefix (F1 ++ concat Xk) F) by (rewrite <- HF; now apply lprefix_app_same).
  assert (PG : lprefix (G1 ++ concat Xv) G) by (rewrite <- HG; now apply lprefix_app_same).
  destruct (AllP_emit_keys VS F G G1 Xk (w_ops w) F1) as [KA KC]; auto.
  { rewrite <- HG. apply lprefix_app_l. }
  destruct (AllP_emit_vals VS F G (F1 ++ concat Xk) Xv _ G1 KA PF PG KC) as [VA VC].
  rewrite <- app_assoc in VA, VC.
  assert (VC' : CS VS (apply_fops fs (w_ops w ++ emit FKeys (map scat Xk) ++ emit FVals (map scat Xv))) F G).
  { eapply CS_scat; [| |exact VC]; rewrite <- ?HF, <- ?HG, !scat_app, ?Ek, ?Ev; reflexivity. }
  rewrite !app_assoc in *. split.
  - apply (AllP_app_neutral VS _ tail F G F G); auto using lprefix_refl.
  - rewrite apply_fops_app. apply CS_neutrals; auto.
Qed.

End Frame.

Definition incr_plan (d : db) (order : list str) (fs : files) (clock : N) : list fop :=
  fst (fst (snapshot_plan d order false fs clock)).

(* [plan_open0 d] followed by the two [OpCreate]s that [plan_open_keys] and [plan_open_vals] are for
   reclaim = false *)
Definition plan_open4 (d : db) : list fop :=
  [OpCreate FMeta; OpWriteAt FMeta 0 (le_bytes 8 (d_id d) +++ le_bytes 4 (strat_code (d_strat d)));
   OpCreate FKeys; OpCreate FVals].

Lemma incr_w0_ops d fs clock : w_ops (plan_w0 d false fs clock) = plan_open4 d.
Proof. reflexivity. Qed.

Lemma neutral_open4 d : Forall neutral (plan_open4 d).
Proof. unfold plan_open4. repeat constructor. Qed.

Lemma incr_fs2_old d fs : fget (plan_fs2 d false fs) FKeysOld = fget fs FKeysOld.
Proof. unfold plan_fs2. now rewrite !fget_untouched. Qed.

Definition close_tail (fs : files) : list fop :=
  match fget fs FKeysOld with Some _ => [OpRemove FKeysOld] | None => [] end.
Lemma neutral_close_tail fs : Forall neutral (close_tail fs).
Proof. unfold close_tail. destruct (fget fs FKeysOld); repeat constructor. Qed.

Lemma todo_ok_incr mem recs V order :
  Inv mem recs V -> Forall (todo_ok mem recs) (keys_to_update mem order false).
Proof.
  intros HI. apply Forall_forall. intros [k v] Hin.
  apply todo_iff in Hin; [|apply (inv_nodup _ _ _ HI)]. destruct Hin as [Hg _].
  split; [|split]; cbn [fst snd]; auto.
  - intros Hst.
    pose proof (inv_keys _ _ _ HI k) as Hk. unfold key_ok in Hk. rewrite Hg in Hk.
    assert (Hod : on_disk (v_st v) = true) by (destruct Hst as [-> | ->]; reflexivity).
    rewrite Hod in Hk. destruct Hk as [(q & Hq & Hqk & _) _]. eauto.
  - apply (inv_mem _ _ _ HI _ _ Hg).
Qed.

(* the writer side in full: all prefixes of the plan, and its end *)
Theorem incr_plan_states d order fs clock recs :
  fcontent fs FKeys = kcat recs -> Inv (d_map d) recs (fcontent fs FVals) ->
  exists news VS,
    Forall (newrec (d_map d) (fcontent fs FVals) VS) news /\ Forall str_ok VS /\
    AllP (d_map d) recs (fcontent fs FVals) fs VS (incr_plan d order fs clock)
         (flat_map kfields news) (flat_map vfields VS) /\
    CS (d_map d) recs (fcontent fs FVals) VS (apply_fops fs (incr_plan d order fs clock))
       (flat_map kfields news) (flat_map vfields VS).
Proof.
  intros HK HI. unfold incr_plan. rewrite snapshot_plan_unfold. cbn [fst].
  set (mem0 := d_map d) in *. set (V0 := fcontent fs FVals) in *.
  assert (HC0 : CS mem0 recs V0 [] fs [] []).
  { exists recs. cbn [scat]. rewrite !app_nil_r_s. split; auto. split; auto. apply Forall2_frame_refl. }
  assert (HJ0 : loop_inv mem0 recs V0 fs (plan_w0 d false fs clock) [] []).
  { split; [split|split; [|split]]; auto.
    - exists [], [], [], []. rewrite incr_w0_ops. repeat split; auto.
      apply CS_neutrals; auto using neutral_open4.
    - rewrite incr_w0_ops.
      apply (AllP_app_neutral mem0 recs V0 fs [] [] (plan_open4 d) [] [] [] []); auto using lprefix_nil, neutral_open4.
      apply all_prefixes_nil. exists [], []. auto using lprefix_nil.
    - cbn [plan_w0 w_vaddr]. fold (plan_fs2 d false fs). unfold fsize.
      destruct (plan_open_files d false fs) as [_ E]. rewrite E. unfold vcat. cbn. unfold V0. lia. }
  destruct (loop_inv_fold mem0 recs V0 fs (keys_to_update mem0 order false) _ [] [] HJ0
              (todo_ok_incr _ _ _ order HI)) as (news & VS & HW1 & _ & Hnews & HVS).
  change (fold_left (snap_one false) (keys_to_update mem0 order false) (plan_w0 d false fs clock))
    with (plan_w1 d order false fs clock) in HW1.
  exists news, VS. split; auto. split; auto.
  unfold plan_close. rewrite incr_fs2_old. fold (close_tail fs).
  apply (writer_cuts_close mem0 recs V0 fs VS _ _ _ (close_tail fs) HW1 (neutral_close_tail fs)).
Qed.

(* what any prefix of the plan leaves in the two files *)
Theorem incr_prefix_files d order fs clock p :
  DiskInv (d_map d) fs -> lprefix p (incr_plan d order fs clock) ->
  exists recs recs' A B VS,
    fcontent fs FKeys = kcat recs /\
    fcontent (apply_fops fs p) FVals = fcontent fs FVals +++ B /\
    fcontent (apply_fops fs p) FKeys = kcat recs' +++ A /\
    Forall2 (frame1 (d_map d) (fcontent fs FVals) VS) recs recs'.
Proof.
  intros (recs & HK & HI & _ & _) Hp.
  destruct (incr_plan_states d order fs clock recs HK HI) as (news & VS & _ & _ & HA & _).
  destruct (AllP_at _ _ _ _ _ _ _ _ _ HA Hp) as (F1 & G1 & _ & _ & (recs' & H1 & H2 & H3)).
  exists recs, recs', (scat F1), (scat G1), VS. auto.
Qed.

(* a record that cannot change the entry of k0: another key, or a tombstone *)
Definition good (k0 : str) (r : arec) : Prop :=
  slen (r_key r) <= max_alloc /\ (r_key r <> k0 \/ r_ver r = (-1)%Z).

(* nothing is assumed of V: the value reads may return anything, hence the [LPanic] disjunct; only
   keys and versions matter for the entry of k0 *)
Lemma walk_good k0 V : forall l fuel K pre post st,
  K = pre +++ kcat l +++ post -> l_pos st = len pre -> bufs_ok st -> Forall (good k0) l ->
  load_loop (length l + fuel) K V st = LPanic \/
  exists st', load_loop (length l + fuel) K V st = load_loop fuel K V st' /\
    l_pos st' = len (pre +++ kcat l) /\ bufs_ok st' /\ l_kaddr st' = l_kaddr st + ksize l /\
    assoc_get String.eqb k0 (l_map st') = assoc_get String.eqb k0 (l_map st).
Proof.
  induction l as [|r t IH]; intros fuel K pre post st HK Hpos Hst Hg.
  - right. exists st. cbn [length Nat.add kcat ksize]. rewrite app_nil_r_s, N.add_0_r. auto.
  - apply Forall_cons_iff in Hg. destruct Hg as [[Hkl Hr] Ht].
    cbn [length Nat.add load_loop kcat ksize]. cbn [kcat] in HK. rewrite app_assoc_s in HK.
    set (va := le_decode (le_bytes 8 (r_va r))).
    pose proof (read_into_len V (N.to_nat va) (le_bytes 8 (slen (r_key r)))) as HL.
    destruct (read_into V (N.to_nat va) (le_bytes 8 (slen (r_key r)))) as [lb2 x] eqn:E5.
    destruct (read_into V (N.to_nat va + 8) (zeros (N.to_nat (le_decode lb2)))) as [vbytes y] eqn:E6.
    rewrite (load_step_krec K V st pre r (kcat t +++ post) va lb2 x _ vbytes y HK Hpos Hst Hkl eq_refl E5 eq_refl E6).
    destruct (_ || _ || _); [now left|].
    destruct (IH fuel K (pre +++ krec r) post
                (rec_step st (len (pre +++ krec r)) r lb2 vbytes (i32_decode (i32_bytes (r_ver r))) va))
      as [Hp|(st2 & E2 & Q1 & Q2 & Q3 & Q4)]; auto.
    { now rewrite !app_assoc_s. }
    { cbn [fst] in HL. apply rec_step_ok. now rewrite HL, len_le_bytes. }
    cbn [rec_step l_kaddr l_map] in Q3, Q4.
    right. exists st2. split; auto. split; [now rewrite Q1, !app_assoc_s|]. split; auto.
    split; [rewrite Q3; lia|]. rewrite Q4.
    destruct (Z.eqb_spec (i32_decode (i32_bytes (r_ver r))) (-1)) as [e|n]; auto.
    destruct Hr as [Hr|Hr]; [apply str_get_set_other; auto|].
    exfalso. apply n. rewrite Hr. reflexivity.
Qed.

(* [vsafe V a]: fetching the value at address a cannot panic, whatever (small) number the
   8-byte length buffer holds before.  The buffer is quantified over because the loader reads the value's
   length into the buffer that still holds the key's length ([Disk.load_step], the read into
   [lenbuf1]): after a short read what it decodes depends on the record before *)
Definition vsafe (V : str) (a : N) : Prop :=
  forall lb, len lb = 8%nat -> le_decode lb <= max_alloc ->
    le_decode (fst (read_into V (N.to_nat a) lb)) <= max_alloc /\
    utf8_valid (fst (read_into V (N.to_nat a + 8)
                       (zeros (N.to_nat (le_decode (fst (read_into V (N.to_nat a) lb))))))) = true.

(* the last record step when its four reads stop at the end of the file: a panic, or the entry of
   the key bytes read is all that changes; no panic when those bytes are UTF-8 and the address read
   is safe *)
Lemma tail_finish K V st f lb n kb kn vb vn ab an :
  read_into K (l_pos st) (l_lenbuf st) = (lb, S n) -> le_decode lb <= max_alloc ->
  read_into K (l_pos st + S n) (zeros (N.to_nat (le_decode lb))) = (kb, kn) ->
  read_into K (l_pos st + S n + kn) (l_verbuf st) = (vb, vn) ->
  read_into K (l_pos st + S n + kn + vn) (l_addrbuf st) = (ab, an) ->
  (l_pos st + S n + kn + vn + an)%nat = len K ->
  (load_loop (S (S f)) K V st = LPanic \/
   exists m clk, load_loop (S (S f)) K V st = LOk m clk /\
     forall k0, kb <> k0 -> assoc_get String.eqb k0 m = assoc_get String.eqb k0 (l_map st)) /\
  (len lb = 8%nat -> utf8_valid kb = true -> vsafe V (le_decode ab) -> load_loop (S (S f)) K V st <> LPanic).
Proof.
  intros H1 Hle H2 H3 H4 Hend. cbn [load_loop].
  destruct (read_into V (N.to_nat (le_decode ab)) lb) as [lb2 x] eqn:E5.
  destruct (read_into V (N.to_nat (le_decode ab) + 8) (zeros (N.to_nat (le_decode lb2)))) as [vbytes y] eqn:E6.
  rewrite (load_step_reads K V st _ _ _ _ _ _ _ _ _ _ _ _ _ _ _ H1 eq_refl Hle H2 H3 H4 eq_refl E5 eq_refl E6).
  split.
  - destruct (_ || _ || _); [now left|]. rewrite load_step_end by exact Hend. right.
    eexists _, _. split; [reflexivity|]. intros k0 Hk. cbn [l_map]. destruct (Z.eqb _ _); auto.
    apply str_get_set_other; auto.
  - intros Hl Hu Hs. destruct (Hs lb Hl Hle) as [S1 S2]. rewrite E5 in S1, S2. cbn [fst] in S1, S2.
    rewrite E6 in S2. cbn [fst] in S2. rewrite Hu, S2.
    destruct (N.ltb_spec max_alloc (le_decode lb2)); [lia|]. cbn [negb orb].
    rewrite load_step_end by exact Hend. discriminate.
Qed.

(* a torn tail: the first 1, 2 or 3 write() calls of the record of key kn *)
Definition torn (kn T : str) : Prop :=
  T = le_bytes 8 (slen kn) \/ T = le_bytes 8 (slen kn) +++ kn \/
  exists z, T = le_bytes 8 (slen kn) +++ kn +++ i32_bytes z.

(* the loader on a torn tail: the key it inserts is kn, or -- when only the length field is there --
   a run of NUL bytes as long as kn; the version and address buffers are left from the record before *)
Lemma load_tail K V st pre kn T f :
  K = pre +++ T -> l_pos st = len pre -> bufs_ok st -> torn kn T -> slen kn <= max_alloc ->
  (load_loop (S (S f)) K V st = LPanic \/
   exists m clk, load_loop (S (S f)) K V st = LOk m clk /\
     forall k0, kn <> k0 -> zeros (len kn) <> k0 ->
       assoc_get String.eqb k0 m = assoc_get String.eqb k0 (l_map st)) /\
  (utf8_valid kn = true -> vsafe V (le_decode (l_addrbuf st)) -> load_loop (S (S f)) K V st <> LPanic).
Proof.
  intros HK Hpos (Hl & Hv & Ha) HT Hkl. pose proof max_alloc_lt. unfold torn in HT.
  set (A := le_bytes 8 (slen kn)) in *.
  assert (LA : len A = 8%nat) by apply len_le_bytes.
  assert (EA : le_decode A = slen kn) by (apply le_decode_8; lia).
  assert (LZ : len (zeros (N.to_nat (slen kn))) = len kn) by (rewrite len_zeros; unfold slen; lia).
  assert (R : exists kb n2 vb n3, (kb = kn \/ kb = zeros (len kn)) /\
     read_into K (l_pos st) (l_lenbuf st) = (A, 8%nat) /\
     read_into K (l_pos st + 8) (zeros (N.to_nat (slen kn))) = (kb, n2) /\
     read_into K (l_pos st + 8 + n2) (l_verbuf st) = (vb, n3) /\
     read_into K (l_pos st + 8 + n2 + n3) (l_addrbuf st) = (l_addrbuf st, 0%nat) /\
     (l_pos st + 8 + n2 + n3 + 0)%nat = len K).
  { rewrite Hpos. destruct HT as [->|[->|(z & ->)]].
    - destruct (reads_intro [A] K pre "") as (R1 & _); [cbn [fold_right]; now rewrite HK, app_nil_r_s|].
      rewrite LA in R1. assert (LK : len K = (len pre + 8)%nat) by (rewrite HK, str_length_app; lia).
      exists (zeros (len kn)), 0%nat, (l_verbuf st), 0%nat.
      replace (N.to_nat (slen kn)) with (len kn) by (unfold slen; lia).
      repeat split; auto; try apply read_into_eof; lia.
    - destruct (reads_intro [A; kn] K pre "") as (R1 & R2 & _); [cbn [fold_right]; now rewrite HK, app_nil_r_s|].
      rewrite LA in R1, R2. assert (LK : len K = (len pre + 8 + len kn)%nat) by (rewrite HK, !str_length_app; lia).
      exists kn, (len kn), (l_verbuf st), 0%nat.
      repeat split; auto; try apply read_into_eof; lia.
    - destruct (reads_intro [A; kn; i32_bytes z] K pre "") as (R1 & R2 & R3 & _);
        [cbn [fold_right]; now rewrite HK, app_nil_r_s|].
      rewrite LA, ?len_i32_bytes in R1, R2, R3.
      assert (LK : len K = (len pre + 8 + len kn + 4)%nat) by (rewrite HK, !str_length_app, len_i32_bytes; lia).
      exists kn, (len kn), (i32_bytes z), 4%nat.
      repeat split; auto; try apply read_into_eof; lia. }
  destruct R as (kb & n2 & vb & n3 & Hkb & R1 & R2 & R3 & R4 & Hend). rewrite <- EA in R2.
  (* the first read returned 8 = S 7 bytes: [tail_finish] is stated with [S n] so that its [Nat.eqb n 0] computes *)
  destruct (tail_finish K V st f A 7 kb n2 vb n3 (l_addrbuf st) 0 R1 ltac:(lia) R2 R3 R4 Hend) as [P1 P2].
  split.
  - destruct P1 as [Hp|(m & clk & E & Hm)]; [now left|right]. exists m, clk. split; auto.
    intros k0 N1 N2. apply Hm. destruct Hkb; congruence.
  - intros Hu Hs. apply P2; auto. destruct Hkb as [->| ->]; auto using utf8_zeros.
Qed.

(* what is known of the tail when the entry of k0 is to survive *)
Definition tail_ok (k0 T : str) : Prop :=
  T = "" \/ exists kn, torn kn T /\ slen kn <= max_alloc /\ kn <> k0 /\ zeros (len kn) <> k0.

(* good records, the intact record of k0, good records, a harmless tail: the loader panics or ends
   with k0 as in r0 *)
Lemma walk_key k0 V K l1 r0 l2 T fuel clk :
  K = kcat l1 +++ krec r0 +++ kcat l2 +++ T ->
  Forall (good k0) l1 -> Forall (good k0) l2 ->
  rec_readable V r0 -> r_va r0 < two64 -> r_key r0 = k0 -> r_ver r0 <> (-1)%Z ->
  tail_ok k0 T -> (2 <= fuel)%nat ->
  let res := load_loop (length l1 + S (length l2 + fuel)) K V (mkL 0 (zeros 8) (zeros 4) (zeros 8) 0 [] clk) in
  res = LPanic \/
  exists m clk', res = LOk m clk' /\
    exists x, assoc_get String.eqb k0 m = Some x /\ v_val x = r_val r0 /\ v_ver x = r_ver r0 /\
              v_st x = VOk /\ v_vaddr x = r_va r0 /\ v_kaddr x = ksize l1.
Proof.
  intros HK G1 G2 Hok Hva Hk0 Hver HT Hf. cbv zeta.
  set (st0 := mkL 0 (zeros 8) (zeros 4) (zeros 8) 0 [] clk).
  destruct (walk_good k0 V l1 (S (length l2 + fuel)) K "" (krec r0 +++ kcat l2 +++ T) st0)
    as [Hp|(st1 & E1 & P1 & P2 & P3 & P4)]; auto.
  { repeat split. }
  rewrite E1. cbn [String.append] in P1. cbn [load_loop].
  rewrite (load_step_rec K V st1 (kcat l1) r0 (kcat l2 +++ T)); auto.
  set (st2 := rec_step _ _ _ _ _ _ _).
  destruct (walk_good k0 V l2 fuel K (kcat l1 +++ krec r0) T st2)
    as [Hp|(st3 & E3 & Q1 & Q2 & Q3 & Q4)]; auto.
  { rewrite HK. now rewrite !app_assoc_s. }
  { apply rec_step_ok, len_le_bytes. }
  rewrite E3.
  assert (HK3 : K = ((kcat l1 +++ krec r0) +++ kcat l2) +++ T) by (rewrite HK; now rewrite !app_assoc_s).
  assert (Htail : load_loop fuel K V st3 = LPanic \/
            exists m clk', load_loop fuel K V st3 = LOk m clk' /\
                           assoc_get String.eqb k0 m = assoc_get String.eqb k0 (l_map st3)).
  { destruct HT as [->|(kn & Ht & Hkl & N1 & N2)].
    - right. rewrite load_end; eauto; [|lia]. now rewrite Q1, HK3, app_nil_r_s.
    - destruct fuel as [|[|f]]; try lia.
      destruct (load_tail K V st3 _ kn T f HK3 Q1 Q2 Ht Hkl) as [[Hp|(m & c & E & Hm)] _]; eauto 6. }
  destruct Htail as [Hp|(m & clk' & E4 & R)]; auto.
  right. exists m, clk'. split; auto. rewrite R, Q4. unfold st2. cbn [rec_step l_map].
  destruct (Z.eqb_spec (r_ver r0) (-1)); [contradiction|].
  rewrite Hk0, str_get_set_same.
  eexists. split; [reflexivity|]. cbn [v_val v_ver v_st v_vaddr v_kaddr].
  repeat split. rewrite P3. reflexivity.
Qed.

Definition torn_fields (r : arec) (part : list str) : Prop :=
  part = [le_bytes 8 (slen (r_key r))] \/ part = [le_bytes 8 (slen (r_key r)); r_key r] \/
  part = [le_bytes 8 (slen (r_key r)); r_key r; i32_bytes (r_ver r)].

Lemma part_torn r part : torn_fields r part -> torn (r_key r) (scat part).
Proof. unfold torn. intros [-> | [-> | ->]]; cbn [scat]; rewrite ?app_nil_r_s; eauto. Qed.

(* a prefix of the field stream is whole records plus at most three fields of the next *)
Lemma fields_prefix : forall news F1, lprefix F1 (flat_map kfields news) ->
  exists news1 part, F1 = flat_map kfields news1 ++ part /\ lprefix news1 news /\
    (part = [] \/ exists r, In r news /\ torn_fields r part).
Proof.
  unfold torn_fields. induction news as [|r t IH]; intros F1 H.
  - cbn [flat_map] in H. apply lprefix_nil_inv in H. subst. exists [], []. cbn. auto using lprefix_nil.
  - cbn [flat_map] in H. unfold kfields at 1 in H. cbn [app] in H.
    apply lprefix_cons_inv in H. destruct H as [->|(p1 & -> & H)].
    { exists [], []. cbn. auto using lprefix_nil. }
    apply lprefix_cons_inv in H. destruct H as [->|(p2 & -> & H)].
    { exists [], [le_bytes 8 (slen (r_key r))]. split; auto. split; [apply lprefix_nil|].
      right. exists r. split; [now left|auto]. }
    apply lprefix_cons_inv in H. destruct H as [->|(p3 & -> & H)].
    { exists [], [le_bytes 8 (slen (r_key r)); r_key r]. split; auto. split; [apply lprefix_nil|].
      right. exists r. split; [now left|auto]. }
    apply lprefix_cons_inv in H. destruct H as [->|(p4 & -> & H)].
    { exists [], [le_bytes 8 (slen (r_key r)); r_key r; i32_bytes (r_ver r)]. split; auto. split; [apply lprefix_nil|].
      right. exists r. split; [now left|auto]. }
    destruct (IH _ H) as (n1 & part & -> & Hn1 & Hpart).
    exists (r :: n1), part. split; [reflexivity|]. split.
    + destruct Hn1 as [rest ->]. now exists rest.
    + destruct Hpart as [->|(r' & Hin & Hc)]; auto. right. exists r'. split; [now right|auto].
Qed.

(* a crash state of the incremental plan as the loader meets it: the framed old records, whole new
   records and a torn part of at most one more; the old values file followed by whole fields *)
Lemma crash_state d order fs clock recs p :
  fcontent fs FKeys = kcat recs -> Inv (d_map d) recs (fcontent fs FVals) ->
  lprefix p (incr_plan d order fs clock) ->
  exists news VS news1 part G1 recs',
    Forall (newrec (d_map d) (fcontent fs FVals) VS) news /\ Forall str_ok VS /\
    lprefix news1 news /\ (part = [] \/ exists r, In r news /\ torn_fields r part) /\
    lprefix G1 (flat_map vfields VS) /\ Forall2 (frame1 (d_map d) (fcontent fs FVals) VS) recs recs' /\
    fcontent (apply_fops fs p) FKeys = kcat (recs' ++ news1) +++ scat part /\
    fcontent (apply_fops fs p) FVals = fcontent fs FVals +++ scat G1 /\
    fcontent (apply_fops fs (incr_plan d order fs clock)) FVals = fcontent fs FVals +++ vcat VS.
Proof.
  intros HK HI Hp.
  destruct (incr_plan_states d order fs clock recs HK HI) as (news & VS & Hn & Hs & HA & (rf & _ & _ & HVf)).
  destruct (AllP_at _ _ _ _ _ _ _ _ _ HA Hp) as (F1 & G1 & HF1 & HG1 & (recs' & HK' & HFr & HV')).
  destruct (fields_prefix _ _ HF1) as (news1 & part & -> & Hn1 & Hpart).
  exists news, VS, news1, part, G1, recs'. repeat (split; [assumption|]). split; [|split; assumption].
  rewrite HK', scat_app, scat_flat_kfields, kcat_app. now rewrite !app_assoc_s.
Qed.

Lemma frame_good1 mem0 V0 VS k0 x x' : ~ touched mem0 k0 -> frame1 mem0 V0 VS x x' ->
  slen (r_key x) <= max_alloc -> (r_key x = k0 -> r_ver x = (-1)%Z) -> good k0 x'.
Proof.
  intros Hnt (Hk & Hor & _) Hl Hd. rewrite <- Hk in Hl. split; [exact Hl|].
  destruct (String.eqb_spec (r_key x) k0) as [E|E]; [|left; now rewrite Hk].
  destruct Hor as [->|Hto]; [auto|rewrite E in Hto; contradiction].
Qed.

Lemma frame_good_list mem0 V0 VS k0 : ~ touched mem0 k0 ->
  forall l l', Forall2 (frame1 mem0 V0 VS) l l' -> forall s,
  (forall o r, rec_at l s o r -> slen (r_key r) <= max_alloc /\ (r_key r = k0 -> r_ver r = (-1)%Z)) ->
  Forall (good k0) l'.
Proof.
  intros Hnt. induction 1 as [|x x' t t' Hx Ht IH]; intros s H; constructor.
  - destruct (H s x) as [Hl Hd]; [cbn [rec_at]; now left|]. eapply frame_good1; eauto.
  - apply (IH (s + rsize x)). intros o r Hr. apply (H o r). cbn [rec_at]. now right.
Qed.

(* around the record q, at offset off, of an untouched key k whose other records are tombstones:
   q is intact, every other framed record is good *)
Lemma frame_split mem0 V0 VS k q off : ~ touched mem0 k -> r_key q = k ->
  forall l l', Forall2 (frame1 mem0 V0 VS) l l' -> forall s, rec_at l s off q ->
  (forall o r, rec_at l s o r -> slen (r_key r) <= max_alloc /\ (r_key r = k -> o <> off -> r_ver r = (-1)%Z)) ->
  exists l1' l2', l' = l1' ++ q :: l2' /\ Forall (good k) l1' /\ Forall (good k) l2' /\ off = s + ksize l1'.
Proof.
  intros Hnt Hqk. induction 1 as [|x x' t t' Hx Ht IH]; intros s Hq H; cbn [rec_at] in Hq; [tauto|].
  pose proof (rsize_pos x).
  assert (Ht' : forall o r, rec_at t (s + rsize x) o r ->
            slen (r_key r) <= max_alloc /\ (r_key r = k -> o <> off -> r_ver r = (-1)%Z))
    by (intros o r Hr; apply H; cbn [rec_at]; now right).
  destruct Hq as [[-> ->]|Hq].
  - exists [], t'. destruct Hx as (_ & [->|Hto] & _); [|rewrite Hqk in Hto; contradiction].
    split; [reflexivity|]. split; [constructor|]. split; [|cbn; lia].
    apply (frame_good_list mem0 V0 VS k Hnt t t' Ht (s + rsize x)). intros o r Hr.
    destruct (Ht' o r Hr) as [A B]. split; auto. intros E. apply B; auto. apply rec_at_ge in Hr. lia.
  - destruct (IH (s + rsize x) Hq Ht') as (l1' & l2' & -> & G1 & G2 & ->).
    exists (x' :: l1'), l2'. split; [reflexivity|]. split; [|split; [exact G2|]].
    + constructor; auto. destruct (H s x) as [A B]; [cbn [rec_at]; now left|].
      apply (frame_good1 mem0 V0 VS k x x' Hnt Hx A). intros E. apply B; auto. apply rec_at_ge in Hq. lia.
    + cbn [ksize]. destruct Hx as (Hk & _). rewrite (rsize_key x x' Hk). lia.
Qed.

Definition same_entry (mv mv' : value) : Prop :=
  v_val mv' = v_val mv /\ v_ver mv' = v_ver mv /\ v_st mv' = VOk /\
  v_vaddr mv' = v_vaddr mv /\ v_kaddr mv' = v_kaddr mv.

Definition kbounded (r : arec) : Prop := slen (r_key r) <= max_alloc.

(* the core: [Hnul] is the only thing needed about a torn tail.  Its premises (the bounded records L and
   the shape of the keys file) are there for [C11_incr_untouched_keys_survive_whole_appends], which refutes the torn case from them
   with [parse_unique]; the main corollary ignores them *)
Lemma C11_core d order fs clock p clk m clk' k mv :
  DiskInv (d_map d) fs ->
  lprefix p (incr_plan d order fs clock) ->
  load_db (apply_fops fs p) clk = Some (LOk m clk') ->
  assoc_get String.eqb k (d_map d) = Some mv -> v_st mv = VOk ->
  (forall L part r, Forall kbounded L -> fcontent (apply_fops fs p) FKeys = kcat L +++ scat part ->
                    newkey (d_map d) (r_key r) -> torn_fields r part -> zeros (len (r_key r)) <> k) ->
  exists mv', assoc_get String.eqb k m = Some mv' /\ same_entry mv mv'.
Proof.
  intros (recs & HK & HI & HF & HV64) Hp HL Hg Hst Hnul.
  set (mem0 := d_map d) in *. set (V0 := fcontent fs FVals) in *.
  destruct (crash_state d order fs clock recs p HK HI Hp)
    as (news & VS & news1 & part & Gv & recs' & Hnews & _ & Hn1 & Hpart & _ & HFr & HK' & HV' & _).
  fold mem0 V0 in Hnews, HFr, HV'.
  (* the loader runs on the two files *)
  unfold load_db in HL.
  destruct (fget (apply_fops fs p) FKeys) as [K'|] eqn:EK; [|discriminate].
  destruct (fget (apply_fops fs p) FVals) as [V'|] eqn:EV; [|discriminate].
  pose proof HK' as HKc. unfold fcontent in HK', HV'. rewrite EK in HK'. rewrite EV in HV'.
  (* the record of k, and the records around it *)
  assert (Hnt : ~ touched mem0 k).
  { intros (v & Hv & Hs). rewrite Hg in Hv. inversion Hv; subst v. rewrite Hst in Hs. destruct Hs; discriminate. }
  pose proof (inv_keys _ _ _ HI k) as Hk. unfold key_ok in Hk. rewrite Hg, Hst in Hk. cbn [on_disk] in Hk.
  destruct Hk as [(q & Hq & Hqk & Hag) Hd]. destruct (Hag eq_refl) as (Ever & Eva & Eval).
  destruct (inv_mem _ _ _ HI _ _ Hg) as (_ & _ & Hvok).
  pose proof (proj1 (Forall_forall _ _) (inv_recs _ _ _ HI)) as Hrok.
  pose proof (Hrok q (rec_at_in _ _ _ _ Hq)) as Hqok.
  destruct (frame_split mem0 V0 VS k q (v_kaddr mv) Hnt Hqk recs recs' HFr 0 Hq) as (l1' & l2' & -> & G1 & G2 & Eoff).
  { intros o r Hr. split; [apply Hrok; eapply rec_at_in; eauto|]. intros Hrk Hne. eapply Hd; eauto. }
  assert (Hnewprop : forall r, In r news -> newkey mem0 (r_key r) /\ slen (r_key r) <= max_alloc /\ r_key r <> k).
  { intros r Hr. pose proof (proj1 (Forall_forall _ _) Hnews r Hr) as [Hnk _]. split; [exact Hnk|].
    destruct Hnk as (vn & Hvn & Hsn). destruct (inv_mem _ _ _ HI _ _ Hvn) as ((_ & Hl) & _). split; auto.
    intros E. rewrite E, Hg in Hvn. inversion Hvn; subst vn. rewrite Hst in Hsn. discriminate. }
  assert (G3 : Forall (good k) news1).
  { apply Forall_forall. intros r Hr. destruct Hn1 as [rest ->].
    destruct (Hnewprop r) as (_ & a & b); [apply in_or_app; now left|]. split; auto. }
  assert (HT : tail_ok k (scat part)).
  { destruct Hpart as [->|(r & Hr & Hc)]; [now left|right].
    destruct (Hnewprop r Hr) as (c & a & b). exists (r_key r). split; [now apply part_torn|]. split; auto. split; auto.
    apply (Hnul ((l1' ++ q :: l2') ++ news1) part r); auto.
    assert (GB : forall l, Forall (good k) l -> Forall kbounded l).
    { intros l Hl. eapply Forall_impl; [|exact Hl]. intros x Hx. apply Hx. }
    repeat (apply Forall_app; split); auto. constructor; auto. apply Hqok. }
  (* the shape of the keys file *)
  assert (EK' : K' = kcat l1' +++ krec q +++ kcat (l2' ++ news1) +++ scat part).
  { rewrite HK', <- app_assoc, kcat_app. cbn [app kcat]. now rewrite !app_assoc_s. }
  assert (Hva : r_va q < two64).
  { destruct Hqok as (_ & _ & Hat & _). apply has_at_bound in Hat. fold V0 in HV64. lia. }
  assert (Hqok' : rec_readable V' q) by (rewrite HV'; now apply rec_ok_readable, rec_ok_app).
  assert (Hlen : (length l1' + S (length (l2' ++ news1) + 2) <= S (len K'))%nat).
  { rewrite EK', !str_length_app, len_krec. pose proof (rsize_pos q).
    pose proof (length_le_len_kcat l1'). pose proof (length_le_len_kcat (l2' ++ news1)). lia. }
  assert (HL' : load_loop (S (len K')) K' V' (mkL 0 (zeros 8) (zeros 4) (zeros 8) 0 [] clk) = LOk m clk') by congruence.
  clear HL.
  replace (S (len K')) with (length l1' + S (length (l2' ++ news1) + (S (len K') - length l1' - S (length (l2' ++ news1)))))%nat
    in HL' by lia.
  assert (Hverq : r_ver q <> (-1)%Z) by (rewrite Ever; now apply ver_ok_not_dead).
  destruct (walk_key k V' K' l1' q (l2' ++ news1) (scat part)
              (S (len K') - length l1' - S (length (l2' ++ news1))) clk EK' G1) as [Hpanic|(m0 & c0 & E0 & x & X1 & X2 & X3 & X4 & X5 & X6)];
    auto.
  { apply Forall_app. auto. }
  { lia. }
  { cbv zeta in Hpanic. rewrite Hpanic in HL'. discriminate. }
  cbv zeta in E0. rewrite E0 in HL'. inversion HL'; subst m0 c0.
  exists x. split; auto. unfold same_entry. rewrite X2, X3, X5, X6, X4, Eoff. auto.
Qed.

(* sharpest form: the only way a key the snapshot does not touch can be damaged is a key
   made of NUL bytes only, exactly as long as a key that is being created *)
Theorem C11_incr_untouched_keys_survive_gen d order fs clock p clk m clk' k mv :
  DiskInv (d_map d) fs ->
  lprefix p (incr_plan d order fs clock) ->
  load_db (apply_fops fs p) clk = Some (LOk m clk') ->
  assoc_get String.eqb k (d_map d) = Some mv -> v_st mv = VOk ->
  (forall kn vn, assoc_get String.eqb kn (d_map d) = Some vn -> v_st vn = VNew -> zeros (len kn) <> k) ->
  exists mv', assoc_get String.eqb k m = Some mv' /\ same_entry mv mv'.
Proof.
  intros HD Hp HL Hg Hst Hnul. eapply C11_core; eauto.
  intros L part r _ _ (vn & Hvn & Hsn) _. eauto.
Qed.

Definition not_nul_run (k : str) : Prop := k = "" \/ k <> zeros (len k).

Lemma not_nul_run_head a r : a <> zero -> not_nul_run (String a r).
Proof. intros H. right. cbn [String.length zeros]. congruence. Qed.

(* an untouched key that is not a run of NUL bytes survives every crash *)
Theorem C11_incr_untouched_keys_survive d order fs clock p clk m clk' k mv :
  DiskInv (d_map d) fs ->
  lprefix p (incr_plan d order fs clock) ->
  load_db (apply_fops fs p) clk = Some (LOk m clk') ->
  assoc_get String.eqb k (d_map d) = Some mv -> v_st mv = VOk ->
  not_nul_run k ->
  exists mv', assoc_get String.eqb k m = Some mv' /\ same_entry mv mv'.
Proof.
  intros HD Hp HL Hg Hst Hk. eapply C11_incr_untouched_keys_survive_gen; eauto.
  intros kn vn Hkn Hsn E. destruct Hk as [->|Hk].
  - destruct kn; [|discriminate]. rewrite Hg in Hkn. inversion Hkn; subst vn. rewrite Hst in Hsn. discriminate.
  - apply Hk. rewrite <- E at 2. rewrite len_zeros. auto.
Qed.

(* the same for the crash semantics of Model/Disk.v: the process is killed on entering its i-th
   system call of kind s *)
Corollary C11_incr_untouched_keys_survive_kill d order fs clock s i clk m clk' k mv :
  DiskInv (d_map d) fs ->
  load_db (apply_fops fs (take_before s i (incr_plan d order fs clock))) clk = Some (LOk m clk') ->
  assoc_get String.eqb k (d_map d) = Some mv -> v_st mv = VOk -> not_nul_run k ->
  exists mv', assoc_get String.eqb k m = Some mv' /\ same_entry mv mv'.
Proof.
  intros HD HL.
  exact (C11_incr_untouched_keys_survive d order fs clock _ clk m clk' k mv HD (take_before_prefix s _ i) HL).
Qed.

Lemma krec_head_inj x y s t : kbounded x -> kbounded y -> krec x +++ s = krec y +++ t ->
  slen (r_key x) = slen (r_key y).
Proof.
  unfold kbounded. intros Hx Hy H. pose proof max_alloc_lt. unfold krec in H. rewrite !app_assoc_s in H.
  apply app_inj_len in H; [|now rewrite !len_le_bytes]. destruct H as [H _].
  apply le8_inj in H; auto; unfold two64; lia.
Qed.

Lemma part_split r part : torn_fields r part ->
  exists rest, scat part = le_bytes 8 (slen (r_key r)) +++ rest /\ (len rest <= len (r_key r) + 4)%nat.
Proof.
  intros [-> | [-> | ->]]; cbn [scat]; eexists; (split; [reflexivity|]);
    rewrite ?str_length_app, ?len_i32_bytes; cbn [len]; lia.
Qed.

(* a file that is whole bounded records is not also whole records plus a torn part: the length
   fields would disagree *)
Lemma parse_unique : forall L nl r part, Forall kbounded L -> Forall kbounded nl -> kbounded r ->
  torn_fields r part -> kcat L +++ scat part = kcat nl -> False.
Proof.
  pose proof max_alloc_lt as Hma.
  induction L as [|x L IH]; intros nl r part HL Hnl Hr Hpart H.
  - cbn [kcat String.append] in H. destruct (part_split r part Hpart) as (rest & E & Hlen). rewrite E in H.
    destruct nl as [|y nl].
    + cbn [kcat] in H. apply (f_equal len) in H. rewrite str_length_app, len_le_bytes in H. cbn in H. lia.
    + apply Forall_cons_iff in Hnl. destruct Hnl as [Hy _]. cbn [kcat] in H. unfold krec in H.
      rewrite !app_assoc_s in H. apply app_inj_len in H; [|now rewrite !len_le_bytes].
      destruct H as [H1 H2]. unfold kbounded in *. apply le8_inj in H1; [|unfold two64; lia..].
      apply (f_equal len) in H2. rewrite !str_length_app, len_i32_bytes, len_le_bytes in H2.
      unfold slen in H1. lia.
  - apply Forall_cons_iff in HL. destruct HL as [Hx HL]. cbn [kcat] in H. rewrite app_assoc_s in H.
    destruct nl as [|y nl].
    + cbn [kcat] in H. apply (f_equal len) in H. rewrite str_length_app, len_krec in H. pose proof (rsize_pos x). cbn in H. lia.
    + apply Forall_cons_iff in Hnl. destruct Hnl as [Hy Hnl]. cbn [kcat] in H.
      pose proof (krec_head_inj _ _ _ _ Hx Hy H) as E.
      apply app_inj_len in H; [|rewrite !len_krec; unfold rsize; lia].
      destruct H as [_ H]. eapply IH; eauto.
Qed.

(* variant: if the crash leaves a keys file that is a whole number of (length-bounded)
   records -- the cut fell on a record boundary of the appended stream -- NO condition on the key
   is needed *)
Theorem C11_incr_untouched_keys_survive_whole_appends d order fs clock p clk m clk' k mv :
  DiskInv (d_map d) fs ->
  lprefix p (incr_plan d order fs clock) ->
  load_db (apply_fops fs p) clk = Some (LOk m clk') ->
  assoc_get String.eqb k (d_map d) = Some mv -> v_st mv = VOk ->
  (exists nl, fcontent (apply_fops fs p) FKeys = kcat nl /\ Forall kbounded nl) ->
  exists mv', assoc_get String.eqb k m = Some mv' /\ same_entry mv mv'.
Proof.
  intros HD Hp HL Hg Hst (nl & Hnl & Hb). pose proof HD as (recs & _ & HI & _ & _).
  eapply C11_core; eauto.
  intros L part r HLb HK (vn & Hvn & _) Hpart. exfalso.
  rewrite Hnl in HK. symmetry in HK.
  eapply (parse_unique L nl r part); eauto.
  destruct (inv_mem _ _ _ HI _ _ Hvn) as ((_ & Hl) & _). exact Hl.
Qed.

Fixpoint srep (n : nat) (c : Ascii.ascii) : str := match n with O => "" | S k => String c (srep k c) end.

(* a and b persisted; then a updated and a new 300-byte key created (longer than bw_cap = 250, so
   the BufWriter hands it over in a write() of its own); incremental snapshot *)
Definition demo_new : str := srep 300 "c"%char.
Definition demo_evs : list dev :=
  [DvSet "a" "1" (-1) 1; DvSet "b" "2" (-1) 2; DvSnap false ["a"; "b"];
   DvSet "a" "11" (-1) 3; DvSet demo_new "3" (-1) 4].
Definition demo_state : dstate := match druns dinit demo_evs with Some s => s | None => dinit end.
Definition demo_mem := ds_mem demo_state.
Definition demo_fs := ds_files demo_state.
Definition demo_plan : list fop := incr_plan (db_of demo_mem) [demo_new; "a"] demo_fs (ds_clock demo_state).

Example demo_states :
  option_map v_st (assoc_get String.eqb "a" demo_mem) = Some VUpdated /\
  option_map v_st (assoc_get String.eqb "b" demo_mem) = Some VOk /\
  option_map v_st (assoc_get String.eqb demo_new demo_mem) = Some VNew /\
  length demo_plan = 10%nat.
Proof. vm_compute. auto. Qed.

Lemma demo_devs_ok : devs_ok dinit demo_evs.
Proof.
  vm_compute. repeat split; try (intros; discriminate); try reflexivity;
    repeat constructor; cbn; intuition discriminate.
Qed.

Lemma demo_DiskInv : DiskInv demo_mem demo_fs.
Proof.
  apply (history_DiskInv demo_evs demo_mem demo_fs (ds_clock demo_state) demo_devs_ok).
  vm_compute. reflexivity.
Qed.

(* [C11_incr_untouched_keys_survive] instantiated: at EVERY cut of the plan, b survives *)
Example C11_frame_demo : forall i m c,
  load_db (apply_fops demo_fs (firstn i demo_plan)) 7 = Some (LOk m c) ->
  exists mv', assoc_get String.eqb "b" m = Some mv' /\ v_val mv' = "2" /\ v_ver mv' = 0%Z.
Proof.
  intros i m c HL.
  destruct (C11_incr_untouched_keys_survive (db_of demo_mem) [demo_new; "a"] demo_fs (ds_clock demo_state)
              (firstn i demo_plan) 7 m c "b" (mkV "2" 0 1 VOk 13 21)) as (mv' & Hg & Hs & Hv & _); auto.
  - apply demo_DiskInv.
  - apply firstn_lprefix.
  - right. discriminate.
  - exists mv'. auto.
Qed.

(* ... and the hypothesis "the loader does not panic" holds at every one of the 11 cuts of the
   10-operation plan; the cuts 5..9 fall inside
   the plan: after the torn length field of the new key record, after its key bytes, between the
   two pwrites of a's record, ... *)
Definition demo_view (i : nat) : option (option (str * Z) * option (str * Z)) :=
  match load_db (apply_fops demo_fs (firstn i demo_plan)) 7 with
  | Some (LOk m _) =>
      Some (option_map (fun v => (v_val v, v_ver v)) (assoc_get String.eqb "a" m),
            option_map (fun v => (v_val v, v_ver v)) (assoc_get String.eqb "b" m))
  | _ => None
  end.
Example demo_all_cuts_load :
  forallb (fun i => match demo_view i with Some (_, Some ("2", 0%Z)) => true | _ => false end)
          (seq 0 11) = true.
Proof. vm_compute. reflexivity. Qed.

(* WHY [not_nul_run] IS NEEDED (a corner of the real loader, exotic but real): the BufWriter can
   cut the appended key stream right after the 8-byte length field of a new key's record.  The
   loader then allocates vec![0; len], reads 0 bytes into it, and reuses the version and address
   buffers of the PREVIOUS record: it inserts the key "\0\0...\0" (len NUL bytes) with the previous
   record's value.  An untouched, persisted key that is exactly that run of NUL bytes is overwritten. *)
Definition nul_key : str := zeros 300.
Definition nul_evs : list dev :=
  [DvSet nul_key "1" (-1) 1; DvSet "b" "2" (-1) 2; DvSnap false [nul_key; "b"];
   DvSet (srep 300 "x"%char) "3" (-1) 3].
Definition nul_state : dstate := match druns dinit nul_evs with Some s => s | None => dinit end.
Definition nul_plan : list fop :=
  incr_plan (db_of (ds_mem nul_state)) [srep 300 "x"%char] (ds_files nul_state) (ds_clock nul_state).

Lemma nul_devs_ok : devs_ok dinit nul_evs.
Proof.
  vm_compute. repeat split; try (intros; discriminate); try reflexivity;
    repeat constructor; cbn; intuition discriminate.
Qed.

Example C11_nul_key_overwritten :
  DiskInv (ds_mem nul_state) (ds_files nul_state) /\
  option_map (fun v => (v_val v, v_st v)) (assoc_get String.eqb nul_key (ds_mem nul_state)) = Some ("1", VOk) /\
  exists m c, load_db (apply_fops (ds_files nul_state) (firstn 5 nul_plan)) 7 = Some (LOk m c) /\
              option_map v_val (assoc_get String.eqb nul_key m) = Some "2".
Proof.
  split; [|split].
  - apply (history_DiskInv nul_evs _ _ (ds_clock nul_state) nul_devs_ok). vm_compute. reflexivity.
  - vm_compute. reflexivity.
  - eexists. eexists. split; vm_compute; reflexivity.
Qed.

Lemma rec_at_has : forall l s off q, rec_at l s off q ->
  exists pre post, kcat l = pre +++ krec q +++ post /\ s + slen pre = off.
Proof.
  induction l as [|x t IH]; intros s off q H; cbn [rec_at] in H; [tauto|].
  destruct H as [[-> ->]|H].
  - exists "", (kcat t). cbn. split; auto. lia.
  - destruct (IH _ _ _ H) as (pre & post & E & Hs). exists (krec x +++ pre), post. cbn [kcat].
    rewrite E, slen_app, slen_krec, !app_assoc_s. split; auto. lia.
Qed.

Section Shape.
Variable mem0 : list (str * value).
Variable recs : list arec.

(* one pwrite into the 12-byte (version, address) field -- at offset kaddr + 8 + len(key) of the
   record -- of a key that is VUpdated or VDeleted in memory: 4 bytes at the start of the field
   or 8 bytes at its offset 4 *)
Definition field_write (o : fop) : Prop :=
  exists k v q, assoc_get String.eqb k mem0 = Some v /\ (v_st v = VUpdated \/ v_st v = VDeleted) /\
    rec_at recs 0 (v_kaddr v) q /\ r_key q = k /\
    ((exists z, o = OpWriteAt FKeys (v_kaddr v + 8 + slen k) (i32_bytes z)) \/
     (exists a, o = OpWriteAt FKeys (v_kaddr v + 8 + slen k + 4) (le_bytes 8 a))).
Definition incr_body_op (o : fop) : Prop :=
  (exists c, o = OpAppend FKeys c) \/ (exists c, o = OpAppend FVals c) \/ field_write o.

Lemma todo_upd_ok kv : todo_ok mem0 recs kv -> upd_ok field_write false kv.
Proof.
  destruct kv as [k v]. intros (Hg & Hd & _) _ Hst ver va. cbn [fst snd] in *.
  destruct (Hd Hst) as (q & Hq & Hqk). split; exists k, v, q; repeat (split; auto); eauto.
Qed.
End Shape.

Theorem incr_plan_shape d order fs clock :
  DiskInv (d_map d) fs ->
  exists recs body,
    fcontent fs FKeys = kcat recs /\
    incr_plan d order fs clock = plan_open4 d ++ body ++ close_tail fs /\
    Forall (incr_body_op (d_map d) recs) body.
Proof.
  intros (recs & HK & HI & _ & _). exists recs.
  unfold incr_plan. rewrite snapshot_plan_unfold. cbn [fst].
  destruct (wext_fold (field_write (d_map d) recs) false (keys_to_update (d_map d) order false) (plan_w0 d false fs clock))
    as (new & E & HF).
  { eapply Forall_impl; [apply todo_upd_ok|]. apply (todo_ok_incr _ _ _ order HI). }
  change (fold_left (snap_one false) (keys_to_update (d_map d) order false) (plan_w0 d false fs clock))
    with (plan_w1 d order false fs clock) in E.
  set (w1 := plan_w1 d order false fs clock) in *.
  exists (new ++ emit FKeys (bw_flush (w_kbuf w1)) ++ emit FVals (bw_flush (w_vbuf w1))).
  split; auto. split.
  - rewrite E, incr_w0_ops. unfold plan_close. rewrite incr_fs2_old. fold (close_tail fs).
    now rewrite <- !app_assoc.
  - repeat (apply Forall_app; split); [exact HF|apply (Forall_emit (field_write (d_map d) recs)); auto..].
Qed.

Lemma vsafe_eof V a : slen V <= a -> vsafe V a.
Proof.
  intros H lb Hl Hd. unfold slen in H.
  rewrite (read_into_eof V (N.to_nat a) lb) by lia. cbn [fst]. split; auto.
  rewrite read_into_eof by lia. cbn [fst]. apply utf8_zeros.
Qed.
Lemma vsafe_lenonly pre v : slen v <= max_alloc -> vsafe (pre +++ le_bytes 8 (slen v)) (slen pre).
Proof.
  intros Hv lb Hl Hd. pose proof max_alloc_lt.
  destruct (reads_intro [le_bytes 8 (slen v)] (pre +++ le_bytes 8 (slen v)) pre "") as (R1 & _);
    [cbn [fold_right]; now rewrite app_nil_r_s|].
  rewrite len_le_bytes in R1. replace (N.to_nat (slen pre)) with (len pre) by (unfold slen; lia).
  rewrite (R1 lb Hl). cbn [fst]. rewrite le_decode_8 by lia. split; auto.
  rewrite read_into_eof; [cbn [fst]; apply utf8_zeros|]. rewrite str_length_app, len_le_bytes. lia.
Qed.
Lemma vsafe_has_val V a v : str_ok v -> has_val V a v -> vsafe V a.
Proof.
  intros [Hu Hv] Hat lb Hl Hd. pose proof max_alloc_lt. destruct (val_reads V a v lb Hat Hl) as [E1 E2].
  rewrite E1. cbn [fst]. rewrite le_decode_8 by lia. rewrite E2. auto.
Qed.

(* a record boundary of the value stream is safe in every crash state of the values file *)
Lemma bnd_vsafe V0 VS G1 a : bnd V0 VS a -> lprefix G1 (flat_map vfields VS) -> Forall str_ok VS ->
  vsafe (V0 +++ scat G1) a.
Proof.
  intros (l1 & l2 & -> & ->) HG Hs. rewrite flat_map_app in HG.
  apply Forall_app in Hs. destruct Hs as [_ Hs2].
  destruct (lprefix_cmp _ G1 (flat_map vfields l1) HG (lprefix_app_l _ _)) as [H|[G' E]].
  - apply vsafe_eof. apply lprefix_scat_len in H. unfold vcat. rewrite slen_app. unfold slen. lia.
  - subst G1. destruct HG as [rest HG]. rewrite <- app_assoc in HG. apply app_inv_head in HG.
    assert (HG' : lprefix G' (flat_map vfields l2)) by now exists rest.
    clear HG rest. rewrite scat_app, <- app_assoc_s. fold (vcat l1).
    replace (slen V0 + slen (vcat l1)) with (slen (V0 +++ vcat l1)) by apply slen_app.
    set (pre := V0 +++ vcat l1).
    destruct l2 as [|v l2].
    + apply lprefix_nil_inv in HG'. subst G'. cbn [scat]. rewrite app_nil_r_s. apply vsafe_eof. lia.
    + apply Forall_cons_iff in Hs2. destruct Hs2 as [Hv _].
      cbn [flat_map] in HG'. unfold vfields at 1 in HG'. cbn [app] in HG'.
      apply lprefix_cons_inv in HG'. destruct HG' as [->|(g1 & -> & HG')].
      { cbn [scat]. rewrite app_nil_r_s. apply vsafe_eof. lia. }
      apply lprefix_cons_inv in HG'. destruct HG' as [->|(g2 & -> & HG')].
      { cbn [scat]. rewrite app_nil_r_s. apply vsafe_lenonly. apply Hv. }
      cbn [scat]. apply (vsafe_has_val _ _ v Hv). now exists pre, (scat g2).
Qed.

Definition safe_rec (V : str) (r : arec) : Prop :=
  str_ok (r_key r) /\ r_va r < two64 /\ vsafe V (r_va r).

(* the no-panic twin of [walk_good] *)
Lemma walk_safe V : forall l fuel K pre post st,
  K = pre +++ kcat l +++ post -> l_pos st = len pre -> bufs_ok st -> Forall (safe_rec V) l ->
  vsafe V (le_decode (l_addrbuf st)) ->
  exists st', load_loop (length l + fuel) K V st = load_loop fuel K V st' /\
    l_pos st' = len (pre +++ kcat l) /\ bufs_ok st' /\ vsafe V (le_decode (l_addrbuf st')).
Proof.
  induction l as [|r t IH]; intros fuel K pre post st HK Hpos Hst Hg Hs.
  - exists st. cbn [length Nat.add kcat]. rewrite app_nil_r_s. auto.
  - apply Forall_cons_iff in Hg. destruct Hg as [((Hku & Hkl) & Hva & Hsafe) Ht]. pose proof max_alloc_lt.
    cbn [length Nat.add load_loop kcat]. cbn [kcat] in HK. rewrite app_assoc_s in HK.
    destruct (Hsafe (le_bytes 8 (slen (r_key r))) (len_le_bytes _ _)) as [S1 S2]; [rewrite le_decode_8; lia|].
    pose proof (read_into_len V (N.to_nat (r_va r)) (le_bytes 8 (slen (r_key r)))) as HL.
    destruct (read_into V (N.to_nat (r_va r)) (le_bytes 8 (slen (r_key r)))) as [lb2 x] eqn:E5. cbn [fst] in *.
    destruct (read_into V (N.to_nat (r_va r) + 8) (zeros (N.to_nat (le_decode lb2)))) as [vbytes y] eqn:E6.
    cbn [fst] in S2.
    rewrite (load_step_krec K V st pre r (kcat t +++ post) _ lb2 x _ vbytes y HK Hpos Hst Hkl (le_decode_8 _ Hva) E5 eq_refl E6).
    rewrite Hku, S2. destruct (N.ltb_spec max_alloc (le_decode lb2)); [lia|]. cbn [negb orb].
    destruct (IH fuel K (pre +++ krec r) post
                (rec_step st (len (pre +++ krec r)) r lb2 vbytes (i32_decode (i32_bytes (r_ver r))) (r_va r)))
      as (st2 & E2 & Q1 & Q2 & Q3); auto.
    + now rewrite !app_assoc_s.
    + apply rec_step_ok. now rewrite HL, len_le_bytes.
    + cbn [rec_step l_addrbuf]. now rewrite le_decode_8.
    + exists st2. split; auto. split; [now rewrite Q1, !app_assoc_s|]. auto.
Qed.

Lemma vsafe_zero V0 VS G1 : vhead_ok V0 -> lprefix G1 (flat_map vfields VS) -> Forall str_ok VS ->
  vsafe (V0 +++ scat G1) 0.
Proof.
  intros [->|(v & Hv & Hat)] HG Hs.
  - apply (bnd_vsafe "" VS G1 0); auto. exists [], VS. split; auto.
  - apply (vsafe_has_val _ 0 v); auto. now apply has_at_val, has_at_app.
Qed.

Lemma bnd_bound V0 VS a : bnd V0 VS a -> a <= slen V0 + slen (vcat VS).
Proof. intros (l1 & l2 & -> & ->). rewrite vcat_app, slen_app. lia. Qed.

Lemma frame_safe mem0 V0 VS G1 :
  vhead_ok V0 -> slen V0 + slen (vcat VS) < two64 ->
  lprefix G1 (flat_map vfields VS) -> Forall str_ok VS ->
  forall l l', Forall2 (frame1 mem0 V0 VS) l l' -> Forall (rec_ok V0) l ->
  Forall (safe_rec (V0 +++ scat G1)) l'.
Proof.
  intros Hh Hsz HG Hs. induction 1 as [|x x' t t' (Hk & _ & Hva) Ht IH]; intros Hok; constructor.
  - apply Forall_cons_iff in Hok. destruct Hok as [(Hxk & Hxv & Hat & _) _].
    split; [now rewrite Hk|].
    destruct Hva as [E|[E|E]].
    + rewrite E. split; [apply has_at_bound in Hat; lia|].
      apply (vsafe_has_val _ _ (r_val x)); auto. now apply has_at_val, has_at_app.
    + rewrite E. split; [unfold two64; lia|]. now apply (vsafe_zero V0 VS).
    + split; [apply bnd_bound in E; lia|]. now apply (bnd_vsafe V0 VS).
  - apply IH. apply Forall_cons_iff in Hok. tauto.
Qed.

(* The loader never panics on a crash state of an incremental snapshot -- no ASCII
   condition is needed, because the BufWriter hands whole write() calls to the OS, so keys and values
   are never cut in the middle.  Side conditions: the values file of the COMPLETED snapshot is
   shorter than 2^64 bytes (as in C06_one_snapshot), and the values file exists whenever the keys
   file does (false only in the create window of a brand-new database, see below). *)
Theorem C11_incr_no_panic d order fs clock p clk :
  DiskInv (d_map d) fs ->
  lprefix p (incr_plan d order fs clock) ->
  fsize (apply_fops fs (incr_plan d order fs clock)) FVals < two64 ->
  (fget (apply_fops fs p) FKeys <> None -> fget (apply_fops fs p) FVals <> None) ->
  load_db (apply_fops fs p) clk <> Some LPanic.
Proof.
  (* [crash_state] gives the shape of the two files; every whole record is a [safe_rec] ([frame_safe] for
     the framed old ones, [bnd_vsafe] for the appended ones), [walk_safe] walks them, [load_tail] settles
     a torn part *)
  intros (recs & HK & HI & HF & HV64) Hp Hsz Hex.
  set (mem0 := d_map d) in *. set (V0 := fcontent fs FVals) in *.
  destruct (crash_state d order fs clock recs p HK HI Hp)
    as (news & VS & news1 & part & G1 & recs' & Hnews & HVS & Hn1 & Hpart & HG1 & HFr & HK' & HV' & HVf).
  fold mem0 V0 in Hnews, HFr, HV', HVf.
  rewrite fsize_fcontent, HVf, slen_app in Hsz.
  unfold load_db.
  destruct (fget (apply_fops fs p) FKeys) as [K'|] eqn:EK; [|discriminate].
  destruct (fget (apply_fops fs p) FVals) as [V'|] eqn:EV; [|exfalso; apply Hex; congruence].
  unfold fcontent in HK', HV'. rewrite EK in HK'. rewrite EV in HV'.
  assert (Hkey : forall r, In r news -> str_ok (r_key r)).
  { intros r Hr. destruct (proj1 (Forall_forall _ _) Hnews r Hr) as ((vn & Hvn & _) & _).
    apply (inv_mem _ _ _ HI _ _ Hvn). }
  assert (S1 : Forall (safe_rec V') recs').
  { rewrite HV'. eapply (frame_safe mem0 V0 VS G1); eauto; [apply (inv_vhead _ _ _ HI)|apply (inv_recs _ _ _ HI)]. }
  assert (S2 : Forall (safe_rec V') news1).
  { apply Forall_forall. intros r Hr. destruct Hn1 as [rest ->].
    assert (Hin : In r (news1 ++ rest)) by (apply in_or_app; now left).
    destruct (proj1 (Forall_forall _ _) Hnews r Hin) as (_ & Hb).
    split; [now apply Hkey|]. split; [apply bnd_bound in Hb; lia|]. rewrite HV'. now apply (bnd_vsafe V0 VS). }
  assert (EK' : K' = "" +++ kcat (recs' ++ news1) +++ scat part) by exact HK'.
  set (st0 := mkL 0 (zeros 8) (zeros 4) (zeros 8) 0 [] clk).
  assert (Hz : vsafe V' (le_decode (l_addrbuf st0))).
  { change (le_decode (l_addrbuf st0)) with 0. rewrite HV'. apply (vsafe_zero V0 VS); auto. apply (inv_vhead _ _ _ HI). }
  pose proof (length_le_len_kcat (recs' ++ news1)) as Hlen.
  assert (HlenK : len K' = (len (kcat (recs' ++ news1)) + len (scat part))%nat).
  { rewrite EK'. cbn [String.append]. now rewrite str_length_app. }
  replace (S (len K')) with (length (recs' ++ news1) + (S (len K') - length (recs' ++ news1)))%nat by lia.
  destruct (walk_safe V' (recs' ++ news1) (S (len K') - length (recs' ++ news1)) K' "" (scat part) st0)
    as (st1 & E1 & P1 & P2 & P3); auto.
  { repeat split. }
  { apply Forall_app. auto. }
  rewrite E1. cbn [String.append] in P1, EK'.
  destruct Hpart as [->|(r & Hr & Hc)].
  - rewrite load_end; [discriminate| |lia]. rewrite P1, EK'. cbn [scat]. now rewrite app_nil_r_s.
  - pose proof (part_torn r part Hc) as Ht. destruct (Hkey r Hr) as [Hu Hl].
    assert (Hne : (8 <= len (scat part))%nat).
    { destruct Ht as [E|[E|(z & E)]]; rewrite E, ?str_length_app, len_le_bytes; lia. }
    destruct (S (len K') - length (recs' ++ news1))%nat as [|[|f]] eqn:Ef; try lia.
    destruct (load_tail K' V' st1 (kcat (recs' ++ news1)) (r_key r) (scat part) f) as [_ Hno]; auto.
    intros [= Hpanic]. now apply (Hno Hu P3).
Qed.

Definition keeps_file (f : fname) (o : fop) : Prop :=
  match o with OpRename a _ => a <> f | OpRemove g => g <> f | _ => True end.

Lemma keeps_file_fop f o fs : keeps_file f o -> fget fs f <> None -> fget (apply_fop fs o) f <> None.
Proof.
  intros Hk H. destruct o as [a b|g|g|g d|g off d]; cbn [apply_fop keeps_file] in *.
  - destruct (fget fs a); auto. destruct (fname_eqb_spec f b) as [->|Hn].
    + rewrite fget_set_same. discriminate.
    + rewrite fget_set_other, fget_del_other; auto.
  - rewrite fget_del_other; auto.
  - destruct (fget fs g); auto using fget_set_some.
  - now apply fget_set_some.
  - now apply fget_set_some.
Qed.
Lemma keeps_file_fops f ops : forall fs, Forall (keeps_file f) ops -> fget fs f <> None -> fget (apply_fops fs ops) f <> None.
Proof.
  induction ops as [|o t IH]; intros fs Hk H; cbn [apply_fops fold_left]; auto.
  apply Forall_cons_iff in Hk. destruct Hk as [Ho Ht]. apply IH; auto. now apply keeps_file_fop.
Qed.

Lemma incr_plan_keeps_file d order fs clock f :
  DiskInv (d_map d) fs -> f <> FKeysOld -> Forall (keeps_file f) (incr_plan d order fs clock).
Proof.
  intros HD Hf. destruct (incr_plan_shape d order fs clock HD) as (recs & body & _ & -> & Hb).
  repeat (apply Forall_app; split).
  - unfold plan_open4. repeat constructor.
  - eapply Forall_impl; [|exact Hb]. intros o [(c & ->)|[(c & ->)|(k & v & q & _ & _ & _ & _ & [(z & ->)|(a & ->)])]]; exact I.
  - unfold close_tail. destruct (fget fs FKeysOld); repeat constructor. congruence.
Qed.

(* neither data file disappears during an incremental snapshot *)
Lemma incr_file_exists d order fs clock p f :
  DiskInv (d_map d) fs -> lprefix p (incr_plan d order fs clock) -> f <> FKeysOld ->
  fget fs f <> None -> fget (apply_fops fs p) f <> None.
Proof.
  intros HD Hp Hf H. apply keeps_file_fops; auto.
  apply (lprefix_Forall _ p (incr_plan d order fs clock)); auto. now apply incr_plan_keeps_file.
Qed.

(* with "the values file exists at the start" in place of the fourth hypothesis ([incr_file_exists]
   carries it to every cut), and an ASCII condition on keys and values that the proof does not use *)
Corollary C11_incr_no_panic_ascii d order fs clock p clk :
  DiskInv (d_map d) fs ->
  (forall k v, assoc_get String.eqb k (d_map d) = Some v -> all_ascii k = true /\ all_ascii (v_val v) = true) ->
  lprefix p (incr_plan d order fs clock) ->
  fsize (apply_fops fs (incr_plan d order fs clock)) FVals < two64 ->
  fget fs FVals <> None ->
  load_db (apply_fops fs p) clk <> Some LPanic.
Proof.
  intros HD _ Hp Hsz Hv. apply (C11_incr_no_panic d order fs clock p clk HD Hp Hsz).
  intros _. eapply incr_file_exists; eauto. discriminate.
Qed.

(* frame and no-panic together: for a database that already has its files, EVERY crash point of
   an incremental snapshot leaves files that load, and the load contains every untouched key *)
Theorem C11_incr_untouched_keys_survive_total d order fs clock p clk k mv :
  DiskInv (d_map d) fs ->
  lprefix p (incr_plan d order fs clock) ->
  fsize (apply_fops fs (incr_plan d order fs clock)) FVals < two64 ->
  fget fs FKeys <> None ->
  assoc_get String.eqb k (d_map d) = Some mv -> v_st mv = VOk -> not_nul_run k ->
  exists m clk' mv', load_db (apply_fops fs p) clk = Some (LOk m clk') /\
                     assoc_get String.eqb k m = Some mv' /\ same_entry mv mv'.
Proof.
  intros HD Hp Hsz HKx Hg Hst Hk.
  assert (HVx : fget fs FVals <> None) by (destruct HD as (_ & _ & _ & H & _); auto).
  assert (Hex : forall f, f <> FKeysOld -> fget fs f <> None -> fget (apply_fops fs p) f <> None)
    by (intros f; now apply (incr_file_exists d order fs clock p f)).
  pose proof (C11_incr_no_panic d order fs clock p clk HD Hp Hsz (fun _ => Hex FVals ltac:(discriminate) HVx)) as Hnp.
  assert (HKp : fget (apply_fops fs p) FKeys <> None) by (apply Hex; [discriminate|exact HKx]).
  destruct (load_db (apply_fops fs p) clk) as [[m c|]|] eqn:EL.
  - destruct (C11_incr_untouched_keys_survive d order fs clock p clk m c k mv HD Hp EL Hg Hst Hk) as (mv' & a & b).
    eauto 6.
  - contradiction.
  - unfold load_db in EL. destruct (fget (apply_fops fs p) FKeys); [|contradiction].
    destruct (fget (apply_fops fs p) FVals); discriminate.
Qed.

(* the create window of a brand-new database: the keys file is created before the values file; a
   kill between the two open() calls leaves a directory the next start panics on (the strace-style
   crash semantics of Model/Disk.v never stops there: open is not one of its counted calls) *)
Example C11_fresh_db_create_window_panics :
  let d := db_of [("a", mkV "1" 0 0 VNew 0 0)] in
  DiskInv (d_map d) [] /\
  load_db (apply_fops [] (firstn 3 (incr_plan d ["a"] [] 5))) 9 = Some LPanic /\
  forall s i, load_db (apply_fops [] (take_before s i (incr_plan d ["a"] [] 5))) 9 <> Some LPanic.
Proof.
  cbv zeta. split; [|split].
  - apply (history_DiskInv [DvSet "a" "1" (-1) 0] _ [] 0).
    + vm_compute. repeat split; try (intros; discriminate); try reflexivity.
    + reflexivity.
  - vm_compute. reflexivity.
  - (* one sweep over the four kinds of call and the first 13 values of i; the plan makes fewer than 12
       calls of any kind, so every larger i leaves the whole plan, like i = 12 *)
    set (plan := incr_plan _ _ _ _).
    set (ok := fun s i => match load_db (apply_fops [] (take_before s i plan)) 9 with Some LPanic => false | _ => true end).
    assert (Hsweep : forallb (fun s => forallb (ok s) (seq 0 13)) [ScWrite; ScPwrite; ScRename; ScUnlink] = true)
      by (vm_compute; reflexivity).
    assert (Hok : forall s i, (i <= 12)%nat -> ok s i = true).
    { intros s i Hi. rewrite forallb_forall in Hsweep.
      assert (Hs : forallb (ok s) (seq 0 13) = true) by (apply Hsweep; destruct s; cbn; tauto).
      rewrite forallb_forall in Hs. apply Hs, in_seq. lia. }
    intros s i E. destruct (Nat.le_gt_cases i 12) as [Hi|Hi].
    + specialize (Hok s i Hi). unfold ok in Hok. rewrite E in Hok. discriminate Hok.
    + assert (Hc : (count_sc s plan < 12)%nat) by (destruct s; vm_compute; lia).
      rewrite take_before_complete in E by lia.
      specialize (Hok s 12%nat (le_n _)). unfold ok in Hok.
      rewrite take_before_complete, E in Hok by exact Hc. discriminate Hok.
Qed.

(* framed records have the same total length, and differ from the old ones only inside the 12-byte
   (version, address) field -- bytes [off + 8 + len key, off + rsize) -- of records whose key is
   VUpdated or VDeleted in memory *)
Lemma frame_bytes mem0 V0 VS : forall l l', Forall2 (frame1 mem0 V0 VS) l l' ->
  len (kcat l') = len (kcat l) /\
  forall s i, String.get i (kcat l') <> String.get i (kcat l) ->
    exists off r, rec_at l s off r /\ touched mem0 (r_key r) /\
                  off + 8 + slen (r_key r) <= s + N.of_nat i < off + rsize r.
Proof.
  induction 1 as [|x x' t t' (Hk & Hor & _) Ht [IHl IH]].
  - split; auto. intros s i H. now elim H.
  - assert (Hlen : len (krec x') = len (krec x)) by (rewrite !len_krec, (rsize_key x x' Hk); reflexivity).
    split; [cbn [kcat]; rewrite !str_length_app; lia|].
    intros s i H. cbn [kcat] in H.
    destruct (Nat.lt_ge_cases i (len (krec x))) as [Hi|Hi].
    + rewrite !sget_app_l in H by lia.
      destruct Hor as [->|Hto]; [now elim H|].
      exists s, x. split; [cbn [rec_at]; left; split; reflexivity|]. split; auto.
      rewrite len_krec in Hi. split; [|lia].
      destruct (Nat.lt_ge_cases i (8 + len (r_key x))) as [Hj|Hj]; [|unfold slen; lia].
      exfalso. apply H.
      assert (E : forall y, r_key y = r_key x ->
                String.get i (krec y) = String.get i (le_bytes 8 (slen (r_key x)) +++ r_key x)).
      { intros y Hy. unfold krec. rewrite Hy, <- app_assoc_s. apply sget_app_l.
        rewrite str_length_app, len_le_bytes. lia. }
      now rewrite (E x' Hk), (E x eq_refl).
    + replace i with (len (krec x) + (i - len (krec x)))%nat in H at 2 by lia.
      replace i with (len (krec x') + (i - len (krec x)))%nat in H at 1 by lia.
      rewrite !sget_app_r in H.
      destruct (IH (s + rsize x) _ H) as (off & r & Hr & Hto & Hb).
      exists off, r. split; [cbn [rec_at]; now right|]. split; auto.
      rewrite len_krec in *. lia.
Qed.

Theorem incr_prefix_files_bytes d order fs clock p :
  DiskInv (d_map d) fs -> lprefix p (incr_plan d order fs clock) ->
  exists recs K0' A B,
    fcontent fs FKeys = kcat recs /\
    fcontent (apply_fops fs p) FVals = fcontent fs FVals +++ B /\
    fcontent (apply_fops fs p) FKeys = K0' +++ A /\
    len K0' = len (fcontent fs FKeys) /\
    forall i, String.get i K0' <> String.get i (fcontent fs FKeys) ->
      exists off r, rec_at recs 0 off r /\ touched (d_map d) (r_key r) /\
                    off + 8 + slen (r_key r) <= N.of_nat i < off + rsize r.
Proof.
  intros HD Hp. destruct (incr_prefix_files d order fs clock p HD Hp) as (recs & recs' & A & B & VS & H1 & H2 & H3 & H4).
  destruct (frame_bytes _ _ _ _ _ H4) as [Hl Hb].
  exists recs, (kcat recs'), A, B. rewrite H1. repeat split; auto.
  intros i Hi. destruct (Hb 0 i Hi) as (off & r & a & b & c). exists off, r. auto.
Qed.
