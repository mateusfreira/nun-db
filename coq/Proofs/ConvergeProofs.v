(* ConvergeProofs.v -- property C04: live replication converges, proved on the cluster
   model (Model/Cluster.v) for any schedule of the events
     client write on the primary / primary replication thread / link delivery /
     reply delivery / secondary replication thread. *)
From NunDB Require Import Model.Base Model.Pending Model.Parse Model.Node Model.Oplog Model.Cluster
  Proofs.ListLemmas Proofs.StrLemmas Proofs.AssocLemmas Proofs.NodeLemmas Proofs.PendingProofs Proofs.DbProofs Proofs.ClusterProofs.
Local Open Scope Z_scope.

Fixpoint nows (s : str) : bool :=
  match s with EmptyString => true | String a r => negb (is_ws a) && nows r end.

(* simple token: non-empty, no white space (so no space / newline), not ending with ';' *)
Definition simple_tok (s : str) : Prop := s <> "" /\ nows s = true /\ no_semi_end s.

Lemma nows_nochar c s : is_ws c = true -> nows s = true -> nochar c s = true.
Proof.
  intros Hc. induction s as [|a r IH]; cbn; auto.
  intros H. apply andb_true_iff in H as [Ha Hr]. rewrite IH by assumption.
  destruct (Ascii.eqb_spec a c) as [->|]; [rewrite Hc in Ha; discriminate|reflexivity].
Qed.

Lemma nows_app a b : nows (a +++ b) = nows a && nows b.
Proof. induction a as [|x a IH]; cbn [append nows]; auto. rewrite IH. now rewrite andb_assoc. Qed.

Lemma tok_no_sp s : simple_tok s -> no_sp s.
Proof. intros (_ & H & _). apply nows_nochar; auto. Qed.
Lemma tok_no_nl s : simple_tok s -> no_nl s.
Proof. intros (_ & H & _). apply nows_nochar; auto. Qed.
Lemma tok_ne s : simple_tok s -> s <> "".
Proof. intros (H & _); auto. Qed.
Lemma tok_semi s : simple_tok s -> no_semi_end s.
Proof. intros (_ & _ & H); auto. Qed.
#[export] Hint Resolve tok_no_nl : nonl.

Lemma last_char_nows s x : nows s = true -> last_char s = Some x -> is_ws x = false.
Proof.
  induction s as [|a r IH]; cbn; [discriminate|].
  intros H. apply andb_true_iff in H as [Ha Hr]. apply negb_true_iff in Ha.
  destruct (last_char r) as [y|]; intros [= <-]; auto.
Qed.

Definition set_line (k v : str) : str := "set " +++ k +++ " " +++ v.
Definition remove_line (k : str) : str := "remove " +++ k.
Definition inc_line (k : str) (i : Z) : str := "increment " +++ k +++ " " +++ Z_to_str i.

Lemma parse_set_line k v : simple_tok k -> simple_tok v ->
  parse_request (trim_char nl (set_line k v)) = POk (RqSet k v (-1)).
Proof.
  intros Hk Hv. unfold set_line. rewrite trim_nl_id by auto with nonl.
  change ("set " +++ k +++ " " +++ v) with ("set" +++ " " +++ k +++ " " +++ v).
  rewrite parse_request_3; try reflexivity; try discriminate; try (now apply tok_no_sp).
  2:{ repeat apply no_semi_end_sep. now apply tok_semi. }
  change (parse_cmd "set" [k; v]) with (Some (POk (RqSet k (strip_nl v) (-1)))).
  rewrite strip_nl_noop by (now apply tok_no_nl). reflexivity.
Qed.

Lemma parse_remove_line k : simple_tok k ->
  parse_request (trim_char nl (remove_line k)) = POk (RqRemove k).
Proof.
  intros Hk. unfold remove_line. rewrite trim_nl_id by auto with nonl.
  change ("remove " +++ k) with ("remove" +++ " " +++ k).
  rewrite parse_request_2; try reflexivity; try discriminate; try (now apply tok_no_sp).
  apply no_semi_end_sep. now apply tok_semi.
Qed.

Lemma parse_inc_line k i : simple_tok k -> is_i32 i ->
  parse_request (trim_char nl (inc_line k i)) = POk (RqIncrement k i).
Proof.
  intros Hk Hi. unfold inc_line. rewrite trim_nl_id by auto with nonl.
  change ("increment " +++ k +++ " " +++ Z_to_str i) with ("increment" +++ " " +++ k +++ " " +++ Z_to_str i).
  rewrite parse_request_3; try reflexivity; try discriminate; try (now apply tok_no_sp).
  2:{ repeat apply no_semi_end_sep. apply no_semi_end_Z. }
  change (parse_cmd "increment" [k; Z_to_str i]) with
    (Some (POk (RqIncrement k (match parse_i32 (strip_nl (Z_to_str i)) with Some n => n | None => 1 end)))).
  rewrite strip_nl_noop by apply no_nl_Z. now rewrite parse_i32_Z.
Qed.

(* the request text the primary puts on its replication queue for an operation *)
Definition op_req (dbn : str) (o : dop) : str :=
  match o with
  | DSet k v ver _ => replicate_msg dbn k v ver
  | DRemove k => "replicate-remove " +++ dbn +++ " " +++ k
  | DInc k i _ => "replicate-increment " +++ dbn +++ " " +++ k +++ " " +++ Z_to_str i
  end.
Definition op_rq (dbn : str) (o : dop) : request :=
  match o with
  | DSet k v ver _ => RqReplicateSet dbn k v ver
  | DRemove k => RqReplicateRemove dbn k
  | DInc k i _ => RqReplicateIncrement dbn k i
  end.
Definition op_wf (o : dop) : Prop :=
  match o with
  | DSet k v ver _ => simple_tok k /\ simple_tok v /\ is_i32 ver
  | DRemove k => simple_tok k /\ k <> "$$token"
  | DInc k i _ => simple_tok k /\ is_i32 i
  end.
Definition rp_line (id : N) (req : str) : str := "rp " +++ N_to_str id +++ " " +++ req.

Lemma rp_line_mtr id req : message_to_replicate id req = rp_line id req.
Proof. reflexivity. Qed.

Lemma op_req_parse dbn o : simple_tok dbn -> op_wf o -> parse_request (op_req dbn o) = POk (op_rq dbn o).
Proof.
  intros Hd Ho. destruct o as [k v ver opp | k | k i opp]; cbn [op_req op_rq op_wf] in *.
  - destruct Ho as (Hk & Hv & Hver).
    apply replicate_roundtrip; auto using tok_no_sp, tok_no_nl, tok_semi.
  - destruct Ho as (Hk & _). apply replicate_remove_roundtrip; auto using tok_no_sp, tok_no_nl, tok_semi.
  - destruct Ho as (Hk & Hi). apply replicate_increment_roundtrip; auto using tok_no_sp, tok_no_nl, tok_semi.
Qed.

Lemma op_req_ne dbn o : op_req dbn o <> "".
Proof. destruct o; discriminate. Qed.

Lemma op_req_semi dbn o : op_wf o -> no_semi_end (op_req dbn o).
Proof.
  intros Ho. destruct o as [k v ver opp | k | k i opp]; cbn [op_req op_wf] in *; unfold replicate_msg;
    repeat (rewrite <- app_assoc_s); rewrite app_assoc_s; apply no_semi_end_sep;
    [now apply tok_semi | now apply tok_semi | apply no_semi_end_Z].
Qed.

Lemma no_nl_op_req dbn o : simple_tok dbn -> op_wf o -> no_nl (op_req dbn o).
Proof.
  intros Hd Ho. destruct o; cbn [op_req op_wf] in *; [apply no_nl_replicate_msg| |]; intuition auto 8 with nonl.
Qed.

Lemma op_req_trim dbn o : simple_tok dbn -> op_wf o -> trim_char nl (op_req dbn o) = op_req dbn o.
Proof. intros Hd Ho. now apply trim_nl_id, no_nl_op_req. Qed.

Lemma rp_line_trim id req : no_nl req -> trim_char nl (rp_line id req) = rp_line id req.
Proof. intros H. apply trim_nl_id. unfold rp_line. auto with nonl. Qed.

Lemma trim_sp_end a r x : is_ws a = false -> last_char (String a r) = Some x -> is_ws x = false ->
  trim (String a r +++ " ") = String a r.
Proof.
  intros Ha Hl Hx. unfold trim. cbn [append drop_ws]. rewrite Ha.
  change (String a (r +++ " ")) with (String a r +++ " "). rewrite str_rev_app.
  change (str_rev " ") with " ". cbn [append drop_ws].
  change (is_ws " ") with true. cbv iota.
  rewrite last_char_rev in Hl. destruct (str_rev (String a r)) as [|y t] eqn:E; [discriminate|].
  injection Hl as ->. cbn [drop_ws]. rewrite Hx, <- E. apply str_rev_invol.
Qed.

Definition ack_text (id : N) (name : str) : str := "ack " +++ N_to_str id +++ " " +++ name.

Lemma split_lines_ack id name : simple_tok name ->
  split_lines [ack_text id name +++ " " +++ nlS; "ok " +++ nlS] = [ack_text id name; "ok"].
Proof.
  intros Hn. cbn [split_lines].
  change (filter _ (map trim (split_char nl ("ok " +++ nlS))) ++ []) with ["ok"].
  rewrite <- app_assoc_s. rewrite split_char_line.
  2:{ unfold ack_text. auto 6 with nonl. }
  cbn [map filter].
  assert (Ht : trim (ack_text id name +++ " ") = ack_text id name).
  { unfold ack_text. change ("ack " +++ N_to_str id +++ " " +++ name) with (String "a" ("ck " +++ N_to_str id +++ " " +++ name)).
    destruct (last_char name) as [x|] eqn:El.
    2:{ destruct name; [destruct (tok_ne _ Hn); reflexivity|]. cbn in El. destruct (last_char name); discriminate. }
    apply (trim_sp_end _ _ x); try reflexivity.
    - change (String "a" ("ck " +++ N_to_str id +++ " " +++ name)) with ("ack " +++ N_to_str id +++ " " +++ name).
      repeat (rewrite <- app_assoc_s).
      rewrite last_char_app_ne by (now apply tok_ne). exact El.
    - destruct Hn as (_ & Hw & _). eapply last_char_nows; eauto. }
  rewrite Ht. change (trim "") with "". cbn [String.eqb negb].
  destruct (String.eqb_spec (ack_text id name) ""); [discriminate e|reflexivity].
Qed.

Lemma ack_text_parse id name : simple_tok name -> (id < 2 ^ 64)%N ->
  parse_request (trim_char nl (ack_text id name)) = POk (RqAcknowledge id name).
Proof.
  intros Hn Hid. unfold ack_text. rewrite trim_nl_id by auto with nonl.
  apply ack_roundtrip; auto using tok_ne, tok_semi.
Qed.

Local Open Scope nat_scope.

(* the fields of a session other than its inbox *)
Definition sattr (s : sess) := (s_auth s, s_db s, s_user s, s_member s).

(* everything of a node except databases, clock, replication queue and session inboxes *)
Record frame (n n' : node) : Prop := mkFrame {
  fr_role : n_role n' = n_role n;
  fr_addr : n_addr n' = n_addr n;
  fr_members : n_members n' = n_members n;
  fr_pending : n_pending n' = n_pending n;
  fr_sup : n_sup n' = n_sup n;
  fr_len : length (n_sess n') = length (n_sess n);
  fr_sess : forall c, sattr (get_sess n' c) = sattr (get_sess n c) }.

Lemma frame_refl n : frame n n.
Proof. constructor; auto. Qed.
Lemma frame_trans a b c : frame a b -> frame b c -> frame a c.
Proof. intros [] []. constructor; congruence. Qed.

Lemma frame_put_sess n c s : sattr s = sattr (get_sess n c) -> frame n (put_sess n c s).
Proof.
  intros H. constructor; auto.
  - apply put_sess_len.
  - intros c'. rewrite get_sess_put_sess. destruct (_ && _) eqn:E; [|reflexivity].
    apply andb_true_iff in E as [E _]. apply Nat.eqb_eq in E as ->. exact H.
Qed.
Lemma frame_send n c m : frame n (send n c m).
Proof. apply frame_put_sess. reflexivity. Qed.
Lemma frame_sends l : forall n, frame n (sends n l).
Proof.
  unfold sends. induction l as [|p r IH]; cbn [fold_left]; intros n; [apply frame_refl|].
  eapply frame_trans; [apply frame_send|apply IH].
Qed.
Lemma frame_put_db n x d : frame n (put_db n x d).
Proof. constructor; auto. Qed.
Lemma frame_set_clock n k : frame n (n_set_clock n k).
Proof. constructor; auto. Qed.
Lemma frame_set_repl n k : frame n (n_set_repl n k).
Proof. constructor; auto. Qed.
Lemma frame_replicate_web n m : frame n (replicate_web n m).
Proof. constructor; auto. Qed.
Lemma frame_drain n c : frame n (fst (drain n c)).
Proof. unfold drain. cbn [fst]. apply frame_put_sess. reflexivity. Qed.

Lemma auth_in_range n c : s_auth (get_sess n c) = true -> c < length (n_sess n).
Proof.
  intros H. destruct (Nat.lt_ge_cases c (length (n_sess n))) as [|Hge]; auto.
  unfold get_sess in H. rewrite nth_overflow in H by assumption. discriminate.
Qed.
Lemma get_sess_send_same n c m : c < length (n_sess n) -> get_sess (send n c m) c = sess_push (get_sess n c) m.
Proof. intros H. rewrite get_sess_send, Nat.eqb_refl. apply Nat.ltb_lt in H. now rewrite H. Qed.
Lemma get_sess_put_db n x d c : get_sess (put_db n x d) c = get_sess n c.
Proof. exact (NodeLemmas.get_sess_put_db n x d c). Qed.

Lemma db_apply_meta d o : d_strat (db_apply d o) = d_strat d /\ d_watch (db_apply d o) = d_watch d /\ d_id (db_apply d o) = d_id d.
Proof.
  destruct o as [k v ver opp | k | k i opp]; cbn [db_apply];
    [rewrite set_value_frame|rewrite remove_value_frame|rewrite inc_value_frame]; auto.
Qed.

Lemma dop_resp_not_value d o a b c : dop_resp d o <> RValue a b c.
Proof.
  destruct o as [k v ver opp | k | k i opp]; cbn [dop_resp].
  - unfold set_value. destruct (get_value d _); [destruct (_ && _)|]; cbn; discriminate.
  - unfold remove_value. destruct (String.eqb k "$$token"); cbn; discriminate.
  - unfold inc_value. destruct (parse_i32 _); [destruct (_ && _)|]; cbn; discriminate.
Qed.

(* session [c] watches nothing in [d]: the messages a mutation sends go to watchers only, so [c] gets none *)
Definition no_watch (d : db) (c : nat) : Prop := forall k, ~ In c (watchers_of d k).

Definition dop_msgs (d : db) (o : dop) : list (nat * str) :=
  match o with
  | DSet k v ver opp => snd (set_value d (mkCh k v ver opp false))
  | DRemove k => snd (remove_value d k)
  | DInc k i opp => snd (inc_value d k i opp)
  end.

Lemma dop_msgs_targets d o c : no_watch d c -> Forall (fun p => fst p <> c) (dop_msgs d o).
Proof.
  intros H. assert (W : to_watchers d (dop_msgs d o)).
  { destruct o; cbn [dop_msgs]; [exact (proj2 (proj2 (set_value_writes d _)))|exact (proj2 (proj2 (remove_value_writes d _)))|
                                 exact (proj2 (proj2 (inc_value_writes d _ _ _)))]. }
  apply Forall_forall. intros [a m] Hin E. cbn [fst] in E. subst a. destruct (W _ _ Hin) as [k Hk]. exact (H k Hk).
Qed.

Lemma no_watch_apply d o c : no_watch d c -> no_watch (db_apply d o) c.
Proof.
  intros H k. unfold watchers_of. destruct (db_apply_meta d o) as (_ & -> & _). apply H.
Qed.

(* the "rp <id> <req>" envelope: acknowledge on the link, execute <req> as a line of its own, then
   [replicate_request] once more for the envelope itself *)
Lemma step_rp n c id req rq :
  (id < 2 ^ 64)%N -> req <> "" -> no_semi_end req -> no_nl req ->
  parse_request (trim_char nl req) = POk rq -> (forall r i, rq <> RqReplicateRequest r i) ->
  s_auth (get_sess n c) = true ->
  step n c (rp_line id req) =
  let '(n1, r) := step (send n c ("ack " +++ N_to_str id +++ " " +++ n_addr n +++ " " +++ nlS)) c req in
  replicate_request n1 (RqReplicateRequest req id) (s_db (get_sess n c)) r.
Proof.
  intros Hid Hne Hs Hnl Hp Hnrp Ha. rewrite (step_eq _ _ req rq Hp Hnrp). unfold step.
  (* the envelope is not empty, so there is fuel for the line inside *)
  assert (HL : exists L, String.length (rp_line id req) = S L) by (eexists; reflexivity).
  destruct HL as [L ->]. cbn [process]. rewrite rp_line_trim by exact Hnl. unfold rp_line.
  rewrite rp_roundtrip, Ha, Hp by assumption. cbn [negb].
  destruct rq; try reflexivity. exfalso. eapply Hnrp. reflexivity.
Qed.

(* a write as a client sends it: a [dop] without version and stamp *)
Inductive cop := CSet (k v : str) | CRem (k : str) | CInc (k : str) (i : Z).
Definition cop_line (w : cop) : str :=
  match w with CSet k v => set_line k v | CRem k => remove_line k | CInc k i => inc_line k i end.
Definition cop_rq (w : cop) : request :=
  match w with CSet k v => RqSet k v (-1) | CRem k => RqRemove k | CInc k i => RqIncrement k i end.
Definition cop_dop (w : cop) (opp : N) : dop :=
  match w with CSet k v => DSet k v (-1) opp | CRem k => DRemove k | CInc k i => DInc k i opp end.
Definition cop_ok (w : cop) : Prop :=
  match w with
  | CSet k v => simple_tok k /\ simple_tok v
  | CRem k => simple_tok k
  | CInc k i => simple_tok k /\ is_i32 i
  end.

Definition cop_guard (n : node) (c : nat) (w : cop) : guard :=
  match w with
  | CSet k _ => guard_safe n c k PWrite | CRem k => guard_safe n c k PRemove | CInc k _ => guard_safe n c k PIncrement
  end.

Lemma parse_cop w : cop_ok w -> parse_request (trim_char nl (cop_line w)) = POk (cop_rq w).
Proof.
  destruct w; cbn [cop_ok cop_line cop_rq].
  - intros [? ?]. now apply parse_set_line.
  - apply parse_remove_line.
  - intros [? ?]. now apply parse_inc_line.
Qed.

Lemma cop_rq_not_rp w r i : cop_rq w <> RqReplicateRequest r i.
Proof. destruct w; discriminate. Qed.
Lemma op_rq_not_rp dbn o r i : op_rq dbn o <> RqReplicateRequest r i.
Proof. destruct o; discriminate. Qed.

Lemma wire_cop w sel opp : wire (cop_rq w) sel = Some (op_req sel (cop_dop w opp)).
Proof. now destruct w. Qed.
Lemma wire_op dbn o sel : wire (op_rq dbn o) sel = Some (op_req dbn o).
Proof. now destruct o. Qed.

Lemma same_op_refl o : same_op o o.
Proof. destruct o; cbn; auto. Qed.
Lemma same_ops_refl l : same_ops l l.
Proof. induction l; constructor; auto using same_op_refl. Qed.
Lemma cop_dop_same w a b : same_op (cop_dop w a) (cop_dop w b).
Proof. destruct w; cbn; auto. Qed.

Lemma guard_safe_stop_frame n c key req n' r : guard_safe n c key req = GStop n' r ->
  frame n n' /\ n_dbs n' = n_dbs n /\ n_repl n' = n_repl n /\ n_clock n' = n_clock n /\
  resp_ok r = false /\ (forall a b c0, r <> RValue a b c0).
Proof.
  intros H. apply guard_safe_stop in H as [[-> ->]|[[-> ->]|[-> ->]]];
    (split; [apply frame_refl || apply frame_send|]); repeat split; auto; discriminate.
Qed.

Local Open Scope N_scope.

Lemma put_db_sends_frame n0 dbn d' msgs :
  let n1 := sends (put_db n0 dbn d') msgs in
  frame n0 n1 /\ n_repl n1 = n_repl n0 /\ n_clock n1 = n_clock n0 /\ get_db n1 dbn = Some d'.
Proof.
  cbv zeta. split; [eapply frame_trans; [apply frame_put_db|apply frame_sends]|].
  rewrite n_repl_sends, n_clock_sends, get_db_sends, get_db_put_same. auto.
Qed.

Lemma is_primary_frame n n' : frame n n' -> is_primary n' = is_primary n.
Proof. intros H. unfold is_primary. now rewrite (fr_role _ _ H). Qed.

Definition restamp (o : dop) (s : N) : dop :=
  match o with DSet k v ver _ => DSet k v ver s | DRemove k => DRemove k | DInc k i _ => DInc k i s end.

Lemma same_op_restamp o s : same_op o (restamp o s).
Proof. destruct o; cbn; auto. Qed.

(* a write applied to the node's own copy of database [dbn]: what the six write handlers share.  The
   stamp that [o] carries is not read (the node draws its own, see [restamp]); callers pass 0 *)
Definition local_apply (n : node) (dbn : str) (d : db) (o : dop) : node * resp :=
  match o with
  | DSet k v ver _ => set_key_value n dbn k v ver
  | DRemove k => let '(d', r, msgs) := remove_value d k in (sends (put_db n dbn d') msgs, r)
  | DInc k i _ =>
      let '(n1, id) := tick n in
      let '(d', r, msgs) := inc_value d k i id in (sends (put_db n1 dbn d') msgs, r)
  end.

Lemma refused_silent d o : resp_ok (dop_resp d o) = false -> dop_msgs d o = [].
Proof.
  destruct o as [k v ver opp | k | k i opp]; cbn [dop_msgs dop_resp].
  - unfold set_value. destruct (get_value d _); [destruct (_ && _)|]; cbn; auto; discriminate.
  - unfold remove_value. destruct (String.eqb k "$$token"); cbn; auto; discriminate.
  - unfold inc_value. destruct (parse_i32 _); [destruct (_ && _)|]; cbn; auto; discriminate.
Qed.

(* the node after drawing the stamp: a remove draws none *)
Definition after_stamp (n : node) (o : dop) : node := match o with DRemove _ => n | _ => fst (tick n) end.

Theorem local_apply_eq n dbn d o : get_db n dbn = Some d ->
  (forall k v ver s, o = DSet k v ver s -> d_strat d = SNone) ->
  let o' := restamp o (n_clock n) in
  local_apply n dbn d o = (sends (put_db (after_stamp n o) dbn (db_apply d o')) (dop_msgs d o'), dop_resp d o').
Proof.
  intros Hdb Hst. destruct o as [k v ver opp | k | k i opp]; cbn [local_apply restamp after_stamp db_apply dop_msgs dop_resp].
  - unfold set_key_value. cbn [tick fst]. rewrite (apply_change_none _ dbn d) by eauto.
    destruct (resp_ok _) eqn:E; [reflexivity|].
    pose proof (refused_changes_nothing d (DSet k v ver (n_clock n)) E) as E1.
    pose proof (refused_silent d (DSet k v ver (n_clock n)) E) as E2. cbn [db_apply dop_msgs] in E1, E2.
    rewrite E1, E2. cbn [sends fold_left]. now rewrite put_db_same.
  - now destruct (remove_value d k) as [[d' r] msgs].
  - cbn [tick fst]. now destruct (inc_value d k i (n_clock n)) as [[d' r] msgs].
Qed.

Lemma local_apply_spec n dbn d o : get_db n dbn = Some d ->
  (forall k v ver s, o = DSet k v ver s -> d_strat d = SNone) ->
  let o' := restamp o (n_clock n) in
  let res := local_apply n dbn d o in
  frame n (fst res) /\ n_repl (fst res) = n_repl n /\ (n_clock n <= n_clock (fst res) <= n_clock n + 1) /\
  dbs_updated n (fst res) dbn (db_apply d o') /\ snd res = dop_resp d o' /\
  forall c, no_watch d c -> get_sess (fst res) c = get_sess n c.
Proof.
  intros Hdb Hst. cbv zeta. rewrite (local_apply_eq n dbn d o Hdb Hst). cbn [fst snd].
  assert (frame n (after_stamp n o) /\ n_dbs (after_stamp n o) = n_dbs n /\ n_repl (after_stamp n o) = n_repl n /\
          n_clock n <= n_clock (after_stamp n o) <= n_clock n + 1 /\ forall c, get_sess (after_stamp n o) c = get_sess n c)
    as (F & D & R & C & S) by (destruct o; cbn; repeat split; auto using frame_refl, frame_set_clock; lia).
  split; [eapply frame_trans; [exact F|]; eapply frame_trans; [apply frame_put_db|apply frame_sends]|].
  rewrite n_repl_sends, n_clock_sends. split; [exact R|]. split; [exact C|].
  split; [unfold dbs_updated; rewrite n_dbs_sends; cbn; now rewrite D|]. split; [reflexivity|].
  intros c Hw. rewrite get_sess_sends_other, get_sess_put_db; [apply S|].
  apply Forall_forall, (dop_msgs_targets d (restamp o (n_clock n))), Hw.
Qed.

Lemma handle_cop_local n c w dbn d : is_primary n = true -> get_db n dbn = Some d -> d_strat d = SNone ->
  cop_guard n c w = GGo dbn d -> handle n c (cop_rq w) = local_apply n dbn d (cop_dop w 0).
Proof.
  intros Hp Hdb Hst Hg.
  destruct (local_apply_spec n dbn d (cop_dop w 0) Hdb) as (Hf & _); [auto|]. apply is_primary_frame in Hf.
  destruct w as [k v | k | k i]; cbn [cop_rq cop_dop cop_guard local_apply] in *.
  - rewrite handle_set_eq, Hg. destruct (set_key_value n dbn k v (-1)) as [n1 r]. cbn [fst] in Hf. now rewrite Hf, Hp.
  - rewrite handle_remove_eq, Hg. destruct (remove_value d k) as [[d' r] msgs]. cbn [fst] in Hf. cbv zeta.
    rewrite Hf, Hp. now destruct r.
  - now rewrite handle_increment_eq, Hg, Hp.
Qed.

Lemma handle_cop n c w dbn d :
  is_primary n = true -> s_db (get_sess n c) = Some dbn -> get_db n dbn = Some d -> d_strat d = SNone ->
  let res := handle n c (cop_rq w) in
  frame n (fst res) /\ n_repl (fst res) = n_repl n /\
  (n_clock n <= n_clock (fst res) <= n_clock n + 1) /\
  ((resp_ok (snd res) = false /\ (forall a b c0, snd res <> RValue a b c0) /\ get_db (fst res) dbn = Some d)
   \/ (exists opp, snd res = dop_resp d (cop_dop w opp) /\ get_db (fst res) dbn = Some (db_apply d (cop_dop w opp)))).
Proof.
  intros Hp Hs Hdb Hst. cbv zeta.
  destruct (cop_guard n c w) as [dbn' d' | n' r] eqn:Hg.
  - assert (dbn' = dbn /\ d' = d) as [-> ->].
    { assert (s_db (get_sess n c) = Some dbn' /\ get_db n dbn' = Some d') as [H1 H2]
        by (destruct w; eapply guard_safe_go; eauto).
      rewrite Hs in H1. injection H1 as <-. rewrite Hdb in H2. now injection H2 as <-. }
    rewrite (handle_cop_local n c w dbn d Hp Hdb Hst Hg).
    destruct (local_apply_spec n dbn d (cop_dop w 0) Hdb) as (Hf & Hr & Hc & Hu & Hres & _); [auto|].
    split; [exact Hf|]. split; [exact Hr|]. split; [exact Hc|]. right. exists (n_clock n).
    replace (cop_dop w (n_clock n)) with (restamp (cop_dop w 0) (n_clock n)) by now destruct w.
    split; [exact Hres|apply (dbs_updated_get _ _ _ _ Hu)].
  - assert (E : handle n c (cop_rq w) = (n', r)).
    { destruct w; cbn [cop_rq cop_guard] in *; [rewrite handle_set_eq|rewrite handle_remove_eq|rewrite handle_increment_eq]; now rewrite Hg. }
    assert (guard_safe n c (match w with CSet k _ | CRem k | CInc k _ => k end)
              (match w with CSet _ _ => PWrite | CRem _ => PRemove | CInc _ _ => PIncrement end) = GStop n' r) as Hg'
      by now destruct w.
    apply guard_safe_stop_frame in Hg' as (Hf & Hd & Hr & Hc & Hno & Hnv). rewrite E. cbn [fst snd].
    split; auto. split; auto. split; [lia|]. left. split; auto. split; auto. unfold get_db. now rewrite Hd.
Qed.

Lemma cop_wf w opp d : cop_ok w -> resp_ok (dop_resp d (cop_dop w opp)) = true -> op_wf (cop_dop w opp).
Proof.
  destruct w as [k v | k | k i]; cbn [cop_ok cop_dop op_wf].
  - intros [? ?] _. split; [|split]; auto. unfold is_i32; lia.
  - intros Hk Hr. split; auto. intros ->. cbn in Hr. discriminate.
  - intros [? ?] _. auto.
Qed.

Theorem primary_step n c w dbn d :
  cop_ok w -> is_primary n = true -> s_db (get_sess n c) = Some dbn -> get_db n dbn = Some d -> d_strat d = SNone ->
  let res := step n c (cop_line w) in
  frame n (fst res) /\ (n_clock n <= n_clock (fst res) <= n_clock n + 2) /\
  if resp_ok (snd res) then
    exists opp id, op_wf (cop_dop w opp) /\ resp_ok (dop_resp d (cop_dop w opp)) = true /\
      get_db (fst res) dbn = Some (db_apply d (cop_dop w opp)) /\
      n_repl (fst res) = n_repl n ++ [rp_line id (op_req dbn (cop_dop w opp))] /\
      n_clock n <= id < n_clock (fst res)
  else get_db (fst res) dbn = Some d /\ n_repl (fst res) = n_repl n.
Proof.
  intros Hok Hp Hs Hdb Hst. cbv zeta.
  rewrite (step_eq _ _ _ (cop_rq w)) by (auto using parse_cop, cop_rq_not_rp).
  rewrite Hs.
  pose proof (handle_cop n c w dbn d Hp Hs Hdb Hst) as H. cbv zeta in H.
  destruct (handle n c (cop_rq w)) as [n1 r]. cbn [fst snd] in H.
  destruct H as (Hf & Hrepl & Hclk & [(Hno & Hnv & Hdb1) | (opp & Hr & Hdb1)]).
  - rewrite rr_refused by assumption. cbn [fst snd]. rewrite Hno. split; auto. split; [lia|]. auto.
  - destruct (resp_ok r) eqn:Eok.
    + rewrite (rr_wired _ _ (Some dbn) _ _ Eok (wire_cop w dbn opp)) by (unfold has_db; now rewrite Hdb1).
      cbn [fst snd resp_ok]. split; [eapply frame_trans; [exact Hf|apply frame_replicate_web]|].
      rewrite n_clock_replicate_web. split; [lia|].
      exists opp, (n_clock n1). rewrite <- Hr.
      split; [apply (cop_wf w opp d); auto; now rewrite <- Hr|]. split; auto.
      split; [exact Hdb1|]. split; [rewrite n_repl_replicate_web, Hrepl; reflexivity|lia].
    + rewrite rr_refused by (auto; subst r; apply dop_resp_not_value). cbn [fst snd]. rewrite Eok.
      split; auto. split; [lia|]. split; auto.
      rewrite refused_changes_nothing in Hdb1 by (now rewrite <- Hr). exact Hdb1.
Qed.

(* a replicated write handled on the link's (authenticated) server-side session *)
Lemma handle_op_local n c dbn o d : s_auth (get_sess n c) = true -> get_db n dbn = Some d ->
  handle n c (op_rq dbn o) =
  (fst (local_apply n dbn d o), match o with DInc _ _ _ => ROk | _ => snd (local_apply n dbn d o) end).
Proof.
  intros Ha Hdb. destruct o as [k v ver opp | k | k i opp]; cbn [op_rq local_apply].
  - rewrite handle_replicate_set_eq, Ha, Hdb. cbn [negb]. now destruct (set_key_value n dbn k v ver).
  - rewrite handle_replicate_remove_eq, Ha, Hdb. cbn [negb]. now destruct (remove_value d k) as [[d' r] msgs].
  - rewrite handle_replicate_increment_eq, Ha, Hdb. cbn [negb]. unfold tick.
    now destruct (inc_value d k i (n_clock n)) as [[d' r] msgs].
Qed.

Lemma handle_op n c dbn o d :
  s_auth (get_sess n c) = true -> get_db n dbn = Some d -> d_strat d = SNone -> no_watch d c ->
  let res := handle n c (op_rq dbn o) in
  exists o', same_op o o' /\ frame n (fst res) /\ n_repl (fst res) = n_repl n /\
    (n_clock n <= n_clock (fst res) <= n_clock n + 1) /\
    get_db (fst res) dbn = Some (db_apply d o') /\ get_sess (fst res) c = get_sess n c /\
    snd res = (match o with DInc _ _ _ => ROk | _ => dop_resp d o' end).
Proof.
  intros Ha Hdb Hst Hw. cbv zeta. rewrite (handle_op_local n c dbn o d Ha Hdb).
  destruct (local_apply_spec n dbn d o Hdb) as (Hf & Hr & Hc & Hu & Hres & Hs); [auto|]. cbn [fst snd].
  exists (restamp o (n_clock n)). split; [apply same_op_restamp|]. split; [exact Hf|]. split; [exact Hr|].
  split; [exact Hc|]. split; [apply (dbs_updated_get _ _ _ _ Hu)|]. split; [now apply Hs|now rewrite Hres].
Qed.

(* the six handlers and the three convergence statements below are [local_apply_spec] read per constructor for
   Props: the replicated ones through [handle_op_local], the client ones through [handle_set_eq] /
   [handle_remove_eq] / [handle_increment_eq] *)
Theorem handle_replicate_set_effect n c dbn k v ver d :
  s_auth (get_sess n c) = true -> get_db n dbn = Some d -> d_strat d = SNone ->
  let ch := mkCh k v ver (n_clock n) false in
  let res := handle n c (RqReplicateSet dbn k v ver) in
  dbs_updated n (fst res) dbn (fst (fst (set_value d ch))) /\
  snd res = snd (fst (set_value d ch)) /\
  n_members (fst res) = n_members n /\ n_pending (fst res) = n_pending n.
Proof.
  intros Ha Hdb Hs. cbv zeta. rewrite (handle_op_local n c dbn (DSet k v ver 0) d Ha Hdb : handle n c (RqReplicateSet dbn k v ver) = _).
  destruct (local_apply_spec n dbn d (DSet k v ver 0) Hdb) as (Hf & _ & _ & Hu & Hr & _); [auto|].
  split; [exact Hu|]. split; [exact Hr|]. split; apply Hf.
Qed.

Theorem handle_replicate_remove_effect n c dbn k d :
  s_auth (get_sess n c) = true -> get_db n dbn = Some d ->
  let res := handle n c (RqReplicateRemove dbn k) in
  dbs_updated n (fst res) dbn (fst (fst (remove_value d k))) /\
  snd res = snd (fst (remove_value d k)) /\
  n_members (fst res) = n_members n /\ n_pending (fst res) = n_pending n.
Proof.
  intros Ha Hdb. cbv zeta. rewrite (handle_op_local n c dbn (DRemove k) d Ha Hdb : handle n c (RqReplicateRemove dbn k) = _).
  destruct (local_apply_spec n dbn d (DRemove k) Hdb) as (Hf & _ & _ & Hu & Hr & _); [discriminate|].
  split; [exact Hu|]. split; [exact Hr|]. split; apply Hf.
Qed.

Theorem handle_replicate_increment_effect n c dbn k i d :
  s_auth (get_sess n c) = true -> get_db n dbn = Some d ->
  let res := handle n c (RqReplicateIncrement dbn k i) in
  dbs_updated n (fst res) dbn (fst (fst (inc_value d k i (n_clock n)))) /\
  snd res = ROk /\
  n_members (fst res) = n_members n /\ n_pending (fst res) = n_pending n.
Proof.
  intros Ha Hdb. cbv zeta. rewrite (handle_op_local n c dbn (DInc k i 0) d Ha Hdb : handle n c (RqReplicateIncrement dbn k i) = _).
  destruct (local_apply_spec n dbn d (DInc k i 0) Hdb) as (Hf & _ & _ & Hu & _); [discriminate|].
  split; [exact Hu|]. split; [reflexivity|]. split; apply Hf.
Qed.

Theorem handle_set_effect n c k v ver dbn d :
  guard_safe n c k PWrite = GGo dbn d -> d_strat d = SNone ->
  let ch := mkCh k v ver (n_clock n) false in
  let res := handle n c (RqSet k v ver) in
  get_db n dbn = Some d /\
  dbs_updated n (fst res) dbn (fst (fst (set_value d ch))) /\
  snd res = snd (fst (set_value d ch)) /\
  (is_primary n = true -> n_members (fst res) = n_members n).
Proof.
  intros Hg Hs. cbv zeta. destruct (guard_safe_go _ _ _ _ _ _ Hg) as [_ Hdb]. rewrite handle_set_eq, Hg.
  destruct (local_apply_spec n dbn d (DSet k v ver 0) Hdb) as (Hf & _ & _ & Hu & Hr & _); [auto|].
  cbn [local_apply] in *. destruct (set_key_value n dbn k v ver) as [n1 r]. cbn [fst snd] in *.
  rewrite (is_primary_frame _ _ Hf). split; [exact Hdb|]. destruct (is_primary n); cbn [fst snd].
  - split; [exact Hu|]. split; [exact Hr|]. intros _. apply Hf.
  - split; [exact Hu|]. split; [exact Hr|]. discriminate.
Qed.

Theorem handle_remove_effect n c k dbn d :
  guard_safe n c k PRemove = GGo dbn d ->
  let res := handle n c (RqRemove k) in
  get_db n dbn = Some d /\
  dbs_updated n (fst res) dbn (fst (fst (remove_value d k))) /\
  snd res = snd (fst (remove_value d k)) /\
  (is_primary n = true -> n_members (fst res) = n_members n).
Proof.
  intros Hg. cbv zeta. destruct (guard_safe_go _ _ _ _ _ _ Hg) as [_ Hdb]. rewrite handle_remove_eq, Hg.
  destruct (local_apply_spec n dbn d (DRemove k) Hdb) as (Hf & _ & _ & Hu & Hr & _); [discriminate|].
  cbn [local_apply restamp db_apply dop_resp] in *. destruct (remove_value d k) as [[d' r] msgs]. cbn [fst snd] in *. cbv zeta.
  rewrite (is_primary_frame _ _ Hf). split; [exact Hdb|]. destruct r; cbn [fst snd]; try (repeat split; auto; intros _; apply Hf).
  destruct (is_primary n); cbn [fst snd].
  - split; [exact Hu|]. split; [reflexivity|]. intros _. apply Hf.
  - split; [exact Hu|]. split; [reflexivity|]. discriminate.
Qed.

Theorem handle_increment_effect n c k i dbn d :
  is_primary n = true -> guard_safe n c k PIncrement = GGo dbn d ->
  let res := handle n c (RqIncrement k i) in
  get_db n dbn = Some d /\
  dbs_updated n (fst res) dbn (fst (fst (inc_value d k i (n_clock n)))) /\
  snd res = snd (fst (inc_value d k i (n_clock n))) /\
  n_members (fst res) = n_members n.
Proof.
  intros Hp Hg. cbv zeta. destruct (guard_safe_go _ _ _ _ _ _ Hg) as [_ Hdb]. rewrite handle_increment_eq, Hg, Hp.
  destruct (local_apply_spec n dbn d (DInc k i 0) Hdb) as (Hf & _ & _ & Hu & Hr & _); [discriminate|].
  split; [exact Hdb|]. split; [exact Hu|]. split; [exact Hr|apply Hf].
Qed.

(* one live step at the primary and its replay at a secondary keep the databases related *)
Theorem live_set_converges n1 c1 n2 c2 k v ver dbn d1 d2 :
  guard_safe n1 c1 k PWrite = GGo dbn d1 -> d_strat d1 = SNone ->
  s_auth (get_sess n2 c2) = true -> get_db n2 dbn = Some d2 -> d_strat d2 = SNone ->
  dbrel d1 d2 ->
  exists d1' d2',
    get_db (fst (handle n1 c1 (RqSet k v ver))) dbn = Some d1' /\
    get_db (fst (handle n2 c2 (RqReplicateSet dbn k v ver))) dbn = Some d2' /\
    dbrel d1' d2' /\
    resp_rel (snd (handle n1 c1 (RqSet k v ver))) (snd (handle n2 c2 (RqReplicateSet dbn k v ver))).
Proof.
  intros Hg Hs1 Ha Hdb2 Hs2 Hrel.
  destruct (handle_set_effect n1 c1 k v ver dbn d1 Hg Hs1) as (_ & U1 & R1 & _).
  destruct (handle_replicate_set_effect n2 c2 dbn k v ver d2 Ha Hdb2 Hs2) as (U2 & R2 & _).
  apply dbs_updated_get in U1 as [G1 _]. apply dbs_updated_get in U2 as [G2 _].
  eexists _, _. split; [exact G1|]. split; [exact G2|]. rewrite R1, R2.
  apply set_value_rel; auto. unfold ch_same; cbn; auto.
Qed.

Theorem live_remove_converges n1 c1 n2 c2 k dbn d1 d2 :
  guard_safe n1 c1 k PRemove = GGo dbn d1 ->
  s_auth (get_sess n2 c2) = true -> get_db n2 dbn = Some d2 ->
  dbrel d1 d2 ->
  exists d1' d2',
    get_db (fst (handle n1 c1 (RqRemove k))) dbn = Some d1' /\
    get_db (fst (handle n2 c2 (RqReplicateRemove dbn k))) dbn = Some d2' /\
    dbrel d1' d2' /\
    resp_rel (snd (handle n1 c1 (RqRemove k))) (snd (handle n2 c2 (RqReplicateRemove dbn k))).
Proof.
  intros Hg Ha Hdb2 Hrel.
  destruct (handle_remove_effect n1 c1 k dbn d1 Hg) as (_ & U1 & R1 & _).
  destruct (handle_replicate_remove_effect n2 c2 dbn k d2 Ha Hdb2) as (U2 & R2 & _).
  apply dbs_updated_get in U1 as [G1 _]. apply dbs_updated_get in U2 as [G2 _].
  eexists _, _. split; [exact G1|]. split; [exact G2|]. rewrite R1, R2.
  now apply remove_value_rel.
Qed.

Theorem live_increment_converges n1 c1 n2 c2 k i dbn d1 d2 :
  is_primary n1 = true -> guard_safe n1 c1 k PIncrement = GGo dbn d1 ->
  s_auth (get_sess n2 c2) = true -> get_db n2 dbn = Some d2 ->
  dbrel d1 d2 ->
  exists d1' d2',
    get_db (fst (handle n1 c1 (RqIncrement k i))) dbn = Some d1' /\
    get_db (fst (handle n2 c2 (RqReplicateIncrement dbn k i))) dbn = Some d2' /\
    dbrel d1' d2'.
Proof.
  intros Hp Hg Ha Hdb2 Hrel.
  destruct (handle_increment_effect n1 c1 k i dbn d1 Hp Hg) as (_ & U1 & _).
  destruct (handle_replicate_increment_effect n2 c2 dbn k i d2 Ha Hdb2) as (U2 & _).
  apply dbs_updated_get in U1 as [G1 _]. apply dbs_updated_get in U2 as [G2 _].
  eexists _, _. split; [exact G1|]. split; [exact G2|].
  now apply inc_value_rel.
Qed.

Lemma op_resp_not_error d o o' msg : op_wf o -> same_op o o' ->
  (match o with DInc _ _ _ => ROk | _ => dop_resp d o' end) <> RError msg.
Proof.
  destruct o as [k v ver opp | k | k i opp], o' as [k' v' ver' opp' | k' | k' i' opp']; cbn [same_op]; try tauto;
    try discriminate.
  - intros _ _. cbn [dop_resp].
    destruct (set_value_cases d (mkCh k' v' ver' opp' false)) as [(d1 & m & E)|(old & _ & E)]; rewrite E; discriminate.
  - intros [_ Hk] <- E. apply Hk, (refused_remove_is_token d). now rewrite E.
Qed.

Lemma ack_msg_eq id addr : "ack " +++ N_to_str id +++ " " +++ addr +++ " " +++ nlS = ack_text id addr +++ " " +++ nlS.
Proof. unfold ack_text. now rewrite !app_assoc_s. Qed.

Theorem secondary_step n sv dbn d id o :
  simple_tok dbn -> op_wf o -> id < 2 ^ 64 ->
  s_auth (get_sess n sv) = true -> s_db (get_sess n sv) = None -> s_inbox (get_sess n sv) = [] ->
  get_db n dbn = Some d -> d_strat d = SNone -> no_watch d sv ->
  let res := step n sv (rp_line id (op_req dbn o)) in
  exists o', same_op o o' /\ frame n (fst res) /\ (n_clock n <= n_clock (fst res) <= n_clock n + 2) /\
    get_db (fst res) dbn = Some (db_apply d o') /\
    s_inbox (get_sess (fst res) sv) = [ack_text id (n_addr n) +++ " " +++ nlS] /\
    (forall msg, snd res <> RError msg).
Proof.
  intros Hd Ho Hid Ha Hsd Hin Hdb Hst Hw. cbv zeta.
  assert (Hp : parse_request (trim_char nl (op_req dbn o)) = POk (op_rq dbn o))
    by (rewrite op_req_trim by auto; now apply op_req_parse).
  rewrite (step_rp _ _ _ _ (op_rq dbn o) Hid (op_req_ne dbn o)) by auto using op_req_semi, no_nl_op_req, op_rq_not_rp.
  rewrite ack_msg_eq.
  set (n0 := send n sv (ack_text id (n_addr n) +++ " " +++ nlS)).
  assert (Hf0 : frame n n0) by apply frame_send.
  assert (Hs0 : get_sess n0 sv = sess_push (get_sess n sv) (ack_text id (n_addr n) +++ " " +++ nlS)).
  { apply get_sess_send_same. now apply auth_in_range. }
  assert (Ha0 : s_auth (get_sess n0 sv) = true) by (rewrite Hs0; exact Ha).
  assert (Hsd0 : s_db (get_sess n0 sv) = None) by (rewrite Hs0; exact Hsd).
  rewrite (step_eq _ _ _ _ Hp) by auto using op_rq_not_rp. rewrite Hsd0, Hsd.
  destruct (handle_op n0 sv dbn o d Ha0 Hdb Hst Hw) as (o' & Hso & Hf1 & Hr1 & Hc1 & Hd1 & Hs1 & Hresp).
  destruct (handle n0 sv (op_rq dbn o)) as [n1 r]. cbn [fst snd] in *.
  exists o'. split; auto.
  assert (Hne : forall msg, r <> RError msg) by (intros msg; rewrite Hresp; now apply op_resp_not_error).
  assert (Hin1 : s_inbox (get_sess n1 sv) = [ack_text id (n_addr n) +++ " " +++ nlS]).
  { rewrite Hs1, Hs0. cbn [sess_push s_inbox]. now rewrite Hin. }
  destruct (resp_ok r) eqn:Eok.
  - rewrite (rr_wired _ _ None _ _ Eok (wire_op dbn o "") I), rr_rp_none. cbn [fst snd].
    split; [eapply frame_trans; [exact Hf0|eapply frame_trans; [exact Hf1|apply frame_replicate_web]]|].
    rewrite n_clock_replicate_web. split; [change (n_clock n0) with (n_clock n) in Hc1; lia|].
    split; [exact Hd1|]. split; [exact Hin1|discriminate].
  - rewrite rr_refused; [|assumption|].
    2:{ intros a b c0. rewrite Hresp. destruct o; try discriminate; apply dop_resp_not_value. }
    rewrite rr_rp_none. cbn [fst snd].
    split; [eapply frame_trans; eauto|]. split; [change (n_clock n0) with (n_clock n) in Hc1; lia|].
    split; [exact Hd1|]. split; [exact Hin1|exact Hne].
Qed.

(* the node part of [deliver_raw] for one replicated line: the operation is applied to database
   [dbn] (with the secondary's own op stamp) and the lines sent back are "ack <id> <S>" and "ok" *)
Lemma line_delivered n sv dbn d id o :
  simple_tok dbn -> simple_tok (n_addr n) -> op_wf o -> id < 2 ^ 64 ->
  s_auth (get_sess n sv) = true -> s_db (get_sess n sv) = None -> s_inbox (get_sess n sv) = [] ->
  get_db n dbn = Some d -> d_strat d = SNone -> no_watch d sv ->
  let '(n1, r) := step n sv (rp_line id (op_req dbn o)) in
  let status := match r with RError msg => "error " +++ msg +++ " " +++ nlS | _ => "ok " +++ nlS end in
  let '(n3, inbox) := drain (send n1 sv status) sv in
  exists o', same_op o o' /\ frame n n3 /\ n_clock n <= n_clock n3 <= n_clock n + 2 /\
    get_db n3 dbn = Some (db_apply d o') /\ s_inbox (get_sess n3 sv) = [] /\
    split_lines inbox = [ack_text id (n_addr n); "ok"].
Proof.
  intros Hd Ha Ho Hid Hau Hsd Hin Hdb Hst Hw.
  destruct (secondary_step n sv dbn d id o Hd Ho Hid Hau Hsd Hin Hdb Hst Hw) as (o' & Hso & Hf & Hclk & Hdb1 & Hin1 & Hne).
  destruct (step n sv (rp_line id (op_req dbn o))) as [n1 r]. cbn [fst snd] in *.
  replace (match r with RError msg => _ | _ => "ok " +++ nlS end) with ("ok " +++ nlS)
    by (destruct r; auto; exfalso; eapply Hne; reflexivity).
  cbv zeta. unfold drain.
  assert (Hr : (sv < length (n_sess n1))%nat) by (rewrite (fr_len _ _ Hf); now apply auth_in_range).
  exists o'. split; [exact Hso|]. split; [|split; [exact Hclk|split; [exact Hdb1|split]]].
  - eapply frame_trans; [exact Hf|]. eapply frame_trans; [apply frame_send|apply (frame_drain _ sv)].
  - rewrite get_sess_put_sess, Nat.eqb_refl, sess_len_send. apply Nat.ltb_lt in Hr. now rewrite Hr.
  - rewrite get_sess_send_same by exact Hr. cbn [sess_push s_inbox]. rewrite Hin1. now apply split_lines_ack.
Qed.

(* [ids_from b l hi]: the ids of [l] increase, the first is at least [b], and the next free id is at most [hi];
   [pend_below p b]: every id pending in [p] is below [b] *)
Fixpoint ids_from (b : N) (l : list N) (hi : N) : Prop :=
  match l with [] => b <= hi | i :: r => b <= i /\ ids_from (i + 1) r hi end.
Definition pend_below (p : pstate) (b : N) : Prop := forall id, is_pending p id = true -> id < b.

Lemma ids_from_le l : forall b hi, ids_from b l hi -> b <= hi.
Proof. induction l as [|i l IH]; cbn; intros b hi H; auto. destruct H as [H1 H2]. apply IH in H2. lia. Qed.
Lemma ids_from_mono_hi l : forall b hi hi', hi <= hi' -> ids_from b l hi -> ids_from b l hi'.
Proof. induction l as [|i l IH]; cbn; intros b hi hi' Hle H; [lia|]. destruct H; split; eauto. Qed.
Lemma ids_from_snoc l : forall b hi i, ids_from b l hi -> hi <= i -> ids_from b (l ++ [i]) (i + 1).
Proof.
  induction l as [|j l IH]; cbn; intros b hi i H Hle.
  - split; lia.
  - destruct H; split; eauto.
Qed.
Lemma ids_from_lt l : forall b hi, ids_from b l hi -> Forall (fun i => i < hi) l.
Proof.
  induction l as [|i l IH]; cbn; intros b hi H; constructor.
  - destruct H as [_ H]. apply ids_from_le in H. lia.
  - destruct H as [_ H]. eauto.
Qed.

Lemma pend_below_mono p b b' : b <= b' -> pend_below p b -> pend_below p b'.
Proof. intros Hle H id Hi. specialize (H id Hi). lia. Qed.

Lemma pend_below_reg_all ts id req : forall p, pend_below p (id + 1) ->
  pend_below (fold_left (fun p m => fst (register p id req m)) ts p) (id + 1).
Proof.
  induction ts as [|m ts IH]; cbn [fold_left]; intros p H; auto.
  apply IH. intros id' Hi. apply is_pending_register in Hi as [->|Hi]; [lia|auto].
Qed.

Lemma is_nosender_snoc q id req : is_nosender q = false -> is_nosender (q ++ [rp_line id req]) = false.
Proof. destruct q; cbn [app is_nosender]; auto. Qed.

Lemma repl_one_clients x msg : cn_clients (repl_one x msg) = cn_clients x.
Proof.
  destruct (repl_one_cases x msg) as [->|(rq & id & [->|(_ & i & req & all & ->)])]; auto; apply repl_oplog_frame.
Qed.

(* the "rp <id> <req>" lines of a list of (op id, operation): how queue, outboxes and link queues are
   written in [PInvW] / [SInvW] *)
Definition lines (dbn : str) (l : list (N * dop)) : list str :=
  map (fun io => rp_line (fst io) (op_req dbn (snd io))) l.

Lemma is_nosender_lines dbn l : is_nosender (lines dbn l) = false.
Proof. destruct l; reflexivity. Qed.

(* what [repl_one] at a primary leaves unchanged ([fs_keys]: the member names, not the outboxes) *)
Record fan_same (n n' : node) : Prop := mkFanSame {
  fs_dbs : n_dbs n' = n_dbs n; fs_sess : n_sess n' = n_sess n; fs_role : n_role n' = n_role n;
  fs_clock : n_clock n' = n_clock n; fs_addr : n_addr n' = n_addr n; fs_repl : n_repl n' = n_repl n;
  fs_sup : n_sup n' = n_sup n; fs_keys : map fst (n_members n') = map fst (n_members n) }.

Lemma fan_same_refl n : fan_same n n.
Proof. constructor; auto. Qed.
Lemma fan_same_trans a b c : fan_same a b -> fan_same b c -> fan_same a c.
Proof. intros [] []. constructor; congruence. Qed.

Lemma repl_one_fan x id req rq b :
  id < 2 ^ 64 -> req <> "" -> no_semi_end req -> parse_request req = POk rq ->
  snd (repl_oplog x rq id) <> None ->
  cn_dead x = false -> n_role (cn_node x) = Primary -> NoDup (map fst (n_members (cn_node x))) ->
  pend_below (n_pending (cn_node x)) b -> b <= id ->
  let x' := repl_one x (rp_line id req) in
  cn_dead x' = false /\ cn_clients x' = cn_clients x /\ fan_same (cn_node x) (cn_node x') /\
  cn_node x' = fan_out (cn_node x) id req false /\
  pend_below (n_pending (cn_node x')) (id + 1) /\
  (forall nm q, assoc_get String.eqb nm (n_members (cn_node x)) = Some (Secondary, q) ->
     nm <> n_addr (cn_node x) -> is_nosender q = false ->
     assoc_get String.eqb nm (n_members (cn_node x')) = Some (Secondary, q ++ [rp_line id req])).
Proof.
  intros Hid Hne Hsemi Hparse Hoid Hdead Hrole Hnd Hpb Hle. cbv zeta.
  destruct (leader_repl_one x id req rq) as [Hn Hdd]; auto.
  { rewrite Hrole. discriminate. }
  change ("rp " +++ N_to_str id +++ " " +++ req) with (rp_line id req) in *.
  split; auto. split; [apply repl_one_clients|].
  rewrite Hn, Hrole. cbn [fan_all].
  pose proof (fan_out_spec (cn_node x) id req false Hnd) as H. cbv zeta in H.
  destruct H as (Hout & Hkeys & Hpend & _ & H1 & H2 & H3 & H4 & H5 & H6 & H7 & _).
  split; [constructor; auto|]. split; [reflexivity|].
  assert (Hnp : reg_text (n_pending (cn_node x)) id req = req).
  { unfold reg_text. destruct (assoc_get N.eqb id (n_pending (cn_node x))) eqn:E; auto.
    assert (Hlt : id < b) by (apply Hpb; unfold is_pending; now rewrite E). lia. }
  split.
  - rewrite Hpend. apply pend_below_reg_all. eapply pend_below_mono; [|exact Hpb]. lia.
  - intros nm q Hg Hnm Hns. specialize (Hout nm). rewrite Hg in Hout. rewrite Hout.
    rewrite Hnp, rp_line_mtr.
    apply String.eqb_neq in Hnm. rewrite Hnm, Hns. reflexivity.
Qed.

Lemma primary_repl_fold dbn d : simple_tok dbn -> forall rq x b hi,
  cn_dead x = false -> n_role (cn_node x) = Primary -> NoDup (map fst (n_members (cn_node x))) ->
  get_db (cn_node x) dbn = Some d -> pend_below (n_pending (cn_node x)) b ->
  ids_from b (map fst rq) hi -> Forall (fun i => i < 2 ^ 64) (map fst rq) -> Forall op_wf (map snd rq) ->
  let x' := fold_left repl_one (lines dbn rq) x in
  cn_dead x' = false /\ cn_clients x' = cn_clients x /\ fan_same (cn_node x) (cn_node x') /\
  cn_node x' = fold_left (fun n io => fan_out n (fst io) (op_req dbn (snd io)) false) rq (cn_node x) /\
  (exists b', pend_below (n_pending (cn_node x')) b' /\ b' <= hi) /\
  (forall nm q, assoc_get String.eqb nm (n_members (cn_node x)) = Some (Secondary, q) ->
     nm <> n_addr (cn_node x) -> is_nosender q = false ->
     assoc_get String.eqb nm (n_members (cn_node x')) = Some (Secondary, q ++ lines dbn rq)).
Proof.
  intros Hd. induction rq as [|[id o] rq IH]; intros x b hi Hdead Hrole Hnd Hdb Hpb Hids Hhi Hwf; cbv zeta.
  - cbn [lines map fold_left]. split; auto. split; auto. split; [apply fan_same_refl|]. split; [reflexivity|].
    split; [exists b; split; auto|].
    intros nm q Hg _ _. now rewrite app_nil_r.
  - cbn [lines map fold_left fst snd] in *. destruct Hids as [Hle Hids]. inversion Hwf as [|? ? Ho Hwf']; subst.
    inversion Hhi as [|? ? Hid Hhi']; subst.
    destruct (repl_one_fan x id (op_req dbn o) (op_rq dbn o) b) as (A1 & A2 & A3 & A7 & A4 & A5);
      auto using op_req_ne, op_req_semi, op_req_parse.
    { destruct o; cbn [op_rq repl_oplog]; destruct (key_id x k); unfold db_id_of; rewrite Hdb; cbn; discriminate. }
    set (x1 := repl_one x (rp_line id (op_req dbn o))) in *.
    assert (Hnd1 : NoDup (map fst (n_members (cn_node x1)))) by (rewrite (fs_keys _ _ A3); exact Hnd).
    assert (Hdb1 : get_db (cn_node x1) dbn = Some d) by (unfold get_db; rewrite (fs_dbs _ _ A3); exact Hdb).
    assert (Hrole1 : n_role (cn_node x1) = Primary) by (rewrite (fs_role _ _ A3); exact Hrole).
    specialize (IH x1 (id + 1) hi A1 Hrole1 Hnd1 Hdb1 A4 Hids Hhi' Hwf'). cbv zeta in IH.
    destruct IH as (B1 & B2 & B3 & B7 & B4 & B5).
    split; auto. split; [exact (eq_trans B2 A2)|]. split; [exact (fan_same_trans _ _ _ A3 B3)|].
    split; [rewrite <- A7; exact B7|]. split; [exact B4|].
    intros nm q Hg Hne Hns. fold (lines dbn rq).
    rewrite (B5 nm (q ++ [rp_line id (op_req dbn o)])).
    + now rewrite <- app_assoc.
    + now apply A5.
    + rewrite (fs_addr _ _ A3). exact Hne.
    + now apply is_nosender_snoc.
Qed.

Lemma reply_step n rd ln id nm : parse_request (trim_char nl ln) = POk (RqAcknowledge id nm) ->
  fst (step n rd ln) =
  if s_auth (get_sess n rd) then n_set_pending n (fst (acknowledge (n_pending n) id nm)) else n.
Proof.
  intros Hp. rewrite (step_eq _ _ _ _ Hp) by discriminate.
  rewrite handle_acknowledge_eq. destruct (s_auth (get_sess n rd)); cbn [negb]; now apply rr_unwired.
Qed.

(* the clock [sync_clocks] gives every node, and a node set to it *)
Definition maxclock (c : cluster) : N :=
  fold_left (fun a kv => N.max a (n_clock (cn_node (snd kv)))) (c_nodes c) 0.
Definition reclock (mx : N) (x : cnode) : cnode := cn_set_node x (n_set_clock (cn_node x) mx).

Lemma get_cn_sync c nm : get_cn (sync_clocks c) nm =
  match get_cn c nm with Some x => Some (reclock (maxclock c) x) | None => None end.
Proof. unfold get_cn, sync_clocks. cbn [c_nodes]. apply (get_map_snd _ String.eqb_spec (reclock (maxclock c))). Qed.

Definition cl_bound (c : cluster) (B : N) : Prop :=
  forall p, In p (c_nodes c) -> n_clock (cn_node (snd p)) <= B.

Lemma fold_max_ge (l : list (str * cnode)) : forall a,
  a <= fold_left (fun a kv => N.max a (n_clock (cn_node (snd kv)))) l a /\
  forall p, In p l -> n_clock (cn_node (snd p)) <= fold_left (fun a kv => N.max a (n_clock (cn_node (snd kv)))) l a.
Proof.
  induction l as [|q l IH]; cbn [fold_left]; intros a; [split; [lia|intros p []]|].
  destruct (IH (N.max a (n_clock (cn_node (snd q))))) as [H1 H2]. split; [lia|].
  intros p [->|Hin]; [lia|auto].
Qed.
Lemma fold_max_le (l : list (str * cnode)) B : forall a, a <= B ->
  (forall p, In p l -> n_clock (cn_node (snd p)) <= B) ->
  fold_left (fun a kv => N.max a (n_clock (cn_node (snd kv)))) l a <= B.
Proof.
  induction l as [|q l IH]; cbn [fold_left]; intros a Ha H; auto.
  apply IH; [|intros p Hp; apply H; now right]. specialize (H q (or_introl eq_refl)). lia.
Qed.

Lemma maxclock_ge c nm x : get_cn c nm = Some x -> n_clock (cn_node x) <= maxclock c.
Proof.
  intros H. apply str_get_in in H.
  destruct (fold_max_ge (c_nodes c) 0) as [_ H2]. apply (H2 (nm, x) H).
Qed.
Lemma maxclock_le c B : cl_bound c B -> maxclock c <= B.
Proof. intros H. apply fold_max_le; [lia|exact H]. Qed.

Lemma cl_bound_mono c B B' : B <= B' -> cl_bound c B -> cl_bound c B'.
Proof. intros Hle H p Hp. specialize (H p Hp). lia. Qed.
Lemma cl_bound_sync c B : cl_bound c B -> cl_bound (sync_clocks c) B.
Proof.
  intros H p Hp. unfold sync_clocks in Hp. cbn [c_nodes] in Hp. apply in_map_iff in Hp as (q & <- & Hq).
  cbn. now apply maxclock_le.
Qed.
Lemma cl_bound_set c B nm x links cross : cl_bound c B -> n_clock (cn_node x) <= B ->
  cl_bound (mkCl (assoc_set String.eqb nm x (c_nodes c)) links cross) B.
Proof. intros H Hx p Hp. cbn [c_nodes] in Hp. apply (in_set _ String.eqb_spec) in Hp as [->|Hp]; auto. Qed.

(* the pieces of [flush_outboxes] under names; [flush_eq] ties them to the Model by computation *)
Definition clean_members (n : node) : node :=
  n_set_members n (map (fun m => (fst m, (fst (snd m), if is_nosender (snd (snd m)) then [nosender] else []))) (n_members n)).
Definition link_app (l : link) (q : list str) : link :=
  mkLink (l_from l) (l_to l) (l_hs l) (l_q l ++ q) (l_server l) (l_reader l) (l_replies l) (l_open l) (l_sent l) (l_back l).
Definition flush_link (name : str) (n : node) (l : link) : link :=
  if l_open l && String.eqb (l_from l) name then
    match assoc_get String.eqb (l_to l) (n_members n) with
    | Some (_, q) => if is_nosender q then l else link_app l q
    | None => l
    end
  else l.

Lemma link_app_nil l : link_app l [] = l.
Proof. destruct l. unfold link_app. cbn. now rewrite app_nil_r. Qed.

Lemma flush_eq c name x : get_cn c name = Some x ->
  flush_outboxes c name =
  mkCl (assoc_set String.eqb name (cn_set_node x (clean_members (cn_node x))) (c_nodes c))
       (map (flush_link name (cn_node x)) (c_links c)) (c_cross c).
Proof. intros H. unfold flush_outboxes. rewrite H. reflexivity. Qed.

Lemma flush_get_same c name x : get_cn c name = Some x ->
  get_cn (flush_outboxes c name) name = Some (cn_set_node x (clean_members (cn_node x))).
Proof. intros H. rewrite (flush_eq _ _ _ H). unfold get_cn. cbn [c_nodes]. apply str_get_set_same. Qed.
Lemma flush_get_other c name x nm : get_cn c name = Some x -> nm <> name ->
  get_cn (flush_outboxes c name) nm = get_cn c nm.
Proof.
  intros H Hne. rewrite (flush_eq _ _ _ H). unfold get_cn. cbn [c_nodes].
  now apply str_get_set_other.
Qed.
Lemma flush_links c name x i : get_cn c name = Some x ->
  nth_error (c_links (flush_outboxes c name)) i =
  match nth_error (c_links c) i with Some l => Some (flush_link name (cn_node x) l) | None => None end.
Proof.
  intros H. rewrite (flush_eq _ _ _ H). cbn [c_links]. rewrite nth_error_map.
  destruct (nth_error (c_links c) i); reflexivity.
Qed.
Lemma cl_bound_flush c name B : cl_bound c B -> cl_bound (flush_outboxes c name) B.
Proof.
  intros H. destruct (get_cn c name) as [x|] eqn:E.
  - rewrite (flush_eq _ _ _ E). apply cl_bound_set; auto.
    cbn. apply str_get_in in E. apply (H (name, x) E).
  - unfold flush_outboxes. now rewrite E.
Qed.

Lemma flush_link_other name n l : l_from l <> name -> flush_link name n l = l.
Proof. intros H. unfold flush_link. apply String.eqb_neq in H. rewrite H, andb_false_r. reflexivity. Qed.

Lemma flush_link_from name n l r q : l_open l = true -> l_from l = name ->
  assoc_get String.eqb (l_to l) (n_members n) = Some (r, q) -> is_nosender q = false ->
  flush_link name n l = link_app l q.
Proof.
  intros Ho Hf Hg Hn. unfold flush_link. rewrite Ho, Hf, String.eqb_refl, Hg, Hn. reflexivity.
Qed.

Lemma clean_get n nm r q : assoc_get String.eqb nm (n_members n) = Some (r, q) -> is_nosender q = false ->
  assoc_get String.eqb nm (n_members (clean_members n)) = Some (r, []).
Proof.
  intros Hg Hn. unfold clean_members. cbn [n_members n_set_members].
  rewrite (get_map_snd _ String.eqb_spec (fun v : role * list str => (fst v, if is_nosender (snd v) then [nosender] else []))).
  rewrite Hg. cbn [fst snd]. now rewrite Hn.
Qed.
Lemma clean_keys n : map fst (n_members (clean_members n)) = map fst (n_members n).
Proof. unfold clean_members. cbn [n_members n_set_members]. rewrite map_map. reflexivity. Qed.

Lemma cross_flush c nm : c_cross (flush_outboxes c nm) = c_cross c.
Proof. unfold flush_outboxes. destruct (get_cn c nm); reflexivity. Qed.

Lemma deliver_raw_none c i l : nth_error (c_links c) i = Some l -> l_hs l = [] -> l_q l = [] ->
  deliver_raw c i = None.
Proof. intros H1 H2 H3. unfold deliver_raw. rewrite H1, H2, H3. destruct (negb (l_open l)); reflexivity. Qed.

Lemma deliver_raw_eq c i l m q x : nth_error (c_links c) i = Some l -> l_open l = true -> l_hs l = [] ->
  l_q l = m :: q -> get_cn c (l_to l) = Some x ->
  deliver_raw c i =
  let '(n1, r) := step (cn_node x) (l_server l) m in
  let status := match r with RError msg => "error " +++ msg +++ " " +++ nlS | _ => "ok " +++ nlS end in
  let '(n3, inbox) := drain (send n1 (l_server l) status) (l_server l) in
  Some (flush_outboxes
          (mkCl (c_nodes (put_cn c (l_to l) (cn_set_node x n3)))
                (list_update (c_links c) i
                   (mkLink (l_from l) (l_to l) [] q (l_server l) (l_reader l) (l_replies l ++ split_lines inbox)
                           true (l_sent l + 1) (l_back l)))
                (c_cross c + 1)) (l_to l)).
Proof. intros H1 H2 H3 H4 H5. unfold deliver_raw. rewrite H1, H2, H3, H4, H5. reflexivity. Qed.

(* the link after its oldest reply line was taken *)
Definition link_replied (l : link) (rest : list str) (back : N) : link :=
  mkLink (l_from l) (l_to l) (l_hs l) (l_q l) (l_server l) (l_reader l) rest (l_open l) (l_sent l) back.

Lemma reply_raw_none c i l : nth_error (c_links c) i = Some l -> l_replies l = [] -> reply_raw c i = None.
Proof. intros H1 H2. unfold reply_raw. now rewrite H1, H2. Qed.

Lemma reply_raw_eq c i l ln rest x : nth_error (c_links c) i = Some l -> l_replies l = ln :: rest ->
  get_cn c (l_from l) = Some x ->
  reply_raw c i = Some
    (if String.eqb ln "ok" then set_link c i (link_replied l rest (l_back l))
     else flush_outboxes
            (mkCl (c_nodes (put_cn c (l_from l)
                              (cn_set_node x (fst (drain (fst (step (cn_node x) (l_reader l) ln)) (l_reader l))))))
                  (list_update (c_links c) i (link_replied l rest (l_back l + 1))) (c_cross c + 1)) (l_from l)).
Proof.
  intros H1 H2 H3. unfold reply_raw. rewrite H1, H2, H3. destruct (String.eqb ln "ok"); [reflexivity|].
  destruct (step (cn_node x) (l_reader l) ln) as [n1 r]. reflexivity.
Qed.

(* the events of a schedule; [EvDeliver S] / [EvReply S] act on the link P -> S, [EvPollS S] on the replication
   thread of S (P, S, the link: the Section variables below) *)
Inductive cev :=
| EvSet (k v : str) | EvRemove (k : str) | EvInc (k : str) (i : Z)
| EvPollRepl | EvDeliver (S : str) | EvReply (S : str) | EvPollS (S : str).

Definition opt_or (c : cluster) (o : option cluster) : cluster := match o with Some c' => c' | None => c end.

(* a reply line that does nothing at the primary but acknowledge *)
Definition harmless (ln : str) : Prop :=
  ln = "ok" \/ exists id nm, parse_request (trim_char nl ln) = POk (RqAcknowledge id nm).

(* The cluster seen from outside: what is known of one secondary and its link (database, operations
   queued on the link, reply lines on their way back) and of the primary (database, replication queue,
   pending table), with the lines that crossed.  [vw_members] (the names in the primary's member table) and
   [vw_auth] (the reader-side sessions of the links are authenticated at the primary) never change. *)
Record sec_view := mkSecView { sc_db : db; sc_ops : list (N * dop); sc_replies : list str }.
Record view := mkView { vw_db : db; vw_queue : list (N * dop); vw_cross : N; vw_sec : str -> sec_view;
                     vw_pending : pstate; vw_members : list str; vw_auth : bool }.

Definition vw_with (v : view) (rq : list (N * dop)) (cross : N) (sec : str -> sec_view) (pend : pstate) : view :=
  mkView (vw_db v) rq cross sec pend (vw_members v) (vw_auth v).

Definition sec_upd (f : str -> sec_view) (S : str) (x : sec_view) : str -> sec_view :=
  fun S' => if String.eqb S' S then x else f S'.

Lemma sec_upd_same f S x : sec_upd f S x S = x.
Proof. unfold sec_upd. now rewrite String.eqb_refl. Qed.
Lemma sec_upd_other f S x S' : S' <> S -> sec_upd f S x S' = f S'.
Proof. intros H. unfold sec_upd. apply String.eqb_neq in H. now rewrite H. Qed.

Section Converge.
(* [P]: the primary; [dbn]: the database written to; [Ss]: the secondaries that are followed; [cidx]: the
   writing client's index at P; [lk S]: the index in [c_links] of the link P -> S *)
Variables (P dbn : str) (Ss : list str) (cidx : nat) (lk : str -> nat).
Hypothesis Hdbn : simple_tok dbn.
Hypothesis HPS : ~ In P Ss.
Hypothesis HSs : forall S, In S Ss -> simple_tok S.

Definition cstep (c : cluster) (e : cev) : cluster :=
  match e with
  | EvSet k v => fst (client_cmd c P cidx (set_line k v))
  | EvRemove k => fst (client_cmd c P cidx (remove_line k))
  | EvInc k i => fst (client_cmd c P cidx (inc_line k i))
  | EvPollRepl => poll_repl_c c P
  | EvDeliver s => opt_or c (deliver c (lk s))
  | EvReply s => opt_or c (reply c (lk s))
  | EvPollS s => poll_repl_c c s
  end.
Definition ev_ok (e : cev) : Prop :=
  match e with
  | EvSet k v => simple_tok k /\ simple_tok v
  | EvRemove k => simple_tok k
  | EvInc k i => simple_tok k /\ is_i32 i
  | EvPollRepl => True
  | EvDeliver s | EvReply s | EvPollS s => In s Ss
  end.
Definition run (c : cluster) (evs : list cev) : cluster := fold_left cstep evs c.

(* the node-level session of the writing client [cidx] *)
Definition sid_of (xp : cnode) : nat := nth cidx (cn_clients xp) 0%nat.

Definition db_of (c : cluster) (nm : str) : option db :=
  match get_cn c nm with Some x => get_db (cn_node x) dbn | None => None end.

(* the primary, with its witnesses as parameters ([Inv] hides them): [rq] = operations on its replication
   queue, [out] = operations on every outbox, [b]: every pending id < [b] <= every queued id *)
Record PInvW (c : cluster) (xp : cnode) (dp : db) (rq : list (N * dop)) (b : N) (out : list (N * dop)) : Prop := {
  pi_get : get_cn c P = Some xp;
  pi_dead : cn_dead xp = false;
  pi_role : n_role (cn_node xp) = Primary;
  pi_addr : n_addr (cn_node xp) = P;
  pi_nd : NoDup (map fst (n_members (cn_node xp)));
  pi_mem : forall S, In S Ss -> assoc_get String.eqb S (n_members (cn_node xp)) = Some (Secondary, lines dbn out);
  pi_repl : n_repl (cn_node xp) = lines dbn rq;
  pi_wf : Forall op_wf (map snd rq);
  pi_pend : pend_below (n_pending (cn_node xp)) b;
  pi_ids : ids_from b (map fst rq) (n_clock (cn_node xp));
  pi_db : get_db (cn_node xp) dbn = Some dp;
  pi_strat : d_strat dp = SNone;
  pi_sess : s_db (get_sess (cn_node xp) (sid_of xp)) = Some dbn }.

(* a secondary [S] and the link P -> S, witnesses as parameters likewise: [qs] = operations queued on the link *)
Record SInvW (c : cluster) (dp : db) (rq : list (N * dop)) (S : str)
             (xs : cnode) (l : link) (ds : db) (qs : list (N * dop)) : Prop := {
  si_get : get_cn c S = Some xs;
  si_role : n_role (cn_node xs) = Secondary;
  si_addr : n_addr (cn_node xs) = S;
  si_db : get_db (cn_node xs) dbn = Some ds;
  si_strat : d_strat ds = SNone;
  si_link : nth_error (c_links c) (lk S) = Some l;
  si_from : l_from l = P;
  si_to : l_to l = S;
  si_open : l_open l = true;
  si_hs : l_hs l = [];
  si_q : l_q l = lines dbn qs;
  si_wf : Forall op_wf (map snd qs);
  si_ids : Forall (fun i => i < 2 ^ 64) (map fst qs);
  si_auth : s_auth (get_sess (cn_node xs) (l_server l)) = true;
  si_sdb : s_db (get_sess (cn_node xs) (l_server l)) = None;
  si_inbox : s_inbox (get_sess (cn_node xs) (l_server l)) = [];
  si_watch : no_watch ds (l_server l);
  si_replies : Forall harmless (l_replies l);
  si_rel : dbrel dp (fold_left db_apply (map snd qs ++ map snd rq) ds) }.

Arguments pi_get {_ _ _ _ _ _} _.
Arguments pi_repl {_ _ _ _ _ _} _.
Arguments si_get {_ _ _ _ _ _ _ _} _.
Arguments si_link {_ _ _ _ _ _ _ _} _.
Arguments si_from {_ _ _ _ _ _ _ _} _.
Arguments si_to {_ _ _ _ _ _ _ _} _.
Arguments si_q {_ _ _ _ _ _ _ _} _.
Arguments si_replies {_ _ _ _ _ _ _ _} _.

Definition SInv (c : cluster) (dp : db) (rq : list (N * dop)) (S : str) : Prop :=
  exists xs l ds qs, SInvW c dp rq S xs l ds qs.

(* [Abs] below is this invariant with more of the state named (pending table, member names, crossing
   counter, reply lines, queued ids < 2^64); [Abs_Inv] and [Abs_intro] pass between the two *)
Definition Inv (c : cluster) : Prop :=
  exists xp dp rq b, PInvW c xp dp rq b [] /\ forall S, In S Ss -> SInv c dp rq S.

Lemma PInvW_ext c c' xp dp rq b out : PInvW c xp dp rq b out -> get_cn c' P = get_cn c P -> PInvW c' xp dp rq b out.
Proof. intros H E. destruct H. constructor; auto. now rewrite E. Qed.

Lemma SInvW_ext c c' dp rq S xs l ds qs : SInvW c dp rq S xs l ds qs ->
  get_cn c' S = get_cn c S -> nth_error (c_links c') (lk S) = nth_error (c_links c) (lk S) ->
  SInvW c' dp rq S xs l ds qs.
Proof. intros H E1 E2. destruct H. constructor; auto; congruence. Qed.

Lemma SInvW_rel c dp rq dp' rq' S xs l ds qs : SInvW c dp rq S xs l ds qs ->
  dbrel dp' (fold_left db_apply (map snd qs ++ map snd rq') ds) -> SInvW c dp' rq' S xs l ds qs.
Proof. intros H E. destruct H. constructor; auto. Qed.

Lemma S_ne_P S : In S Ss -> S <> P.
Proof. intros H ->. contradiction. Qed.

Lemma lk_inj {c dp rq S S' xs l ds qs xs' l' ds' qs'} :
  SInvW c dp rq S xs l ds qs -> SInvW c dp rq S' xs' l' ds' qs' -> lk S = lk S' -> S = S'.
Proof.
  intros H H' E. pose proof (si_link H) as L. pose proof (si_link H') as L'.
  rewrite E, L' in L. injection L as ->. rewrite <- (si_to H), <- (si_to H'). reflexivity.
Qed.

Lemma lines_app l1 l2 : lines dbn (l1 ++ l2) = lines dbn l1 ++ lines dbn l2.
Proof. unfold lines. apply map_app. Qed.

Lemma lk_sep c dp rq S S' : (forall X, In X Ss -> SInv c dp rq X) -> In S Ss -> In S' Ss -> S' <> S -> lk S' <> lk S.
Proof.
  intros HS HSin HS' Hne E. destruct (HS S HSin) as (xs & l & ds & qs & H).
  destruct (HS S' HS') as (xs' & l' & ds' & qs' & H'). exact (Hne (lk_inj H' H E)).
Qed.

(* an event at (or on the link of) secondary [S] leaves what is known of the other secondaries *)
Definition others_kept (c c' : cluster) (dp : db) (rq : list (N * dop)) (S : str) : Prop :=
  forall S' xs l ds qs, In S' Ss -> S' <> S -> SInvW c dp rq S' xs l ds qs -> SInvW c' dp rq S' xs l ds qs.

Lemma others_kept_intro c c' dp rq S :
  (forall X, In X Ss -> SInv c dp rq X) -> In S Ss ->
  (forall X, X <> S -> X <> P -> get_cn c' X = get_cn c X) ->
  (forall j, j <> lk S -> nth_error (c_links c') j = nth_error (c_links c) j) ->
  others_kept c c' dp rq S.
Proof.
  intros HS HSin Hn Hl S' xs l ds qs HS' Hne H. apply (SInvW_ext c); auto.
  - apply Hn; auto. now apply S_ne_P.
  - apply Hl. eapply lk_sep; eauto.
Qed.

Lemma SInvW_relink c c1 dp rq S xs l ds qs l1 : SInvW c dp rq S xs l ds qs ->
  get_cn c1 S = get_cn c S -> nth_error (c_links c1) (lk S) = Some l1 ->
  l_from l1 = l_from l -> l_to l1 = l_to l -> l_hs l1 = l_hs l -> l_q l1 = l_q l ->
  l_server l1 = l_server l -> l_open l1 = l_open l -> Forall harmless (l_replies l1) ->
  SInvW c1 dp rq S xs l1 ds qs.
Proof. intros H E1 E2 F1 F2 F3 F4 F5 F6 F7. destruct H. constructor; auto; try congruence; rewrite F5; assumption. Qed.

Lemma P_flush_outboxes c1 x1 dp rq dp' rq' b' out :
  PInvW c1 x1 dp' rq' b' out ->
  Forall op_wf (map snd out) -> Forall (fun i => i < 2 ^ 64) (map fst out) ->
  (forall ds qs, dbrel dp (fold_left db_apply (map snd qs ++ map snd rq) ds) ->
                 dbrel dp' (fold_left db_apply (map snd (qs ++ out) ++ map snd rq') ds)) ->
  PInvW (flush_outboxes c1 P) (cn_set_node x1 (clean_members (cn_node x1))) dp' rq' b' [] /\
  forall S xs l ds qs, In S Ss -> SInvW c1 dp rq S xs l ds qs ->
    SInvW (flush_outboxes c1 P) dp' rq' S xs (link_app l (lines dbn out)) ds (qs ++ out).
Proof.
  intros HP Hwf Hids Htr.
  pose proof (pi_get HP) as Hg.
  split.
  - destruct HP. constructor; auto.
    + now apply flush_get_same.
    + cbn [cn_set_node cn_node]. now rewrite clean_keys.
    + intros S HS0. cbn [cn_set_node cn_node]. apply (clean_get _ _ _ (lines dbn out)); auto.
      apply is_nosender_lines.
  - intros S xs l ds qs HSin H.
    pose proof (flush_links c1 P x1 (lk S) Hg) as Hl. rewrite (si_link H) in Hl.
    rewrite (flush_link_from P (cn_node x1) l Secondary (lines dbn out)) in Hl;
      [|apply H|apply H|rewrite (si_to H); now apply HP|apply is_nosender_lines].
    destruct H. constructor; cbn [link_app l_from l_to l_open l_hs l_q l_server l_replies]; auto.
    + rewrite (flush_get_other _ _ _ _ Hg); auto. now apply S_ne_P.
    + rewrite lines_app. now rewrite si_q0.
    + rewrite map_app. apply Forall_app; auto.
    + rewrite map_app. apply Forall_app; auto.
Qed.

(* the same when the outboxes are empty: no link changes *)
Lemma P_flush c1 x1 dp rq dp' rq' b' :
  PInvW c1 x1 dp' rq' b' [] ->
  (forall ds (qs : list (N * dop)), dbrel dp (fold_left db_apply (map snd qs ++ map snd rq) ds) ->
                 dbrel dp' (fold_left db_apply (map snd qs ++ map snd rq') ds)) ->
  PInvW (flush_outboxes c1 P) (cn_set_node x1 (clean_members (cn_node x1))) dp' rq' b' [] /\
  forall S xs l ds qs, In S Ss -> SInvW c1 dp rq S xs l ds qs -> SInvW (flush_outboxes c1 P) dp' rq' S xs l ds qs.
Proof.
  intros HP Htr.
  destruct (P_flush_outboxes c1 x1 dp rq dp' rq' b' [] HP (Forall_nil _) (Forall_nil _)) as [H1 H2].
  { intros ds qs. rewrite app_nil_r. apply Htr. }
  split; [exact H1|]. intros S xs l ds qs HSin H. specialize (H2 S xs l ds qs HSin H).
  cbn [lines map] in H2. now rewrite link_app_nil, app_nil_r in H2.
Qed.

Lemma S_flush c1 S xs1 : In S Ss -> get_cn c1 S = Some xs1 ->
  (forall xp dp rq b, PInvW c1 xp dp rq b [] -> PInvW (flush_outboxes c1 S) xp dp rq b []) /\
  (forall dp rq l ds qs, SInvW c1 dp rq S xs1 l ds qs ->
     SInvW (flush_outboxes c1 S) dp rq S (cn_set_node xs1 (clean_members (cn_node xs1))) l ds qs) /\
  (forall dp rq S' xs l ds qs, S' <> S -> SInvW c1 dp rq S' xs l ds qs ->
     SInvW (flush_outboxes c1 S) dp rq S' xs l ds qs).
Proof.
  intros HSin Hg.
  assert (Hl : forall dp rq S' xs l ds qs, SInvW c1 dp rq S' xs l ds qs ->
            nth_error (c_links (flush_outboxes c1 S)) (lk S') = Some l).
  { intros dp rq S' xs l ds qs H. rewrite (flush_links c1 S xs1 _ Hg), (si_link H).
    rewrite flush_link_other; auto. rewrite (si_from H). intros E. now apply (S_ne_P S). }
  split; [|split].
  - intros xp dp rq b HP. apply (PInvW_ext c1); auto.
    apply (flush_get_other _ _ _ _ Hg). intros E. now apply (S_ne_P S).
  - intros dp rq l ds qs H. pose proof (Hl _ _ _ _ _ _ _ H). destruct H. constructor; auto.
    now apply flush_get_same.
  - intros dp rq S' xs l ds qs Hne H. apply (SInvW_ext c1); auto.
    + now apply (flush_get_other _ _ _ _ Hg).
    + rewrite (Hl _ _ _ _ _ _ _ H). symmetry. apply H.
Qed.

Lemma PInvW_sync c xp dp rq b out : PInvW c xp dp rq b out ->
  PInvW (sync_clocks c) (reclock (maxclock c) xp) dp rq b out.
Proof.
  intros HP. pose proof (maxclock_ge c P xp (pi_get HP)) as Hle.
  destruct HP. constructor; auto.
  - rewrite get_cn_sync, pi_get0. reflexivity.
  - cbn. eapply ids_from_mono_hi; eauto.
Qed.
Lemma SInvW_sync c dp rq S xs l ds qs : SInvW c dp rq S xs l ds qs ->
  SInvW (sync_clocks c) dp rq S (reclock (maxclock c) xs) l ds qs.
Proof. intros H. destruct H. constructor; auto. rewrite get_cn_sync, si_get0. reflexivity. Qed.

Lemma sattr_sdb s s' : sattr s' = sattr s -> s_db s' = s_db s /\ s_auth s' = s_auth s.
Proof. unfold sattr. intros [= -> -> _ _]. auto. Qed.

Lemma cl_bound_get c B nm x : cl_bound c B -> get_cn c nm = Some x -> n_clock (cn_node x) <= B.
Proof. intros H E. apply str_get_in in E. apply (H (nm, x) E). Qed.

Lemma PInvW_upd c c1 xp dp rq b out n1 dp' rq' b' :
  PInvW c xp dp rq b out ->
  get_cn c1 P = Some (cn_set_node xp n1) ->
  n_role n1 = n_role (cn_node xp) -> n_addr n1 = n_addr (cn_node xp) -> n_members n1 = n_members (cn_node xp) ->
  (forall s, sattr (get_sess n1 s) = sattr (get_sess (cn_node xp) s)) ->
  pend_below (n_pending n1) b' ->
  n_repl n1 = lines dbn rq' -> Forall op_wf (map snd rq') -> ids_from b' (map fst rq') (n_clock n1) ->
  get_db n1 dbn = Some dp' -> d_strat dp' = SNone ->
  PInvW c1 (cn_set_node xp n1) dp' rq' b' out.
Proof.
  intros HP Hg Hr Ha Hm Hs Hpb Hrepl Hwf Hids Hdb Hst. destruct HP.
  constructor; cbn [cn_set_node cn_node cn_dead]; auto; try congruence;
    try (rewrite ?Hr, ?Ha, ?Hm; assumption).
  change (sid_of (cn_set_node xp n1)) with (sid_of xp).
  destruct (sattr_sdb _ _ (Hs (sid_of xp))) as [-> _]. exact pi_sess0.
Qed.

(* An accepted write, and what an event other than a client write may do to a view.  [APoll]: the
   primary's thread moves its queue to every link and registers the operations in the pending table of a
   node [nP] that has the primary's table, address and member names; [ADeliver]: the oldest operation of a
   link is taken and answered; the secondary's database after it, [ds'], is left free here: what it is
   ([db_apply] of the operation under the secondary's own stamp) is known to [sim_deliver] and kept in
   [Abs] through [si_rel]; [AReply]: the oldest reply line is taken, an acknowledgement changes the
   pending table. *)
Definition vw_accept (v : view) (o : dop) (id : N) : view :=
  mkView (db_apply (vw_db v) o) (vw_queue v ++ [(id, o)]) (vw_cross v) (vw_sec v) (vw_pending v) (vw_members v) (vw_auth v).

Definition vw_poll (v : view) (nP : node) : view :=
  vw_with v [] (vw_cross v) (fun S => mkSecView (sc_db (vw_sec v S)) (sc_ops (vw_sec v S) ++ vw_queue v) (sc_replies (vw_sec v S)))
        (n_pending (fold_left (fun n io => fan_out n (fst io) (op_req dbn (snd io)) false) (vw_queue v) nP)).

Inductive astep (v : view) : view -> Prop :=
| ASame : astep v v
| APoll nP : NoDup (map fst (n_members nP)) -> n_pending nP = vw_pending v -> n_addr nP = P ->
    map fst (n_members nP) = vw_members v -> astep v (vw_poll v nP)
| ADeliver S id o qs ds' : In S Ss -> sc_ops (vw_sec v S) = (id, o) :: qs ->
    astep v (vw_with v (vw_queue v) (vw_cross v + 1)
               (sec_upd (vw_sec v) S (mkSecView ds' qs (sc_replies (vw_sec v S) ++ [ack_text id S; "ok"]))) (vw_pending v))
| AReply S ln rest pend' : In S Ss -> sc_replies (vw_sec v S) = ln :: rest ->
    (if String.eqb ln "ok" then pend' = vw_pending v
     else exists id nm, parse_request (trim_char nl ln) = POk (RqAcknowledge id nm) /\
                        (vw_auth v = true -> pend' = fst (acknowledge (vw_pending v) id nm))) ->
    astep v (vw_with v (vw_queue v) (vw_cross v + (if String.eqb ln "ok" then 0 else 1))
               (sec_upd (vw_sec v) S (mkSecView (sc_db (vw_sec v S)) (sc_ops (vw_sec v S)) rest)) pend').

(* [np]: the primary's node.  [au]: whether the link's reader-side session is claimed to be authenticated
   at the primary (BurstProofs claims it when [Closed] is given); an acknowledgement is known to reach the
   pending table only then *)
Definition SAbs (c : cluster) (dp : db) (rq : list (N * dop)) (np : node) (au : bool) (S : str) (s : sec_view) : Prop :=
  exists xs l, SInvW c dp rq S xs l (sc_db s) (sc_ops s) /\ l_replies l = sc_replies s /\
               (au = true -> s_auth (get_sess np (l_reader l)) = true).

Definition Abs (c : cluster) (v : view) : Prop :=
  exists xp b, PInvW c xp (vw_db v) (vw_queue v) b [] /\
    n_pending (cn_node xp) = vw_pending v /\ map fst (n_members (cn_node xp)) = vw_members v /\
    Forall (fun i => i < 2 ^ 64) (map fst (vw_queue v)) /\ c_cross c = vw_cross v /\
    forall S, In S Ss -> SAbs c (vw_db v) (vw_queue v) (cn_node xp) (vw_auth v) S (vw_sec v S).

(* the event that leads from [c] to [c'] is matched by a step of the view, and raises no clock by more than
   two: one tick stamps the operation applied, one is the id [replicate_web] draws for the line it queues *)
Definition sim (c : cluster) (v : view) (c' : cluster) : Prop :=
  exists v', astep v v' /\ Abs c' v' /\ forall B, cl_bound c B -> cl_bound c' (B + 2).

Lemma SAbs_SInv c dp rq np au sec :
  (forall S, In S Ss -> SAbs c dp rq np au S (sec S)) -> forall S, In S Ss -> SInv c dp rq S.
Proof. intros H S HS. destruct (H S HS) as (xs & l & H1 & _). now exists xs, l, (sc_db (sec S)), (sc_ops (sec S)). Qed.

Lemma Abs_Inv c v : Abs c v -> Inv c.
Proof.
  intros (xp & b & HP & _ & _ & _ & _ & HS). exists xp, (vw_db v), (vw_queue v), b. split; [exact HP|].
  exact (SAbs_SInv c _ _ _ _ (vw_sec v) HS).
Qed.

Lemma Abs_intro c xp dp rq b : PInvW c xp dp rq b [] -> (forall S, In S Ss -> SInv c dp rq S) ->
  Forall (fun i => i < 2 ^ 64) (map fst rq) -> exists v, Abs c v /\ vw_db v = dp /\ vw_queue v = rq.
Proof.
  intros HP HS Hid.
  destruct (choice_list string_dec (fun S s => SAbs c dp rq (cn_node xp) false S s) (mkSecView dp [] []) Ss) as [f Hf].
  { intros S HSin. destruct (HS S HSin) as (xs & l & ds & qs & H). exists (mkSecView ds qs (l_replies l)).
    exists xs, l. split; [exact H|]. split; [reflexivity|discriminate]. }
  exists (mkView dp rq (c_cross c) f (n_pending (cn_node xp)) (map fst (n_members (cn_node xp))) false).
  split; [|auto]. exists xp, b. auto 8.
Qed.

Lemma Abs_sync c v : Abs c v -> Abs (sync_clocks c) v.
Proof.
  intros (xp & b & HP & Hp & Hk & Hid & Hc & HS). exists (reclock (maxclock c) xp), b.
  split; [apply PInvW_sync, HP|]. do 4 (split; [assumption|]).
  intros S HSin. destruct (HS S HSin) as (xs & l & H & R). eexists _, l. split; [apply SInvW_sync, H|exact R].
Qed.

Lemma sim_sync c v c' : sim (sync_clocks c) v c' -> sim c v c'.
Proof. intros (v' & H1 & H2 & HB). exists v'. split; [exact H1|]. split; [exact H2|]. intros B H. now apply HB, cl_bound_sync. Qed.

Lemma sim_refl c v : Abs c v -> sim c v c.
Proof. intros HA. exists v. split; [apply ASame|]. split; [exact HA|]. intros B. apply cl_bound_mono. lia. Qed.

(* the secondaries after an event at, or on the link of, [S] *)
Lemma SAbs_upd c c' dp rq np np' au sec S s :
  (forall X, In X Ss -> SAbs c dp rq np au X (sec X)) -> SAbs c' dp rq np' au S s -> others_kept c c' dp rq S ->
  (forall i, s_auth (get_sess np' i) = s_auth (get_sess np i)) ->
  forall X, In X Ss -> SAbs c' dp rq np' au X (sec_upd sec S s X).
Proof.
  intros HS H Hoth Hau X HX. destruct (string_dec X S) as [->|Hne]; [now rewrite sec_upd_same|].
  rewrite sec_upd_other by exact Hne. destruct (HS X HX) as (xs & l & H0 & Hr & Ha). exists xs, l.
  split; [now apply Hoth|]. split; [exact Hr|]. intros E. rewrite Hau. now apply Ha.
Qed.

Lemma sim_pollS c v S : Abs c v -> In S Ss -> sim c v (poll_repl_c_raw c S).
Proof.
  intros (xp & b & HP & Hp & Hk & Hid & Hc & HS) HSin. destruct (HS S HSin) as (xs & l & H & R).
  unfold poll_repl_c_raw. rewrite (si_get H).
  assert (Hnode : cn_node (poll_repl xs) = n_set_repl (cn_node xs) []) by apply secondary_poll_repl_node, H.
  destruct (S_flush (put_cn c S (poll_repl xs)) S (poll_repl xs) HSin (get_cn_put_same c S _)) as (FP & FS & FO).
  exists v. split; [apply ASame|]. split.
  - exists xp, b. split; [apply FP, (PInvW_ext c); auto; apply get_cn_put_other; intros E; now apply (S_ne_P S)|].
    do 3 (split; [assumption|]). split; [now rewrite cross_flush|].
    intros X HX. destruct (string_dec X S) as [->|Hne].
    + eexists _, l. split; [|exact R]. apply FS. destruct H. constructor; auto; try (rewrite Hnode; assumption). apply get_cn_put_same.
    + destruct (HS X HX) as (xs0 & l0 & H0 & R0). exists xs0, l0. split; [|exact R0].
      apply FO; auto. apply (SInvW_ext c); auto. now apply get_cn_put_other.
  - intros B HB. apply (cl_bound_mono _ B); [lia|]. apply cl_bound_flush. unfold put_cn. apply cl_bound_set; auto.
    rewrite Hnode. exact (cl_bound_get _ _ _ _ HB (si_get H)).
Qed.

(* when the link holds no line [deliver_raw] gives None and the event leaves the cluster as it is; likewise
   [sim_reply].  Otherwise: [line_delivered] for the receiving node, [deliver_raw_eq] for the cluster,
   [S_flush] for the flush that follows, [SAbs_upd] with [others_kept_intro] for the other secondaries *)
Lemma sim_deliver c v S : Abs c v -> In S Ss ->
  match deliver_raw c (lk S) with Some c' => sim c v c' | None => True end.
Proof.
  intros (xp & b & HP & Hp & Hk & Hid & Hc & HS) HSin. destruct (HS S HSin) as (xs & l & H & Hr & Ha).
  destruct (sc_ops (vw_sec v S)) as [|[id o] qs] eqn:Eq; [now rewrite (deliver_raw_none c (lk S) l) by apply H|].
  pose proof H as [Gget Grole Gaddr Gdb Gstrat Glink Gfrom Gto Gopen Ghs Gq Gwf Gids Gauth Gsdb Ginbox Gwatch Grep Grel].
  cbn [map fst snd] in Gwf, Gids. apply Forall_cons_iff in Gwf as [Ho Hwf]. apply Forall_cons_iff in Gids as [Hid' Hids].
  pose proof (line_delivered (cn_node xs) (l_server l) dbn (sc_db (vw_sec v S)) id o Hdbn) as Hd. rewrite Gaddr in Hd.
  specialize (Hd (HSs S HSin) Ho Hid' Gauth Gsdb Ginbox Gdb Gstrat Gwatch).
  rewrite (deliver_raw_eq c (lk S) l (rp_line id (op_req dbn o)) (lines dbn qs) xs Glink Gopen Ghs Gq)
    by (rewrite Gto; exact Gget).
  destruct (step (cn_node xs) (l_server l) (rp_line id (op_req dbn o))) as [n1 r]. cbv zeta in *.
  destruct (drain _ (l_server l)) as [n3 inbox]. destruct Hd as (o' & Hso & Hf & Hclk & Hdb & Hin & Hsp).
  rewrite Hsp, Gto.
  destruct (sattr_sdb _ _ (fr_sess _ _ Hf (l_server l))) as [Hsdb3 Hauth3].
  set (l' := mkLink _ _ _ _ _ _ _ _ _ _). set (c1 := mkCl _ _ _).
  destruct (S_flush c1 S (cn_set_node xs n3) HSin (get_cn_put_same c S _)) as (FP & FS & FO).
  eexists. split; [exact (ADeliver v S id o qs (db_apply (sc_db (vw_sec v S)) o') HSin Eq)|]. split.
  - exists xp, b. split; [apply FP, (PInvW_ext c); auto; apply (get_cn_put_other c S); intros E; now apply (S_ne_P S)|].
    do 3 (split; [assumption|]). split; [rewrite cross_flush; cbn; now rewrite Hc|].
    apply (SAbs_upd c _ _ _ (cn_node xp)); auto.
    + eexists _, l'. split; [|split; [unfold l'; cbn [l_replies]; now rewrite Hr|exact Ha]].
      apply FS. constructor; unfold l'; cbn [cn_set_node cn_node l_from l_to l_open l_hs l_q l_server l_replies sc_db sc_ops]; auto.
      * apply (get_cn_put_same c S).
      * rewrite (fr_role _ _ Hf). exact Grole.
      * rewrite (fr_addr _ _ Hf). exact Gaddr.
      * destruct (db_apply_meta (sc_db (vw_sec v S)) o') as (-> & _). exact Gstrat.
      * apply (links_set_same c), nth_error_Some. rewrite Glink. discriminate.
      * rewrite Hauth3. exact Gauth.
      * rewrite Hsdb3. exact Gsdb.
      * now apply no_watch_apply.
      * apply Forall_app. split; [exact Grep|].
        constructor; [right; exists id, S; apply ack_text_parse; auto|constructor; [left; reflexivity|constructor]].
      * cbn [map fst snd app fold_left] in Grel. eapply dbrel_trans; [exact Grel|].
        apply replay_converges; [apply same_ops_refl|]. apply db_apply_rel; [apply dbrel_refl|exact Hso].
    + intros S' xs0 l0 ds0 qs0 HS' Hne H0. apply FO; auto.
      apply (others_kept_intro c c1 _ _ S (SAbs_SInv c _ _ _ _ _ HS) HSin); auto.
      * intros X HX _. now apply (get_cn_put_other c S).
      * intros j Hj. now apply (links_set_other c).
  - intros B HB. pose proof (cl_bound_get _ _ _ _ HB Gget).
    apply cl_bound_flush, cl_bound_set; [eapply cl_bound_mono; [|exact HB]; lia|cbn; lia].
Qed.

(* an "ok" line only changes the link ([SInvW_relink]); an acknowledgement goes through [reply_step], then
   [PInvW_upd] (the pending table), [P_flush] (the flush that follows), [SAbs_upd] with
   [others_kept_intro] (the other secondaries) *)
Lemma sim_reply c v S : Abs c v -> In S Ss ->
  match reply_raw c (lk S) with Some c' => sim c v c' | None => True end.
Proof.
  intros (xp & b & HP & Hp & Hk & Hid & Hc & HS) HSin. destruct (HS S HSin) as (xs & l & H & Hr & Ha).
  destruct (sc_replies (vw_sec v S)) as [|ln rest] eqn:Er; [now rewrite (reply_raw_none c (lk S) l) by (apply H || exact Hr)|].
  pose proof (si_from H) as Hfrom.
  rewrite (reply_raw_eq c (lk S) l ln rest xp) by (try rewrite Hfrom; apply H || apply HP || exact Hr).
  assert (Hlen : (lk S < length (c_links c))%nat) by (apply nth_error_Some; rewrite (si_link H); discriminate).
  pose proof (si_replies H) as Hh. rewrite Hr in Hh. apply Forall_cons_iff in Hh as [Hln Hh].
  pose proof (SAbs_SInv c _ _ _ _ _ HS) as HSI.
  destruct (String.eqb ln "ok") eqn:Eok.
  - eexists. split; [apply (AReply v S ln rest (vw_pending v) HSin Er); now rewrite Eok|]. rewrite Eok.
    split; [|intros B HB p Hin; assert (Hle : B <= B + 2) by lia; exact (cl_bound_mono c B _ Hle HB p Hin)].
    exists xp, b. split; [now apply (PInvW_ext c)|]. do 3 (split; [assumption|]). split; [cbn; rewrite Hc; lia|].
    apply (SAbs_upd c _ _ _ (cn_node xp)); auto.
    + exists xs, (link_replied l rest (l_back l)). split; [|auto].
      apply (SInvW_relink c _ _ _ S xs l _ _ _ H); auto. now apply links_set_same.
    + apply (others_kept_intro c _ _ _ S HSI HSin); auto. intros j Hj. now apply links_set_other.
  - destruct Hln as [->|(id & nm & Hparse)]; [discriminate Eok|]. rewrite Hfrom.
    set (n := cn_node xp) in *. set (rd := l_reader l) in *.
    rewrite (reply_step n rd ln id nm Hparse).
    set (p' := if s_auth (get_sess n rd) then fst (acknowledge (n_pending n) id nm) else n_pending n).
    assert (Hn1 : (if s_auth (get_sess n rd) then n_set_pending n (fst (acknowledge (n_pending n) id nm)) else n)
                  = n_set_pending n p').
    { unfold p'. destruct (s_auth (get_sess n rd)); [reflexivity|]. now destruct n. }
    rewrite Hn1. set (n2 := fst (drain (n_set_pending n p') rd)). set (c1 := mkCl _ _ _).
    assert (Hsat : forall s, sattr (get_sess n2 s) = sattr (get_sess n s)).
    { intros s. apply (fr_sess _ _ (frame_drain (n_set_pending n p') rd)). }
    assert (HPu : PInvW c1 (cn_set_node xp n2) (vw_db v) (vw_queue v) b []).
    { apply (PInvW_upd c c1 xp (vw_db v) (vw_queue v) b [] n2); auto; try apply HP.
      - apply (get_cn_put_same c P).
      - unfold p'. destruct (s_auth (get_sess n rd)); [|apply HP].
        intros i Hi. apply is_pending_ack in Hi. revert i Hi. apply HP. }
    destruct (P_flush c1 (cn_set_node xp n2) (vw_db v) (vw_queue v) (vw_db v) (vw_queue v) b HPu) as [H1 H2]; [auto|].
    assert (Hoth : others_kept c c1 (vw_db v) (vw_queue v) S).
    { apply (others_kept_intro c c1 _ _ S HSI HSin).
      - intros X _ HX. now apply (get_cn_put_other c P).
      - intros j Hj. now apply (links_set_other c). }
    eexists. split.
    { apply (AReply v S ln rest p' HSin Er). rewrite Eok. exists id, nm. split; [exact Hparse|].
      intros E. unfold p'. now rewrite (Ha E), Hp. }
    split; [|intros B HB; apply (cl_bound_mono _ B); [lia|]; apply cl_bound_flush, cl_bound_set; auto;
             exact (cl_bound_get _ _ _ _ HB (pi_get HP))].
    exists (cn_set_node xp (clean_members n2)), b. split; [exact H1|]. split; [reflexivity|].
    split; [cbn [cn_set_node cn_node]; rewrite clean_keys; exact Hk|]. split; [exact Hid|].
    split; [rewrite cross_flush; unfold c1; cbn; now rewrite Eok, Hc|].
    apply (SAbs_upd c _ _ _ n); auto.
    + exists xs, (link_replied l rest (l_back l + 1)).
      split; [|split; [reflexivity|intros E; etransitivity; [apply (sattr_sdb _ _ (Hsat rd))|exact (Ha E)]]].
      apply H2; auto. apply (SInvW_relink c c1 _ _ S xs l _ _ _ H); auto.
      * apply (get_cn_put_other c P). now apply S_ne_P.
      * now apply (links_set_same c).
    + intros S' xs0 l0 ds0 qs0 HS' Hne H0. apply H2; [exact HS'|]. now apply Hoth.
    + intros i. apply (sattr_sdb _ _ (Hsat i)).
Qed.

Lemma PInvW_poll c xp dp rq b : PInvW c xp dp rq b [] -> Forall (fun i => i < 2 ^ 64) (map fst rq) ->
  fan_same (n_set_repl (cn_node xp) []) (cn_node (poll_repl xp)) /\
  cn_node (poll_repl xp) =
    fold_left (fun n io => fan_out n (fst io) (op_req dbn (snd io)) false) rq (n_set_repl (cn_node xp) []) /\
  exists b', PInvW (put_cn c P (poll_repl xp)) (poll_repl xp) dp [] b' rq.
Proof.
  intros HP HB64. unfold poll_repl. rewrite (pi_repl HP).
  set (x0 := cn_set_node xp (n_set_repl (cn_node xp) [])).
  destruct (primary_repl_fold dbn dp Hdbn rq x0 b (n_clock (cn_node xp))) as (A1 & A2 & A3 & A7 & (b' & A4 & A5) & A6);
    try (destruct HP; assumption).
  set (x' := fold_left repl_one (lines dbn rq) x0) in *.
  split; [exact A3|]. split; [exact A7|].
  exists b'. destruct HP. constructor; auto.
  - apply get_cn_put_same.
  - rewrite (fs_role _ _ A3). exact pi_role0.
  - rewrite (fs_addr _ _ A3). exact pi_addr0.
  - rewrite (fs_keys _ _ A3). exact pi_nd0.
  - intros S HSin. apply (A6 S []).
    + apply (pi_mem0 S HSin).
    + cbn. rewrite pi_addr0. now apply S_ne_P.
    + reflexivity.
  - rewrite (fs_repl _ _ A3). reflexivity.
  - constructor.
  - cbn [map ids_from]. rewrite (fs_clock _ _ A3). exact A5.
  - unfold get_db. rewrite (fs_dbs _ _ A3). exact pi_db0.
  - unfold sid_of, get_sess. rewrite A2, (fs_sess _ _ A3). exact pi_sess0.
Qed.

(* stated with the view after the poll, which [write_then_poll_queues] reads the link queues off;
   [sim_step] forgets it *)
Lemma sim_pollP c v : Abs c v ->
  exists nP, astep v (vw_poll v nP) /\ Abs (poll_repl_c_raw c P) (vw_poll v nP) /\
             forall B, cl_bound c B -> cl_bound (poll_repl_c_raw c P) (B + 2).
Proof.
  intros (xp & b & HP & Hp & Hk & Hid & Hc & HS). unfold poll_repl_c_raw. rewrite (pi_get HP).
  destruct (PInvW_poll c xp _ _ b HP Hid) as (Hfs & Hnode & b' & HPp).
  destruct (P_flush_outboxes (put_cn c P (poll_repl xp)) (poll_repl xp) (vw_db v) (vw_queue v) (vw_db v) [] b' (vw_queue v) HPp) as [H1 H2];
    [apply HP|exact Hid| |].
  { intros ds qs Hrel. rewrite map_app. cbn [map]. now rewrite app_nil_r. }
  exists (n_set_repl (cn_node xp) []). split; [apply APoll; [apply HP|exact Hp|apply HP|exact Hk]|]. split.
  - eexists _, b'. split; [exact H1|]. cbn [cn_set_node cn_node].
    split; [exact (f_equal n_pending Hnode)|]. split; [rewrite clean_keys, (fs_keys _ _ Hfs); exact Hk|]. split; [constructor|].
    split; [now rewrite cross_flush|].
    intros S HSin. destruct (HS S HSin) as (xs & l & H & Hr & Ha). exists xs, (link_app l (lines dbn (vw_queue v))).
    split; [apply H2; auto; apply (SInvW_ext c); auto; apply get_cn_put_other; now apply S_ne_P|]. split; [exact Hr|].
    intros E. unfold get_sess. cbn [clean_members n_sess n_set_members]. rewrite (fs_sess _ _ Hfs). exact (Ha E).
  - intros B HB. apply (cl_bound_mono _ B); [lia|]. apply cl_bound_flush. unfold put_cn. apply cl_bound_set; auto.
    rewrite (fs_clock _ _ Hfs). exact (cl_bound_get _ _ _ _ HB (pi_get HP)).
Qed.

(* a client write: refused, or accepted under an op id that is fresh and below every bound of the clocks,
   plus two.  Not a step of [astep]: the view changes by [vw_accept] or not at all.  The proof hangs on
   the local [Hfin]: any new database and queue with the seven facts listed give [Abs] after the flush;
   it is applied once per branch of [primary_step] *)
Lemma sim_write c v w : Abs c v -> cop_ok w ->
  let res := client_cmd_raw c P cidx (cop_line w) in
  (forall B, cl_bound c B -> cl_bound (fst res) (B + 2)) /\
  if resp_ok (snd res)
  then exists opp id, resp_ok (dop_resp (vw_db v) (cop_dop w opp)) = true /\ (forall B, cl_bound c B -> id < B + 2) /\
         is_pending (vw_pending v) id = false /\ (id < 2 ^ 64 -> Abs (fst res) (vw_accept v (cop_dop w opp) id))
  else Abs (fst res) v.
Proof.
  intros (xp & b & HP & Hp & Hk & Hid & Hc & HS) Hok. cbv zeta.
  pose proof HP as [Pget _ Prole _ _ _ Prepl Pwf Ppend Pids Pdb Pstrat Psess].
  unfold client_cmd_raw. rewrite Pget. fold (sid_of xp).
  assert (Hprim : is_primary (cn_node xp) = true) by (unfold is_primary; now rewrite Prole).
  pose proof (primary_step (cn_node xp) (sid_of xp) w dbn (vw_db v) Hok Hprim Psess Pdb Pstrat) as Hst.
  cbv zeta in Hst. destruct (step (cn_node xp) (sid_of xp) (cop_line w)) as [n1 r]. cbn [fst snd] in *.
  destruct Hst as (Hf & Hclk & Hres).
  set (c1 := put_cn c P (cn_set_node xp n1)).
  assert (Hfin : forall dp' rq', n_repl n1 = lines dbn rq' -> Forall op_wf (map snd rq') ->
            ids_from b (map fst rq') (n_clock n1) -> get_db n1 dbn = Some dp' -> d_strat dp' = SNone ->
            (forall ds (qs : list (N * dop)), dbrel (vw_db v) (fold_left db_apply (map snd qs ++ map snd (vw_queue v)) ds) ->
                            dbrel dp' (fold_left db_apply (map snd qs ++ map snd rq') ds)) ->
            Forall (fun i => i < 2 ^ 64) (map fst rq') ->
            Abs (flush_outboxes c1 P) (mkView dp' rq' (vw_cross v) (vw_sec v) (vw_pending v) (vw_members v) (vw_auth v))).
  { intros dp' rq' Hrepl Hwf Hids Hdb Hstr Htr Hid'.
    destruct (P_flush c1 (cn_set_node xp n1) (vw_db v) (vw_queue v) dp' rq' b) as [H1 H2]; [|exact Htr|].
    { apply (PInvW_upd c c1 xp (vw_db v) (vw_queue v) b [] n1); auto; try apply Hf; [apply get_cn_put_same|now rewrite (fr_pending _ _ Hf)]. }
    exists (cn_set_node xp (clean_members n1)), b. split; [exact H1|]. cbn [cn_set_node cn_node].
    split; [exact (eq_trans (fr_pending _ _ Hf) Hp)|]. split; [rewrite clean_keys, (fr_members _ _ Hf); exact Hk|].
    split; [exact Hid'|]. split; [now rewrite cross_flush|].
    intros S HSin. destruct (HS S HSin) as (xs & l & H & Hr & Ha). exists xs, l.
    split; [apply H2; auto; apply (SInvW_ext c); auto; apply get_cn_put_other; now apply S_ne_P|]. split; [exact Hr|].
    intros E. etransitivity; [apply (sattr_sdb _ _ (fr_sess _ _ Hf (l_reader l)))|exact (Ha E)]. }
  split.
  { intros B HB. pose proof (cl_bound_get _ _ _ _ HB Pget).
    apply cl_bound_flush. unfold c1, put_cn. apply cl_bound_set; [eapply cl_bound_mono; [|exact HB]; lia|cbn; lia]. }
  destruct (resp_ok r).
  - destruct Hres as (opp & id & Hwf & Hrok & Hdb & Hrepl & Hidr).
    set (o := cop_dop w opp) in *. exists opp, id. split; [exact Hrok|]. split; [|split].
    + intros B HB. pose proof (cl_bound_get _ _ _ _ HB Pget). lia.
    + destruct (is_pending (vw_pending v) id) eqn:Ep; [|reflexivity]. exfalso. rewrite <- Hp in Ep.
      specialize (Ppend id Ep). apply ids_from_le in Pids. lia.
    + intros Hlt. apply (Hfin (db_apply (vw_db v) o) (vw_queue v ++ [(id, o)])).
      * rewrite Hrepl, Prepl, lines_app. reflexivity.
      * rewrite map_app. apply Forall_app. split; [exact Pwf|constructor; auto].
      * rewrite map_app. cbn [map fst].
        eapply ids_from_mono_hi; [|apply (ids_from_snoc _ _ (n_clock (cn_node xp))); [exact Pids|]]; lia.
      * exact Hdb.
      * now destruct (db_apply_meta (vw_db v) o) as (-> & _).
      * intros ds qs Hrel. rewrite map_app. cbn [map snd]. rewrite app_assoc, fold_left_app. cbn [fold_left].
        apply db_apply_rel; auto using same_op_refl.
      * rewrite map_app. apply Forall_app. split; [exact Hid|repeat constructor; exact Hlt].
  - destruct Hres as (Hdb & Hrepl). destruct v. apply Hfin; auto.
    + now rewrite Hrepl.
    + eapply ids_from_mono_hi; [|exact Pids]. lia.
Qed.

(* lifted to a schedule without client writes by BurstProofs.run_bev (any property of views kept by
   [astep]); a client write goes through [sim_write] / [vw_accept] *)
Lemma sim_step c v e : Abs c v -> ev_ok e ->
  match e with EvSet _ _ | EvRemove _ | EvInc _ _ => True | _ => sim c v (cstep c e) end.
Proof.
  intros HA He. pose proof (Abs_sync c v HA) as HAs.
  destruct e as [k v0 | k | k i | | S | S | S]; cbn [cstep ev_ok] in *; auto.
  - apply sim_sync. destruct (sim_pollP _ v HAs) as (nP & H). now exists (vw_poll v nP).
  - unfold deliver. pose proof (sim_deliver _ v S HAs He) as H.
    destruct (deliver_raw (sync_clocks c) (lk S)); cbn [opt_or]; [now apply sim_sync|now apply sim_refl].
  - unfold reply. pose proof (sim_reply _ v S HAs He) as H.
    destruct (reply_raw (sync_clocks c) (lk S)); cbn [opt_or]; [now apply sim_sync|now apply sim_refl].
  - apply sim_sync, sim_pollS; assumption.
Qed.

Lemma write_then_poll_queues c w B xp dp b :
  PInvW c xp dp [] b [] -> (forall S, In S Ss -> SInv c dp [] S) -> cop_ok w ->
  cl_bound c B -> B + 2 <= 2 ^ 64 ->
  resp_ok (snd (client_cmd c P cidx (cop_line w))) = true ->
  let c2 := poll_repl_c (fst (client_cmd c P cidx (cop_line w))) P in
  exists opp id,
    resp_ok (dop_resp dp (cop_dop w opp)) = true /\
    db_of c2 P = Some (db_apply dp (cop_dop w opp)) /\
    forall S l, In S Ss -> nth_error (c_links c) (lk S) = Some l ->
      exists l2, nth_error (c_links c2) (lk S) = Some l2 /\
                 l_q l2 = l_q l ++ [rp_line id (op_req dbn (cop_dop w opp))].
Proof.
  intros HP HS Hok HB HB64 Hresp. cbv zeta. unfold client_cmd, poll_repl_c in *.
  destruct (Abs_intro c xp dp [] b HP HS (Forall_nil _)) as (v & HA & <- & Erq).
  destruct (sim_write _ v w (Abs_sync c v HA) Hok) as [_ H1]. cbv zeta in H1. rewrite Hresp in H1.
  destruct H1 as (opp & id & Hrok & Hlt & _ & HA1). specialize (Hlt B (cl_bound_sync c B HB)).
  assert (Hid : id < 2 ^ 64) by lia.
  destruct (sim_pollP _ _ (Abs_sync _ _ (HA1 Hid))) as (nP & _ & (xp2 & b2 & HP2 & _ & _ & _ & _ & HS2) & _).
  exists opp, id. split; [exact Hrok|]. split; [unfold db_of; rewrite (pi_get HP2); apply HP2|].
  intros S l HSin Hl. destruct HA as (xp0 & b0 & _ & _ & _ & _ & _ & HS0).
  destruct (HS0 S HSin) as (xs & l0 & H0 & _). destruct (HS2 S HSin) as (xs2 & l2 & H2 & _).
  assert (El : l0 = l) by (rewrite (si_link H0) in Hl; congruence). exists l2. split; [exact (si_link H2)|].
  pose proof (si_q H2) as Q2. cbn [vw_poll vw_with vw_accept vw_sec vw_queue sc_ops] in Q2.
  now rewrite Q2, <- El, (si_q H0), Erq, lines_app.
Qed.

Lemma Inv_step c e B : Inv c -> ev_ok e -> cl_bound c B -> B + 2 <= 2 ^ 64 ->
  Inv (cstep c e) /\ cl_bound (cstep c e) (B + 2).
Proof.
  intros (xp & dp & rq & b & HP & HS) He HB HB64.
  destruct (Abs_intro c xp dp rq b HP HS) as (v & HA & _).
  { pose proof (cl_bound_get _ _ _ _ HB (pi_get HP)). eapply Forall_impl; [|apply (ids_from_lt _ b), HP]. cbn. intros i Hi. lia. }
  assert (Hw : forall w, cop_ok w -> Inv (fst (client_cmd c P cidx (cop_line w))) /\
                                     cl_bound (fst (client_cmd c P cidx (cop_line w))) (B + 2)).
  { intros w Hok. unfold client_cmd. pose proof (cl_bound_sync c B HB) as HBs.
    destruct (sim_write _ v w (Abs_sync c v HA) Hok) as [HB' H]. cbv zeta in *. split; [|exact (HB' B HBs)].
    destruct (resp_ok _); [|exact (Abs_Inv _ _ H)]. destruct H as (opp & id & _ & Hlt & _ & H).
    specialize (Hlt B HBs). assert (Hid : id < 2 ^ 64) by lia. exact (Abs_Inv _ _ (H Hid)). }
  pose proof (sim_step c v e HA He) as Hs.
  destruct e as [k v0 | k | k i | | S | S | S]; cbn [cstep];
    [exact (Hw (CSet k v0) He)|exact (Hw (CRem k) He)|exact (Hw (CInc k i) He)| | | | ];
    destruct Hs as (v' & _ & HA' & HB'); (split; [exact (Abs_Inv _ _ HA')|exact (HB' B HB)]).
Qed.

Lemma Inv_run evs : forall c B, Inv c -> Forall ev_ok evs -> cl_bound c B ->
  B + 2 * N.of_nat (length evs) <= 2 ^ 64 -> Inv (run c evs).
Proof.
  induction evs as [|e evs IH]; intros c B HI Hok HB Hlen; cbn [run fold_left]; auto.
  inversion Hok as [|? ? He Hok']; subst.
  cbn [length] in Hlen.
  destruct (Inv_step c e B HI He HB) as [HI1 HB1]; [lia|].
  apply (IH (cstep c e) (B + 2)); auto. lia.
Qed.

(* the lines still on their way to S, oldest first: the queue of link P -> S, P's outbox for S,
   P's replication queue *)
Definition inflight (c : cluster) (S : str) : list str :=
  (match nth_error (c_links c) (lk S) with Some l => l_q l | None => [] end) ++
  (match get_cn c P with
   | Some xp => (match assoc_get String.eqb S (n_members (cn_node xp)) with Some (_, q) => q | None => [] end)
                ++ n_repl (cn_node xp)
   | None => []
   end).

Lemma inflight_wit {c xp dp rq b S xs l ds qs} : PInvW c xp dp rq b [] -> SInvW c dp rq S xs l ds qs -> In S Ss ->
  inflight c S = lines dbn (qs ++ rq).
Proof.
  intros HP H HS. unfold inflight. destruct HP, H. rewrite si_link0, pi_get0, (pi_mem0 S HS), si_q0, pi_repl0.
  cbn [lines map app]. now rewrite lines_app.
Qed.

(* RInv: every secondary's database, after applying in order the operations still in flight
   towards it, is the primary's database *)
Definition RInv (c : cluster) : Prop :=
  exists dp, db_of c P = Some dp /\
  forall S, In S Ss -> exists ds ops,
    db_of c S = Some ds /\ inflight c S = lines dbn ops /\ Forall op_wf (map snd ops) /\
    dbrel dp (fold_left db_apply (map snd ops) ds).

Lemma Inv_RInv c : Inv c -> RInv c.
Proof.
  intros (xp & dp & rq & b & HP & HS). exists dp. split.
  - unfold db_of. rewrite (pi_get HP). apply HP.
  - intros S HSin. destruct (HS S HSin) as (xs & l & ds & qs & H). exists ds, (qs ++ rq).
    split; [unfold db_of; rewrite (si_get H); apply H|]. split; [exact (inflight_wit HP H HSin)|].
    destruct HP, H. rewrite map_app. split; [apply Forall_app|]; auto.
Qed.

Definition quiescent (c : cluster) : Prop := forall S, In S Ss -> inflight c S = [].

Lemma RInv_quiescent c : RInv c -> quiescent c ->
  exists dp, db_of c P = Some dp /\ forall S, In S Ss -> exists ds, db_of c S = Some ds /\ dbrel dp ds.
Proof.
  intros (dp & Hp & HS) Hq. exists dp. split; auto.
  intros S HSin. destruct (HS S HSin) as (ds & ops & Hd & Hi & _ & Hrel). exists ds. split; auto.
  rewrite (Hq S HSin) in Hi. destruct ops; [exact Hrel|discriminate Hi].
Qed.

(* the hypothesis of the C04 / C14 theorems: P is live and Primary, its replication queue and its outboxes
   for Ss are empty, its pending ids are below its clock; every link P -> S is open, past its handshake
   and empty both ways; S is Secondary, the link's server-side session there is authenticated, has no
   database selected, an empty inbox and watches nothing; the databases are [dbrel].  Nothing says the
   members of Ss are distinct *)
Definition Formed (c : cluster) : Prop :=
  exists xp dp,
    get_cn c P = Some xp /\ cn_dead xp = false /\ n_role (cn_node xp) = Primary /\ n_addr (cn_node xp) = P /\
    NoDup (map fst (n_members (cn_node xp))) /\
    (forall S, In S Ss -> assoc_get String.eqb S (n_members (cn_node xp)) = Some (Secondary, [])) /\
    n_repl (cn_node xp) = [] /\
    (forall id, is_pending (n_pending (cn_node xp)) id = true -> id < n_clock (cn_node xp)) /\
    get_db (cn_node xp) dbn = Some dp /\ d_strat dp = SNone /\
    s_db (get_sess (cn_node xp) (nth cidx (cn_clients xp) 0%nat)) = Some dbn /\
    forall S, In S Ss -> exists xs l ds,
      get_cn c S = Some xs /\ n_role (cn_node xs) = Secondary /\ n_addr (cn_node xs) = S /\
      get_db (cn_node xs) dbn = Some ds /\ d_strat ds = SNone /\ dbrel dp ds /\
      nth_error (c_links c) (lk S) = Some l /\ l_from l = P /\ l_to l = S /\ l_open l = true /\
      l_hs l = [] /\ l_q l = [] /\ l_replies l = [] /\
      s_auth (get_sess (cn_node xs) (l_server l)) = true /\
      s_db (get_sess (cn_node xs) (l_server l)) = None /\
      s_inbox (get_sess (cn_node xs) (l_server l)) = [] /\
      no_watch ds (l_server l).

Lemma Formed_witness_idle c : Formed c ->
  exists xp dp b, PInvW c xp dp [] b [] /\
    forall S, In S Ss -> exists xs l ds, SInvW c dp [] S xs l ds [] /\ l_replies l = [].
Proof.
  intros (xp & dp & F1 & F2 & F3 & F4 & F5 & F6 & F7 & F8 & F9 & F10 & F11 & FS).
  exists xp, dp, (n_clock (cn_node xp)). split.
  - (* the fields are F1..F11 as they stand; with nothing queued the well-formedness lists are empty
       ([constructor]) and the pending bound F8 is the clock itself ([lia]) *)
    constructor; cbn [lines map ids_from]; auto; try lia; try (now constructor).
  - intros S HSin. destruct (FS S HSin) as (xs & l & ds & G1 & G2 & G3 & G4 & G5 & G6 & G7 & G8 & G9 & G10 & G11 & G12 & G13 & G14 & G15 & G16 & G17).
    (* likewise G1..G17; the empty queue and reply list make [si_wf], [si_ids], [si_replies] trivial *)
    exists xs, l, ds. split; [|exact G13]. constructor; cbn [lines map app fold_left]; auto; try (now constructor).
    rewrite G13. constructor.
Qed.

Lemma Formed_witness c : Formed c ->
  exists xp dp b, PInvW c xp dp [] b [] /\ forall S, In S Ss -> SInv c dp [] S.
Proof.
  intros HF. destruct (Formed_witness_idle c HF) as (xp & dp & b & HP & HS). exists xp, dp, b. split; [exact HP|].
  intros S HSin. destruct (HS S HSin) as (xs & l & ds & H & _). exists xs, l, ds, []. exact H.
Qed.

Lemma Formed_Inv c : Formed c -> Inv c.
Proof. intros HF. destruct (Formed_witness c HF) as (xp & dp & b & H). exists xp, dp, [], b. exact H. Qed.

End Converge.
Arguments pi_get {_ _ _ _ _ _ _ _ _ _} _.
Arguments pi_repl {_ _ _ _ _ _ _ _ _ _} _.
Arguments si_get {_ _ _ _ _ _ _ _ _ _ _} _.
Arguments si_link {_ _ _ _ _ _ _ _ _ _ _} _.
Arguments si_from {_ _ _ _ _ _ _ _ _ _ _} _.
Arguments si_to {_ _ _ _ _ _ _ _ _ _ _} _.
Arguments si_q {_ _ _ _ _ _ _ _ _ _ _} _.
Arguments si_replies {_ _ _ _ _ _ _ _ _ _ _} _.

Lemma Formed_P_not_sec P dbn Ss cidx lk c : Formed P dbn Ss cidx lk c -> ~ In P Ss.
Proof.
  intros (xp & dp & F1 & F2 & F3 & _ & _ & _ & _ & _ & _ & _ & _ & FS) Hin.
  destruct (FS P Hin) as (xs & l & ds & G1 & G2 & _). rewrite F1 in G1. injection G1 as <-. congruence.
Qed.

(* the convergence invariant holds after any list of events *)
Theorem C04_convergence_invariant P dbn Ss cidx lk c evs B :
  simple_tok dbn -> (forall S, In S Ss -> simple_tok S) ->
  Formed P dbn Ss cidx lk c -> Forall (ev_ok Ss) evs ->
  cl_bound c B -> B + 2 * N.of_nat (length evs) <= 2 ^ 64 ->
  RInv P dbn Ss lk (run P cidx lk c evs).
Proof.
  intros Hd HS HF Hok HB Hlen. apply (Inv_RInv P dbn Ss cidx).
  apply (Inv_run P dbn Ss cidx lk Hd (Formed_P_not_sec _ _ _ _ _ _ HF) HS evs c B); auto. now apply Formed_Inv.
Qed.

(* at quiescence every secondary holds the primary's database: same keys, values, versions
   and removed / live status ([dbrel]) *)
Theorem C04_converges P dbn Ss cidx lk c evs B :
  simple_tok dbn -> (forall S, In S Ss -> simple_tok S) ->
  Formed P dbn Ss cidx lk c -> Forall (ev_ok Ss) evs ->
  cl_bound c B -> B + 2 * N.of_nat (length evs) <= 2 ^ 64 ->
  quiescent P Ss lk (run P cidx lk c evs) ->
  exists dp, db_of dbn (run P cidx lk c evs) P = Some dp /\
    forall S, In S Ss -> exists ds, db_of dbn (run P cidx lk c evs) S = Some ds /\ dbrel dp ds.
Proof.
  intros Hd HS HF Hok HB Hlen. apply RInv_quiescent. now apply (C04_convergence_invariant P dbn Ss cidx lk c evs B).
Qed.

(* what [dbrel] means for a client: the same answer to every read *)
Corollary C04_converges_reads P dbn Ss cidx lk c evs B :
  simple_tok dbn -> (forall S, In S Ss -> simple_tok S) ->
  Formed P dbn Ss cidx lk c -> Forall (ev_ok Ss) evs ->
  cl_bound c B -> B + 2 * N.of_nat (length evs) <= 2 ^ 64 ->
  quiescent P Ss lk (run P cidx lk c evs) ->
  exists dp, db_of dbn (run P cidx lk c evs) P = Some dp /\
    forall S, In S Ss -> exists ds, db_of dbn (run P cidx lk c evs) S = Some ds /\
      forall k, live dp k = live ds k /\ get_key_value_new dp k = get_key_value_new ds k.
Proof.
  intros Hd HS HF Hok HB Hlen Hq.
  destruct (C04_converges P dbn Ss cidx lk c evs B Hd HS HF Hok HB Hlen Hq) as (dp & Hp & H).
  exists dp. split; auto. intros S HSin. destruct (H S HSin) as (ds & Hs & Hrel). exists ds. split; auto.
  intros k. split; [now apply dbrel_live|now apply dbrel_get].
Qed.

(* [line_delivered] with the frame read out: member table (outboxes), pending table and role untouched *)
Theorem replicated_line_applies n sv dbn d id o :
  simple_tok dbn -> simple_tok (n_addr n) -> op_wf o -> id < 2 ^ 64 ->
  s_auth (get_sess n sv) = true -> s_db (get_sess n sv) = None -> s_inbox (get_sess n sv) = [] ->
  get_db n dbn = Some d -> d_strat d = SNone -> no_watch d sv ->
  let '(n1, r) := step n sv (rp_line id (op_req dbn o)) in
  let status := match r with RError msg => "error " +++ msg +++ " " +++ nlS | _ => "ok " +++ nlS end in
  let '(n3, inbox) := drain (send n1 sv status) sv in
  exists o', same_op o o' /\ get_db n3 dbn = Some (db_apply d o') /\
    n_members n3 = n_members n /\ n_pending n3 = n_pending n /\ n_role n3 = n_role n /\
    split_lines inbox = [ack_text id (n_addr n); "ok"].
Proof.
  intros Hd Ha Ho Hid Hau Hsd Hin Hdb Hst Hw.
  pose proof (line_delivered n sv dbn d id o Hd Ha Ho Hid Hau Hsd Hin Hdb Hst Hw) as H.
  destruct (step n sv (rp_line id (op_req dbn o))) as [n1 r]. cbv zeta in *.
  destruct (drain _ sv) as [n3 inbox]. destruct H as (o' & Hso & Hf & _ & Hdb1 & _ & Hsp).
  exists o'. repeat split; auto; apply Hf.
Qed.

(* an accepted client write on the primary of a formed cluster, followed by one poll of its
   replication thread: the primary's database changes by the operation and exactly one line
   (the same for every secondary) is appended, FIFO, to the queue of every link P -> S *)
Theorem primary_write_queues P dbn Ss cidx lk c w B :
  simple_tok dbn -> (forall S, In S Ss -> simple_tok S) ->
  Formed P dbn Ss cidx lk c -> cop_ok w -> cl_bound c B -> B + 2 <= 2 ^ 64 ->
  resp_ok (snd (client_cmd c P cidx (cop_line w))) = true ->
  let c2 := poll_repl_c (fst (client_cmd c P cidx (cop_line w))) P in
  exists dp opp id,
    db_of dbn c P = Some dp /\
    resp_ok (dop_resp dp (cop_dop w opp)) = true /\
    db_of dbn c2 P = Some (db_apply dp (cop_dop w opp)) /\
    forall S l, In S Ss -> nth_error (c_links c) (lk S) = Some l ->
      exists l2, nth_error (c_links c2) (lk S) = Some l2 /\
                 l_q l2 = l_q l ++ [rp_line id (op_req dbn (cop_dop w opp))].
Proof.
  intros Hd HS HF Hok HB HB64 Hresp. destruct (Formed_witness P dbn Ss cidx lk c HF) as (xp & dp & b & HP & HS0).
  destruct (write_then_poll_queues P dbn Ss cidx lk Hd (Formed_P_not_sec _ _ _ _ _ _ HF) c w B xp dp b HP HS0 Hok HB HB64 Hresp)
    as (opp & id & H).
  exists dp, opp, id. split; [|exact H]. unfold db_of. rewrite (pi_get HP). apply HP.
Qed.

Definition ex_c0 : cluster :=
  mkCl [("p1", init_cnode "u" "pw" "p1" 3 Primary 10);
        ("s1", init_cnode "u" "pw" "s1" 2 Secondary 10);
        ("s2", init_cnode "u" "pw" "s2" 1 Secondary 10)] [] 0.
(* both secondaries join; a client of p1 creates database "d" (strategy none) and selects it;
   a client of each secondary selects it too (this creates the "$connections" key everywhere).
   [settle 20] bounds the rounds; that nothing is left in flight is part of [formed_example] *)
Definition ex_use_at (c : cluster) (nm : str) : cluster :=
  let '(c, i) := client_conn c nm in
  fst (settle 20 (fst (client_cmd c nm i "use-db d tok"))).
Definition ex_build : cluster :=
  let c := fst (settle 20 (add_sec (add_sec ex_c0 "p1" "s1") "p1" "s2")) in
  let '(c, i) := client_conn c "p1" in
  let c := fst (client_cmd c "p1" i "auth u pw") in
  let c := fst (client_cmd c "p1" i "create-db d tok") in
  let c := fst (settle 20 c) in
  let c := fst (client_cmd c "p1" i "use-db d tok") in
  ex_use_at (ex_use_at (fst (settle 20 c)) "s1") "s2".
Definition ex_c : cluster := Eval vm_compute in ex_build.
Definition ex_lk (s : str) : nat := if String.eqb s "s1" then 0%nat else 1%nat.

Lemma dbrel_of_forall2 d1 d2 :
  Forall2 (fun a b => fst a = fst b /\ vrel (snd a) (snd b)) (d_map d1) (d_map d2) -> dbrel d1 d2.
Proof.
  intros H k. unfold get_value. induction H as [|[k1 v1] [k2 v2] l1 l2 [Hk Hv] _ IH]; cbn [assoc_get]; auto.
  cbn [fst snd] in *. subst k2. destruct (String.eqb k k1); auto.
Qed.

Ltac solve_tok := split; [discriminate|split; [reflexivity|vm_compute; discriminate]].

(* the witnesses of [formed_example], read off the computed cluster *)
Definition ex_cn (nm : str) : cnode :=
  match get_cn ex_c nm with Some x => x | None => init_cnode "" "" "" 0 StartingUp 0 end.
Definition ex_db (nm : str) : db :=
  match get_db (cn_node (ex_cn nm)) "d" with Some d => d | None => empty_db 0 SNone end.
Definition ex_link (nm : str) : link := nth (ex_lk nm) (c_links ex_c) (mkLink "" "" [] [] 0 0 [] false 0 0).

Example formed_example : Formed "p1" "d" ["s1"; "s2"] 0 ex_lk ex_c.
Proof.
  exists (ex_cn "p1"), (ex_db "p1").
  split; [reflexivity|]. split; [reflexivity|]. split; [reflexivity|]. split; [reflexivity|].
  split. { vm_compute. repeat constructor; cbn; intuition discriminate. }
  split. { intros S [<-|[<-|[]]]; reflexivity. }
  split; [reflexivity|].
  split. { intros id H. vm_compute in H. discriminate H. }
  split; [reflexivity|]. split; [reflexivity|]. split; [reflexivity|].
  intros S HS. exists (ex_cn S), (ex_link S), (ex_db S). destruct HS as [<-|[<-|[]]].
  all: repeat (split; [reflexivity|]).
  all: split; [apply dbrel_of_forall2; vm_compute; repeat constructor; intros E; discriminate E|].
  all: repeat (split; [reflexivity|]).
  all: intros k Hin; vm_compute in Hin; exact Hin.
Qed.

Definition ex_evs : list cev :=
  [EvSet "k" "v1"; EvInc "n" 5; EvPollRepl; EvDeliver "s1"; EvSet "k" "v2"; EvRemove "j";
   EvPollRepl; EvDeliver "s2"; EvReply "s1"; EvPollS "s1"; EvDeliver "s2"; EvRemove "k"; EvInc "n" (-2);
   EvDeliver "s1"; EvPollRepl; EvDeliver "s1"; EvDeliver "s1"; EvDeliver "s1"; EvDeliver "s1";
   EvDeliver "s2"; EvDeliver "s2"; EvDeliver "s2"; EvDeliver "s2"; EvReply "s2"; EvReply "s2"; EvPollS "s2"].

Lemma ex_evs_ok : Forall (ev_ok ["s1"; "s2"]) ex_evs.
Proof.
  unfold ex_evs.
  repeat (apply Forall_cons;
          [cbn [ev_ok];
           first [exact I | solve_tok | (split; [solve_tok|solve_tok])
                 | (split; [solve_tok|unfold is_i32; lia]) | (cbn; tauto)]|]).
  apply Forall_nil.
Qed.

(* the nodes start at clock 10; after the build every clock of [ex_c] reads 24 *)
Lemma ex_bound : cl_bound ex_c 24.
Proof. intros p [<-|[<-|[<-|[]]]]; vm_compute; intros H; discriminate H. Qed.

Definition ex_final : cluster := Eval vm_compute in run "p1" 0 ex_lk ex_c ex_evs.

Lemma ex_final_eq : run "p1" 0 ex_lk ex_c ex_evs = ex_final.
Proof. vm_compute. reflexivity. Qed.

Example formed_run_quiescent : quiescent "p1" ["s1"; "s2"] ex_lk (run "p1" 0 ex_lk ex_c ex_evs).
Proof. rewrite ex_final_eq. intros S [<-|[<-|[]]]; reflexivity. Qed.

Example formed_run_converges :
  exists dp, db_of "d" (run "p1" 0 ex_lk ex_c ex_evs) "p1" = Some dp /\
    forall S, In S ["s1"; "s2"] -> exists ds, db_of "d" (run "p1" 0 ex_lk ex_c ex_evs) S = Some ds /\ dbrel dp ds.
Proof.
  apply (C04_converges "p1" "d" ["s1"; "s2"] 0 ex_lk ex_c ex_evs 24).
  - solve_tok.
  - intros S [<-|[<-|[]]]; solve_tok.
  - exact formed_example.
  - exact ex_evs_ok.
  - exact ex_bound.
  - vm_compute. intros H; discriminate H.
  - exact formed_run_quiescent.
Qed.

(* the computed final state per node: keys, values, versions, states *)
Definition ex_view (c : cluster) (nm : str) : option (list (str * str * Z * vstate)) :=
  match db_of "d" c nm with
  | Some d => Some (map (fun kv => (fst kv, v_val (snd kv), v_ver (snd kv), v_st (snd kv))) (d_map d))
  | None => None
  end.
Example formed_run_final :
  ex_view ex_final "p1" = Some [("$$token", "tok", 0%Z, VNew); ("$connections", "1", 0%Z, VNew); ("n", "3", 2%Z, VNew)] /\
  ex_view ex_final "s1" = ex_view ex_final "p1" /\ ex_view ex_final "s2" = ex_view ex_final "p1".
Proof. vm_compute. auto. Qed.

(* the hypothesis of [primary_write_queues] is satisfiable on the example *)
Example formed_write_accepted :
  resp_ok (snd (client_cmd ex_c "p1" 0 (cop_line (CSet "k" "v1")))) = true.
Proof. vm_compute. reflexivity. Qed.

(* the maps are NOT literally equal after replication: every node stamps a write with its own
   op id (v_opp), which is why convergence is stated with [dbrel] (keys, values, versions,
   new / removed status) *)
Example formed_run_opp_differs :
  match db_of "d" ex_final "p1", db_of "d" ex_final "s1" with
  | Some a, Some b => d_map a <> d_map b
  | _, _ => False
  end.
Proof. vm_compute. intros E. discriminate E. Qed.
