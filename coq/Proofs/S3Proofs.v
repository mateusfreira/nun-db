(* S3Proofs.v -- C18: the two S3 storage strategies (Model/S3.v): snapshot / restart round trips,
   the partition invariant over histories, and the fault-injection theorems. *)
From NunDB Require Import Model.Base Model.Pending Model.Parse Model.Node Model.Disk Model.S3
     Proofs.ListLemmas Proofs.AssocLemmas Proofs.DiskProofs.
From Coq Require Import Lia.
Require Import String List NArith ZArith Bool Ascii. Import ListNotations.
Open Scope string_scope. Open Scope list_scope. Open Scope N_scope.

Fixpoint nochar (c : ascii) (s : str) : bool :=
  match s with EmptyString => true | String a r => negb (Ascii.eqb a c) && nochar c r end.

(* [nochar] is ClusterProofs' definition again; the four lemmas below are [nochar_app],
   [split_char_acc_end], [split_char_acc_piece] and [alldigits_nochar] there *)
Lemma nochar_app c a b : nochar c (a +++ b) = nochar c a && nochar c b.
Proof. induction a; cbn; auto. rewrite IHa. now rewrite andb_assoc. Qed.

Lemma split_nochar c Y : forall cur, nochar c Y = true -> split_char_acc c Y cur = [str_rev cur +++ Y].
Proof.
  induction Y as [|y Y IH]; intros cur H; cbn [split_char_acc].
  - now rewrite app_nil_r_s.
  - cbn [nochar] in H. apply andb_true_iff in H. destruct H as [H1 H2].
    apply negb_true_iff in H1. rewrite H1. rewrite IH by auto.
    unfold str_rev at 1. cbn [str_rev_acc]. rewrite (str_rev_acc_spec cur (String y "")).
    now rewrite app_assoc_s.
Qed.

Lemma split_acc_nonempty c s : forall cur, split_char_acc c s cur <> [].
Proof. induction s; intros cur; cbn; [discriminate|]. destruct (Ascii.eqb a c); [discriminate|auto]. Qed.

Lemma split_last c X Y : nochar c Y = true -> forall cur,
  last (split_char_acc c (X +++ String c Y) cur) "" = Y.
Proof.
  intros HY. induction X as [|x X IH]; intros cur; cbn [String.append split_char_acc].
  - rewrite Ascii.eqb_refl. rewrite split_nochar by auto. reflexivity.
  - destruct (Ascii.eqb x c); auto.
    rewrite last_cons_ne by apply split_acc_nonempty. auto.
Qed.

Lemma split_first c X Z : nochar c X = true -> forall cur,
  split_char_acc c (X +++ String c Z) cur = (str_rev cur +++ X) :: split_char_acc c Z "".
Proof.
  induction X as [|x X IH]; intros H cur; cbn [String.append split_char_acc].
  - rewrite Ascii.eqb_refl. now rewrite app_nil_r_s.
  - cbn [nochar] in H. apply andb_true_iff in H. destruct H as [H1 H2].
    apply negb_true_iff in H1. rewrite H1. rewrite IH by auto.
    unfold str_rev at 1. cbn [str_rev_acc]. rewrite (str_rev_acc_spec cur (String x "")).
    now rewrite app_assoc_s.
Qed.

Lemma digits_nochar c s : is_digit c = false -> alldigits s = true -> nochar c s = true.
Proof.
  intros Hc. induction s as [|a s IH]; cbn; auto. intros H. apply andb_true_iff in H. destruct H as [H1 H2].
  rewrite IH by auto. destruct (Ascii.eqb_spec a c); [congruence|reflexivity].
Qed.

(* the listing prefix of a database (after the fix: with the trailing slash) *)
Definition dbprefix (dbn : str) : str := prefix_name +++ "/" +++ dbn +++ "/".
Definition pname (dbn : str) (p : N) : str := prefix_name +++ "/" +++ dbn +++ "/" +++ N_to_str p +++ ".nun".
Definition kname (dbn : str) : str := prefix_name +++ "/" +++ dbn +++ "/nun.keys".
Definition vname (dbn : str) : str := prefix_name +++ "/" +++ dbn +++ "/nun.values".
Definition stem_of (nm : str) : str :=
  match split_char "."%char (last (split_char "/"%char nm) "") with x :: _ => x | [] => "" end.

Lemma kname_vname dbn : kname dbn <> vname dbn.
Proof. unfold kname, vname. intros H. repeat apply app_inv_head_s in H. discriminate. Qed.

Lemma stem_name_prefix dbn stem :
  starts_with (prefix_name +++ "/" +++ dbn +++ "/" +++ stem +++ ".nun") (dbprefix dbn) = true.
Proof.
  unfold starts_with, dbprefix.
  replace (prefix_name +++ "/" +++ dbn +++ "/" +++ stem +++ ".nun")
    with ((prefix_name +++ "/" +++ dbn +++ "/") +++ stem +++ ".nun") by now rewrite !app_assoc_s.
  apply prefix_app.
Qed.

Lemma pname_prefix dbn p : starts_with (pname dbn p) (dbprefix dbn) = true.
Proof. apply stem_name_prefix. Qed.

Lemma stem_pname dbn p : stem_of (pname dbn p) = N_to_str p.
Proof.
  unfold stem_of, pname, split_char.
  replace (prefix_name +++ "/" +++ dbn +++ "/" +++ N_to_str p +++ ".nun")
    with ((prefix_name +++ "/" +++ dbn) +++ String "/" (N_to_str p +++ ".nun")) by now rewrite !app_assoc_s.
  rewrite split_last.
  - change (N_to_str p +++ ".nun") with (N_to_str p +++ String "." "nun").
    rewrite split_first; [reflexivity|].
    apply digits_nochar; [reflexivity|apply alldigits_N].
  - rewrite nochar_app. rewrite digits_nochar; [reflexivity|reflexivity|apply alldigits_N].
Qed.

Lemma pname_inj dbn p q : pname dbn p = pname dbn q -> p = q.
Proof.
  intros H. apply N_to_str_inj. rewrite <- (stem_pname dbn p), <- (stem_pname dbn q). now rewrite H.
Qed.

(* not Local: Props/C18.v states its theorems through them *)
Notation get := (assoc_get String.eqb).
Notation aset := (assoc_set String.eqb).

Lemma stub_put_nofault s nm d : st_putfail s = None ->
  stub_put s nm d = (mkStub (aset nm d (st_objs s)) (st_puts s + 1) (st_gets s) None (st_getfail s), true).
Proof. intros H. unfold stub_put. rewrite H. reflexivity. Qed.

Lemma stub_get_nofault s nm : st_getfail s = None ->
  stub_get s nm = (mkStub (st_objs s) (st_puts s) (st_gets s + 1) (st_putfail s) None, get nm (st_objs s)).
Proof. intros H. unfold stub_get. rewrite H. reflexivity. Qed.

Lemma stub_put_other s nm d nm' : nm' <> nm ->
  get nm' (st_objs (fst (stub_put s nm d))) = get nm' (st_objs s).
Proof.
  intros Hn. unfold stub_put. destruct (match st_putfail s with Some _ => _ | None => _ end); cbn [fst st_objs]; auto.
  apply str_get_set_other; auto.
Qed.

Definition dead (v : value) : bool := vstate_eqb (v_st v) VDeleted.
Lemma ok_not_dead (x : value) : v_st x = VOk -> dead x = false.
Proof. unfold dead. now intros ->. Qed.
Lemma dead_deleted v : dead v = true -> v_st v = VDeleted.
Proof. unfold dead. destruct (v_st v); cbn; congruence. Qed.

Definition ent_ok (k : str) (v : value) : Prop := str_ok k /\ str_ok (v_val v) /\ i32_range (v_ver v).
Definition mem_ok3 (m : list (string * value)) : Prop := forall (k : string) v, In (k, v) m -> ent_ok k v.

Definition set_ok (v : value) (o : option value) : Prop :=
  exists mv', o = Some mv' /\ v_val mv' = v_val v /\ v_ver mv' = v_ver v /\ v_st mv' = VOk.

(* [mem'] is [mem] where every selected non-deleted key became Ok with the same value and version;
   every other entry is untouched; no key appears or disappears *)
Definition snap_mem (sel : str -> bool) (mem mem' : list (str * value)) : Prop :=
  forall k, match get k mem with
            | Some mv => if sel k && negb (dead mv) then set_ok mv (get k mem') else get k mem' = Some mv
            | None => get k mem' = None
            end.

(* A fold over the entries of a map that stores every non-deleted one as Ok ([Hf]): what it leaves under each key *)
Section FoldSet.
Context {W : Type} (memof : W -> list (string * value)) (f : W -> string * value -> W) (o a b : W -> N).
Hypothesis Hf : forall w (k : string) (v : value),
  memof (f w (k, v)) =
  if dead v then memof w else aset k (mkV (v_val v) (v_ver v) (o w) VOk (a w) (b w)) (memof w).

Lemma fold_set_get (L : list (string * value)) : NoDup (map fst L) -> forall w (k : string),
  (forall v, In (k, v) L ->
     if dead v then get k (memof (fold_left f L w)) = get k (memof w)
     else set_ok v (get k (memof (fold_left f L w)))) /\
  (~ In k (map fst L) -> get k (memof (fold_left f L w)) = get k (memof w)).
Proof.
  induction L as [|[k0 v0] t IH]; intros Hnd w k; cbn [fold_left].
  - split; [intros v []|reflexivity].
  - inversion Hnd as [|? ? Hnin Hnd']; subst. cbn [fst] in Hnin.
    destruct (IH Hnd' (f w (k0, v0)) k) as [IH1 IH2]. split.
    + intros v [E|Hin].
      * inversion E; subst. rewrite IH2, Hf by assumption. destruct (dead v); [reflexivity|].
        rewrite str_get_set_same. eexists. split; [reflexivity|]. cbn. auto.
      * assert (Hne : k <> k0).
        { intros ->. apply Hnin. change k0 with (fst (k0, v)). now apply in_map. }
        specialize (IH1 v Hin). destruct (dead v); [|exact IH1]. rewrite IH1, Hf.
        destruct (dead v0); [reflexivity|now apply str_get_set_other].
    + intros Hn. cbn [map fst] in Hn. rewrite IH2, Hf by (intros X; apply Hn; now right).
      destruct (dead v0); [reflexivity|]. apply str_get_set_other. intros ->. apply Hn. now left.
Qed.

Lemma fold_set_snap sel mem L w : NoDup (map fst L) -> memof w = mem ->
  (forall k v, In (k, v) L <-> get k mem = Some v /\ sel k = true) ->
  snap_mem sel mem (memof (fold_left f L w)).
Proof.
  intros Hnd Hw HL k. destruct (fold_set_get L Hnd w k) as [F1 F2]. rewrite Hw in *.
  assert (Hout : sel k = false \/ get k mem = None -> ~ In k (map fst L)).
  { intros Hc Hin. apply in_map_iff in Hin. destruct Hin as ([k' v'] & Ek & Hin).
    cbn in Ek. subst k'. apply HL in Hin. destruct Hin, Hc; congruence. }
  destruct (get k mem) as [mv|] eqn:E; [|now apply F2, Hout; right].
  destruct (sel k) eqn:S; cbn [andb]; [|now apply F2, Hout; left].
  assert (Hin : In (k, mv) L) by (apply HL; auto). specialize (F1 mv Hin).
  destruct (dead mv); cbn [negb]; auto.
Qed.

Lemma fold_set_nodup (L : list (string * value)) : forall w, NoDup (map fst (memof w)) -> NoDup (map fst (memof (fold_left f L w))).
Proof.
  induction L as [|[k v] t IH]; intros w H; cbn [fold_left]; auto. apply IH. rewrite Hf.
  destruct (dead v); [exact H|]. apply str_nodup_set; auto.
Qed.

Lemma fold_set_ok (L : list (string * value)) : forall w, mem_ok3 L -> mem_ok3 (memof w) -> mem_ok3 (memof (fold_left f L w)).
Proof.
  induction L as [|[k v] t IH]; intros w HL H; cbn [fold_left]; auto. apply IH.
  - intros k' v' Hin. apply HL. now right.
  - rewrite Hf. destruct (dead v); [exact H|].
    intros k' v' Hin. apply (in_set String.eqb String.eqb_spec) in Hin. destruct Hin as [[= -> ->]|Hin]; auto.
    exact (HL k v (or_introl eq_refl)).
Qed.
End FoldSet.

Lemma snap_mem_states sel mem mem' k mv' : snap_mem sel mem mem' -> get k mem' = Some mv' ->
  exists mv, get k mem = Some mv /\ v_val mv' = v_val mv /\ v_ver mv' = v_ver mv /\
             (v_st mv' = v_st mv \/ (v_st mv' = VOk /\ sel k = true /\ dead mv = false)).
Proof.
  intros H E. specialize (H k). destruct (get k mem) as [mv|]; [|congruence].
  exists mv. split; auto. destruct (sel k); cbn [andb] in H.
  - destruct (dead mv) eqn:D; cbn [negb] in H.
    + rewrite H in E. inversion E; subst. auto.
    + destruct H as (x & Hx & A & B & C). rewrite Hx in E. inversion E; subst. auto 10.
  - rewrite H in E. inversion E; subst. auto.
Qed.

Lemma mem_ok3_get m k v : mem_ok3 m -> get k m = Some v -> ent_ok k v.
Proof. intros H E. apply H. now apply str_get_in. Qed.

Definition vrec3 (v : value) : str :=
  le_bytes 8 (slen (v_val v)) +++ v_val v +++ le_bytes 4 (status_code (v_st v)).

Fixpoint s3_recs (L : list (string * value)) (va : N) : list arec :=
  match L with
  | [] => []
  | (k, v) :: t => if dead v then s3_recs t va
                   else mkR k (v_ver v) va (v_val v) :: s3_recs t (va + (8 + slen (v_val v) + 4))
  end.
Fixpoint s3_vals (L : list (string * value)) : str :=
  match L with
  | [] => ""
  | (k, v) :: t => if dead v then s3_vals t else vrec3 v +++ s3_vals t
  end.

Lemma s3_one_eq w (k : string) v :
  s3_one w (k, v) =
  if dead v then w else
  mkS3W (sw_k w +++ krec (mkR k (v_ver v) (sw_vaddr w) (v_val v))) (sw_v w +++ vrec3 v)
        (sw_vaddr w + (8 + slen (v_val v) + 4)) (sw_kaddr w + (8 + slen k + 8 + 4))
        (aset k (mkV (v_val v) (v_ver v) (sw_clock w) VOk (sw_vaddr w) (sw_kaddr w)) (sw_mem w))
        (sw_clock w + 1).
Proof. reflexivity. Qed.

Lemma s3_one_mem w (k : string) (v : value) :
  sw_mem (s3_one w (k, v)) =
  if dead v then sw_mem w else aset k (mkV (v_val v) (v_ver v) (sw_clock w) VOk (sw_vaddr w) (sw_kaddr w)) (sw_mem w).
Proof. rewrite s3_one_eq. now destruct (dead v). Qed.

Lemma s3_fold_bufs L : forall w,
  sw_k (fold_left s3_one L w) = sw_k w +++ kcat (s3_recs L (sw_vaddr w)) /\
  sw_v (fold_left s3_one L w) = sw_v w +++ s3_vals L.
Proof.
  induction L as [|[k v] t IH]; intros w; cbn [fold_left s3_recs s3_vals kcat].
  - now rewrite !app_nil_r_s.
  - rewrite s3_one_eq. destruct (dead v); [apply IH|].
    destruct (IH (mkS3W (sw_k w +++ krec (mkR k (v_ver v) (sw_vaddr w) (v_val v))) (sw_v w +++ vrec3 v)
        (sw_vaddr w + (8 + slen (v_val v) + 4)) (sw_kaddr w + (8 + slen k + 8 + 4))
        (aset k (mkV (v_val v) (v_ver v) (sw_clock w) VOk (sw_vaddr w) (sw_kaddr w)) (sw_mem w))
        (sw_clock w + 1))) as [A B].
    rewrite A, B. cbn [sw_k sw_v sw_vaddr kcat]. now rewrite !app_assoc_s.
Qed.

Lemma slen_vrec3 v : slen (vrec3 v) = 8 + slen (v_val v) + 4.
Proof. unfold vrec3. rewrite !slen_app. unfold slen. rewrite !len_le_bytes. lia. Qed.

Lemma s3_recs_ok L : forall Vpre, mem_ok3 L ->
  Forall (rec_readable (Vpre +++ s3_vals L)) (s3_recs L (slen Vpre)).
Proof.
  induction L as [|[k v] t IH]; intros Vpre H; cbn [s3_recs s3_vals]; [constructor|].
  assert (Ht : mem_ok3 t) by (intros k' v' Hin; apply H; now right).
  destruct (dead v); [now apply IH|]. constructor.
  - destruct (H k v (or_introl eq_refl)) as (a & b & c).
    split; [exact a|split; [exact b|split; [|exact c]]]. cbn [r_va r_val].
    exists Vpre, (le_bytes 4 (status_code (v_st v)) +++ s3_vals t). split; [|reflexivity].
    unfold vrec3. now rewrite !app_assoc_s.
  - rewrite <- slen_vrec3, <- slen_app, <- app_assoc_s. now apply IH.
Qed.

Lemma s3_recs_keys L : forall va, map r_key (s3_recs L va) = map fst (filter (fun kv => negb (dead (snd kv))) L).
Proof.
  induction L as [|[k v] t IH]; intros va; cbn [s3_recs filter map snd]; auto.
  destruct (dead v); cbn [negb map fst r_key]; [apply IH|]. f_equal. apply IH.
Qed.

Lemma s3_recs_in L : forall va r, In r (s3_recs L va) ->
  exists v, In (r_key r, v) L /\ dead v = false /\ r_val r = v_val v /\ r_ver r = v_ver v.
Proof.
  induction L as [|[k v] t IH]; intros va r H; cbn [s3_recs] in H; [destruct H|].
  destruct (dead v) eqn:D.
  - destruct (IH _ _ H) as (v' & A & B). exists v'. split; [now right|exact B].
  - destruct H as [<-|H].
    + exists v. cbn. auto.
    + destruct (IH _ _ H) as (v' & A & B). exists v'. split; [now right|exact B].
Qed.

Lemma s3_recs_has L : forall va (k : string) v, In (k, v) L -> dead v = false ->
  exists r, In r (s3_recs L va) /\ r_key r = k /\ r_val r = v_val v /\ r_ver r = v_ver v.
Proof.
  induction L as [|[k0 v0] t IH]; intros va k v H D; [destruct H|]. cbn [s3_recs].
  destruct H as [E|H].
  - inversion E; subst. rewrite D. eexists. split; [now left|]. cbn. auto.
  - destruct (dead v0).
    + eapply IH; eauto.
    + destruct (IH (va + (8 + slen (v_val v0) + 4)) k v H D) as (r & A & B). exists r. split; [now right|exact B].
Qed.

Fixpoint load3_abs (recs : list arec) (pos : nat) (m : list (str * value)) (clk : N) : list (str * value) :=
  match recs with
  | [] => m
  | r :: t =>
      load3_abs t (pos + len (krec r))
        (aset (r_key r) (mkV (r_val r) (r_ver r) clk VOk (r_va r) (N.of_nat (pos + len (krec r)))) m)
        (clk + 1)
  end.

Lemma load3_abs_get recs : forall pos m clk k,
  (~ In k (map r_key recs) -> get k (load3_abs recs pos m clk) = get k m) /\
  (NoDup (map r_key recs) -> forall r, In r recs -> r_key r = k ->
     exists mv, get k (load3_abs recs pos m clk) = Some mv /\
                v_val mv = r_val r /\ v_ver mv = r_ver r /\ v_st mv = VOk).
Proof.
  induction recs as [|a t IH]; intros pos m clk k; cbn [load3_abs map].
  - split; [reflexivity|intros _ r []].
  - destruct (IH (pos + len (krec a))%nat
               (aset (r_key a) (mkV (r_val a) (r_ver a) clk VOk (r_va a) (N.of_nat (pos + len (krec a)))) m)
               (clk + 1) k) as [I1 I2].
    split.
    + intros Hn. rewrite I1 by (intros X; apply Hn; now right).
      apply str_get_set_other. intros ->. apply Hn. now left.
    + intros Hnd r Hin Hk. inversion Hnd as [|? ? Hnin Hnd']; subst.
      destruct Hin as [->|Hin].
      * rewrite I1 by assumption. rewrite str_get_set_same. eexists. split; [reflexivity|]. cbn. auto.
      * now apply I2.
Qed.

Lemma s3_load_step_rec K V st pre r post :
  K = pre +++ krec r +++ post -> l_pos st = len pre -> bufs_ok st ->
  rec_readable V r -> r_va r < two64 ->
  s3_load_step K V st =
  inl (mkL (len pre + len (krec r)) (le_bytes 8 (slen (r_val r))) (i32_bytes (r_ver r)) (le_bytes 8 (r_va r)) 0
           (aset (r_key r) (mkV (r_val r) (r_ver r) (l_clock st) VOk (r_va r) (N.of_nat (len pre + len (krec r)))) (l_map st))
           (l_clock st + 1)).
Proof.
  intros HK Hpos (Hl & Hv & Ha) ((Hku & Hkl) & (Hvu & Hvl) & Hat & Hver) Hva.
  pose proof max_alloc_lt. unfold two64 in Hva.
  destruct (krec_reads K pre r post _ _ _ HK Hl Hv Ha) as (H1 & H2 & H3 & H4). rewrite <- Hpos in *.
  destruct (val_reads V (r_va r) (r_val r) (le_bytes 8 (slen (r_key r))) Hat (len_le_bytes _ _)) as [H5 H6].
  unfold s3_load_step. rewrite H1. cbv iota beta. cbn [Nat.eqb]. rewrite le_decode_8 by lia.
  destruct (N.ltb_spec max_alloc (slen (r_key r))); [lia|].
  rewrite H2. cbv iota beta. rewrite Hku. cbn [negb].
  rewrite H3. cbv iota beta. rewrite H4. cbv iota beta. rewrite le_decode_8 by lia.
  rewrite H5. cbv iota beta. rewrite le_decode_8 by lia.
  destruct (N.ltb_spec max_alloc (slen (r_val r))); [lia|].
  rewrite H6. cbv iota beta. rewrite Hvu. cbn [negb]. rewrite i32_decode_bytes by exact Hver.
  replace (l_pos st + 8 + len (r_key r) + 4 + 8)%nat with (l_pos st + len (krec r))%nat; [reflexivity|].
  rewrite len_krec. unfold rsize, slen. lia.
Qed.

Lemma s3_load_step_end K V st : l_pos st = len K ->
  s3_load_step K V st = inr (LOk (l_map st) (l_clock st)).
Proof. intros H. unfold s3_load_step. rewrite read_into_eof by lia. reflexivity. Qed.

Lemma s3_load_loop_recs V : slen V < two64 ->
  forall recs fuel K pre st,
  K = pre +++ kcat recs -> l_pos st = len pre -> bufs_ok st ->
  Forall (rec_readable V) recs -> (length recs < fuel)%nat ->
  s3_load_loop fuel K V st =
  LOk (load3_abs recs (len pre) (l_map st) (l_clock st)) (l_clock st + N.of_nat (length recs)).
Proof.
  intros HV. induction recs as [|r t IH]; intros fuel K pre st HK Hpos Hst Hok Hf;
    (destruct fuel; [cbn in Hf; lia|]); cbn [s3_load_loop kcat] in *.
  - rewrite s3_load_step_end by (now rewrite HK, app_nil_r_s). cbn. f_equal. lia.
  - apply Forall_cons_iff in Hok. destruct Hok as [Hr Ht].
    rewrite (s3_load_step_rec K V st pre r (kcat t)); auto.
    + rewrite (IH fuel K (pre +++ krec r)); cbn [l_pos l_kaddr l_map l_clock length] in *;
        [cbn [load3_abs]; rewrite str_length_app; f_equal; lia|now rewrite app_assoc_s|now rewrite str_length_app| |assumption|lia].
      repeat split; cbn; auto using len_le_bytes, len_i32_bytes.
    + destruct Hr as (_ & _ & Hat & _). apply has_val_bound in Hat. lia.
Qed.

(* [m] holds exactly the non-deleted keys of [mem], with their value and version, persisted *)
Definition live_restored (mem m : list (str * value)) : Prop :=
  forall k, match get k mem with
            | Some mv => if dead mv then get k m = None else set_ok mv (get k m)
            | None => get k m = None
            end.

Definition s3_w (d : db) (order : list str) (clock : N) : s3w :=
  fold_left s3_one (keys_to_update (d_map d) order true) (mkS3W "" "" 0 0 (d_map d) clock).

Lemma s3_snapshot_nofault d dbn order reclaim s clock : st_putfail s = None ->
  s3_snapshot d dbn order reclaim s clock =
  (mkStub (aset (vname dbn) (sw_v (s3_w d order clock)) (aset (kname dbn) (sw_k (s3_w d order clock)) (st_objs s)))
          (st_puts s + 1 + 1) (st_gets s) None (st_getfail s),
   sw_mem (s3_w d order clock), sw_clock (s3_w d order clock)).
Proof.
  intros H. unfold s3_snapshot, s3_w. cbv zeta.
  rewrite (stub_put_nofault s) by exact H. cbv iota beta.
  rewrite stub_put_nofault by reflexivity. reflexivity.
Qed.

Lemma todo_all_iff m order (k : string) v : NoDup (map fst m) ->
  In (k, v) (keys_to_update m order true) <-> get k m = Some v.
Proof. intros Hm. rewrite todo_iff by exact Hm. cbn [orb]. tauto. Qed.

Lemma mem_ok3_sub (m L : list (string * value)) :
  mem_ok3 m -> (forall (k : string) v, In (k, v) L -> get k m = Some v) -> mem_ok3 L.
Proof. intros H HL k v Hin. eapply mem_ok3_get; eauto. Qed.

Theorem s3_roundtrip d dbn order reclaim s clock clk0 :
  NoDup (map fst (d_map d)) -> NoDup order -> mem_ok3 (d_map d) ->
  st_putfail s = None -> st_getfail s = None ->
  forall s' mem' clk', s3_snapshot d dbn order reclaim s clock = (s', mem', clk') ->
  (* the values object is smaller than 2^64 bytes *)
  (forall data, get (vname dbn) (st_objs s') = Some data -> slen data < 18446744073709551616) ->
  exists s'' m clk'',
    s3_read_db s' dbn clk0 = (s'', LOk m clk'') /\
    live_restored (d_map d) m /\
    snap_mem (fun _ => true) (d_map d) mem' /\
    st_objs s'' = st_objs s'.
Proof.
  intros Hm Ho Hok Hpf Hgf s' mem' clk' Hsnap Hsize.
  rewrite s3_snapshot_nofault in Hsnap by auto. inversion Hsnap; subst s' mem' clk'; clear Hsnap.
  set (L := keys_to_update (d_map d) order true).
  assert (HLiff : forall (k : string) v, In (k, v) L <-> get k (d_map d) = Some v)
    by (intros; now apply todo_all_iff).
  assert (HLnd : NoDup (map fst L)) by (apply todo_nodup; auto).
  destruct (s3_fold_bufs L (mkS3W "" "" 0 0 (d_map d) clock)) as [HK HV].
  change (fold_left s3_one L (mkS3W "" "" 0 0 (d_map d) clock)) with (s3_w d order clock) in HK, HV.
  cbn [sw_k sw_v sw_vaddr String.append] in HK, HV.
  set (w := s3_w d order clock) in *.
  assert (HVlt : slen (sw_v w) < 18446744073709551616) by (apply Hsize; cbn [st_objs]; apply str_get_set_same).
  unfold s3_read_db. rewrite stub_get_nofault by exact Hgf. cbn [st_objs]. rewrite str_get_set_same.
  rewrite stub_get_nofault by reflexivity. cbn [st_objs].
  rewrite str_get_set_other by apply kname_vname. rewrite str_get_set_same.
  rewrite (s3_load_loop_recs (sw_v w) HVlt (s3_recs L 0) _ (sw_k w) ""); [|exact HK|reflexivity|repeat split| |].
  2:{ rewrite HV. apply (s3_recs_ok L ""). apply (mem_ok3_sub (d_map d)); auto. intros k v. apply HLiff. }
  2:{ pose proof (length_le_len_kcat (s3_recs L 0)) as Hl. rewrite <- HK in Hl. lia. }
  eexists _, _, _. split; [reflexivity|]. cbn [l_map l_clock st_objs String.length]. split; [|split; [|reflexivity]].
  - intros k. destruct (load3_abs_get (s3_recs L 0) 0 [] clk0 k) as [G1 G2].
    rewrite s3_recs_keys in G1, G2.
    assert (Hkeys : forall v, In k (map fst (filter (fun kv : string * value => negb (dead (snd kv))) L)) ->
                    get k (d_map d) = Some v -> dead v = false).
    { intros v Hin E. apply in_map_iff in Hin. destruct Hin as ([k' v'] & Ek & Hf). cbn in Ek. subst k'.
      apply filter_In in Hf. destruct Hf as [HinL Hd]. apply HLiff in HinL. cbn [snd] in Hd.
      rewrite E in HinL. inversion HinL; subst. now apply negb_true_iff in Hd. }
    destruct (get k (d_map d)) as [v|] eqn:E.
    + destruct (dead v) eqn:D.
      * rewrite G1; [reflexivity|]. intros Hin. specialize (Hkeys v Hin eq_refl). congruence.
      * destruct (s3_recs_has L 0 k v) as (r & Hr & Hrk & Hrv & Hrr); [now apply HLiff|exact D|].
        destruct (G2 (nodup_filter_keys _ _ HLnd) r Hr Hrk) as (mv & Hg & A & B & C).
        exists mv. rewrite Hg. repeat split; congruence.
    + rewrite G1; [reflexivity|]. intros Hin. apply in_map_iff in Hin. destruct Hin as ([k' v'] & Ek & Hf).
      cbn in Ek. subst k'. apply filter_In in Hf. destruct Hf as [HinL _]. apply HLiff in HinL. congruence.
  - apply (fold_set_snap sw_mem s3_one _ _ _ s3_one_mem (fun _ => true) (d_map d) L); auto.
    intros k v. rewrite HLiff. tauto.
Qed.

Theorem s3_snapshot_other_objects d dbn order reclaim s clock nm :
  nm <> kname dbn -> nm <> vname dbn ->
  get nm (st_objs (fst (fst (s3_snapshot d dbn order reclaim s clock)))) = get nm (st_objs s).
Proof.
  intros Hk Hv. unfold s3_snapshot. cbv zeta.
  set (w := fold_left s3_one _ _).
  pose proof (stub_put_other s (kname dbn) (sw_k w) nm Hk) as H1.
  fold (kname dbn). fold (vname dbn).
  destruct (stub_put s (kname dbn) (sw_k w)) as [s1 ok1]. cbn [fst] in H1.
  pose proof (stub_put_other s1 (vname dbn) (sw_v w) nm Hv) as H2.
  destruct (stub_put s1 (vname dbn) (sw_v w)) as [s2 ok2]. cbn [fst] in *. congruence.
Qed.

Record prec := mkP { p_key : str; p_val : str; p_ver : Z }.

Definition pbytes (r : prec) : str :=
  le_bytes 8 (slen (p_key r)) +++ p_key r +++ le_bytes 8 (slen (p_val r)) +++ p_val r +++
  le_bytes 4 (status_code VOk) +++ i32_bytes (p_ver r).
Fixpoint pcat (l : list prec) : str := match l with [] => "" | r :: t => pbytes r +++ pcat t end.
Definition prec_ok (r : prec) : Prop := str_ok (p_key r) /\ str_ok (p_val r) /\ i32_range (p_ver r).

Lemma len_pbytes r : len (pbytes r) = (8 + len (p_key r) + 8 + len (p_val r) + 4 + 4)%nat.
Proof. unfold pbytes. rewrite !str_length_app, !len_le_bytes, len_i32_bytes. lia. Qed.

Lemma length_le_pcat l : (length l <= len (pcat l))%nat.
Proof. induction l; cbn [length pcat]; [lia|]. rewrite str_length_app, len_pbytes. lia. Qed.

Lemma pcat_app a b : pcat (a ++ b) = pcat a +++ pcat b.
Proof. induction a; cbn [app pcat String.append]; auto. now rewrite IHa, app_assoc_s. Qed.

Fixpoint pload_abs (p : N) (recs : list prec) (m : list (str * value)) (clk : N) : list (str * value) :=
  match recs with
  | [] => m
  | r :: t => pload_abs p t (aset (p_key r) (mkV (p_val r) (p_ver r) clk VOk p 0) m) (clk + 1)
  end.

Lemma pload_abs_get p recs : forall m clk k,
  (~ In k (map p_key recs) -> get k (pload_abs p recs m clk) = get k m) /\
  (NoDup (map p_key recs) -> forall r, In r recs -> p_key r = k ->
     exists opp, get k (pload_abs p recs m clk) = Some (mkV (p_val r) (p_ver r) opp VOk p 0)).
Proof.
  induction recs as [|a t IH]; intros m clk k; cbn [pload_abs map].
  - split; [reflexivity|intros _ r []].
  - destruct (IH (aset (p_key a) (mkV (p_val a) (p_ver a) clk VOk p 0) m) (clk + 1) k) as [I1 I2].
    split.
    + intros Hn. rewrite I1 by (intros X; apply Hn; now right).
      apply str_get_set_other. intros ->. apply Hn. now left.
    + intros Hnd r Hin Hk. inversion Hnd as [|? ? Hnin Hnd']; subst.
      destruct Hin as [->|Hin].
      * rewrite I1 by assumption. rewrite str_get_set_same. eauto.
      * now apply I2.
Qed.

Lemma pload_abs_nodup p recs : forall m clk, NoDup (map fst m) -> NoDup (map fst (pload_abs p recs m clk)).
Proof.
  induction recs as [|a t IH]; intros m clk H; cbn [pload_abs]; auto.
  apply IH. apply str_nodup_set; auto.
Qed.

Lemma part_load_step_rec p file lb st pre r post :
  file = pre +++ pbytes r +++ post -> pl_pos st = len pre -> len lb = 8%nat -> prec_ok r ->
  part_load_step p file lb st =
  inl (mkPL (len pre + len (pbytes r)) (aset (p_key r) (mkV (p_val r) (p_ver r) (pl_clock st) VOk p 0) (pl_map st))
            (pl_clock st + 1), le_bytes 8 (slen (p_key r))).
Proof.
  intros HF Hpos Hl ((Hku & Hkl) & (Hvu & Hvl) & Hver). pose proof max_alloc_lt.
  destruct (reads_intro [le_bytes 8 (slen (p_key r)); p_key r; le_bytes 8 (slen (p_val r)); p_val r;
                         le_bytes 4 (status_code VOk); i32_bytes (p_ver r)] file pre post)
    as (R1 & R2 & R3 & R4 & R5 & R6 & _).
  { rewrite HF. unfold pbytes. cbn [fold_right]. now rewrite !app_assoc_s. }
  rewrite !len_le_bytes, ?len_i32_bytes, <- Hpos in *.
  assert (LZ : forall s, len (zeros (N.to_nat (slen s))) = len s) by (intros; rewrite len_zeros; unfold slen; lia).
  unfold part_load_step. rewrite (R1 lb Hl). cbv iota beta. cbn [Nat.eqb]. rewrite le_decode_8 by lia.
  destruct (N.ltb_spec max_alloc (slen (p_key r))); [lia|].
  rewrite R2 by apply LZ. cbv iota beta. rewrite Hku. cbn [negb].
  rewrite R3 by apply len_zeros. cbv iota beta. rewrite le_decode_8 by lia.
  destruct (N.ltb_spec max_alloc (slen (p_val r))); [lia|].
  rewrite R4 by apply LZ. cbv iota beta. rewrite Hvu. cbn [negb].
  rewrite R5 by apply len_zeros. cbv iota beta. rewrite R6 by apply len_zeros. cbv iota beta.
  rewrite i32_decode_bytes by exact Hver.
  change (i32_decode (le_bytes 4 (status_code VOk))) with 0%Z. cbn [Z.eqb].
  replace (pl_pos st + 8 + len (p_key r) + 8 + len (p_val r) + 4 + 4)%nat with (pl_pos st + len (pbytes r))%nat;
    [reflexivity|rewrite len_pbytes; lia].
Qed.

Lemma part_load_step_end p file lb st : pl_pos st = len file ->
  part_load_step p file lb st = inr (LOk (pl_map st) (pl_clock st)).
Proof. intros H. unfold part_load_step. rewrite read_into_eof by lia. reflexivity. Qed.

Lemma part_load_loop_recs p : forall recs fuel file pre lb st,
  file = pre +++ pcat recs -> pl_pos st = len pre -> len lb = 8%nat ->
  Forall prec_ok recs -> (length recs < fuel)%nat ->
  part_load_loop fuel p file lb st =
  LOk (pload_abs p recs (pl_map st) (pl_clock st)) (pl_clock st + N.of_nat (length recs)).
Proof.
  induction recs as [|r t IH]; intros fuel file pre lb st HF Hpos Hl Hok Hf.
  - destruct fuel; [cbn in Hf; lia|]. cbn [part_load_loop].
    rewrite part_load_step_end.
    + cbn. f_equal. lia.
    + rewrite HF. cbn [pcat]. now rewrite app_nil_r_s.
  - destruct fuel; [cbn in Hf; lia|]. cbn [part_load_loop].
    apply Forall_cons_iff in Hok. destruct Hok as [Hr Ht].
    cbn [pcat] in HF.
    rewrite (part_load_step_rec p file lb st pre r (pcat t)); auto.
    rewrite (IH fuel file (pre +++ pbytes r)); cbn [pl_pos pl_map pl_clock]; auto using len_le_bytes.
    + cbn [pload_abs length]. f_equal. lia.
    + now rewrite app_assoc_s.
    + now rewrite str_length_app.
    + cbn [length] in Hf. lia.
Qed.

Lemma part_load_object p recs m clk : Forall prec_ok recs ->
  part_load_loop (S (len (pcat recs))) p (pcat recs) (zeros 8) (mkPL 0 m clk) =
  LOk (pload_abs p recs m clk) (clk + N.of_nat (length recs)).
Proof.
  intros H. rewrite (part_load_loop_recs p recs _ (pcat recs) "" (zeros 8) (mkPL 0 m clk)); auto.
  pose proof (length_le_pcat recs). lia.
Qed.

Definition live_of (L : list (string * value)) : list (string * value) :=
  filter (fun kv => negb (dead (snd kv))) L.
Definition part_recs (L : list (string * value)) : list prec :=
  map (fun kv => mkP (fst kv) (v_val (snd kv)) (v_ver (snd kv))) (live_of L).

Lemma part_one_eq p w (k : string) v :
  part_one p w (k, v) =
  if dead v then w else
  mkPW (pw_buf w +++ pbytes (mkP k (v_val v) (v_ver v)))
       (aset k (mkV (v_val v) (v_ver v) (pw_clock w) VOk p p) (pw_mem w)) (pw_clock w + 1).
Proof. reflexivity. Qed.

Lemma part_one_mem p w (k : string) (v : value) :
  pw_mem (part_one p w (k, v)) =
  if dead v then pw_mem w else aset k (mkV (v_val v) (v_ver v) (pw_clock w) VOk p p) (pw_mem w).
Proof. rewrite part_one_eq. now destruct (dead v). Qed.

Lemma part_fold_buf p L : forall w,
  pw_buf (fold_left (part_one p) L w) = pw_buf w +++ pcat (part_recs L).
Proof.
  unfold part_recs, live_of.
  induction L as [|[k v] t IH]; intros w; cbn [fold_left filter map pcat snd].
  - now rewrite app_nil_r_s.
  - rewrite part_one_eq. destruct (dead v); cbn [negb]; [apply IH|].
    rewrite IH. cbn [pw_buf map pcat fst snd]. now rewrite !app_assoc_s.
Qed.

Lemma part_recs_keys L : map p_key (part_recs L) = map fst (live_of L).
Proof. unfold part_recs. rewrite map_map. reflexivity. Qed.

Lemma part_recs_ok L : mem_ok3 L -> Forall prec_ok (part_recs L).
Proof.
  intros H. unfold part_recs. apply Forall_forall. intros r Hin. apply in_map_iff in Hin.
  destruct Hin as ([k v] & <- & Hin). apply filter_In in Hin. destruct Hin as [Hin _].
  exact (H k v Hin).
Qed.

Lemma part_recs_in L r : In r (part_recs L) <->
  exists v, In (p_key r, v) L /\ dead v = false /\ p_val r = v_val v /\ p_ver r = v_ver v.
Proof.
  unfold part_recs, live_of. rewrite in_map_iff. split.
  - intros ([k v] & <- & Hin). apply filter_In in Hin. destruct Hin as [Hin Hd]. cbn in *.
    exists v. apply negb_true_iff in Hd. auto.
  - intros (v & Hin & Hd & A & B). exists (p_key r, v). split.
    + destruct r; cbn in *. congruence.
    + apply filter_In. split; auto. cbn. now rewrite Hd.
Qed.

Definition part_ks (parts : list (str * N)) (p : N) (mem : list (string * value)) (o : list str)
  : list (string * value) :=
  filter (fun kv => N.eqb (part_of parts (fst kv)) p) (order_map mem o).
Definition part_w parts p mem clock o : pw := fold_left (part_one p) (part_ks parts p mem o) (mkPW "" mem clock).
Definition part_obj parts p mem o : list prec := part_recs (part_ks parts p mem o).

(* [recs] = exactly the non-deleted keys of [mem] that live in partition [p] *)
Definition recs_exact (parts : list (str * N)) (p : N) (mem : list (string * value)) (recs : list prec) : Prop :=
  NoDup (map p_key recs) /\ Forall prec_ok recs /\
  forall r, In r recs <->
    exists v, get (p_key r) mem = Some v /\ part_of parts (p_key r) = p /\ dead v = false /\
              p_val r = v_val v /\ p_ver r = v_ver v.

Lemma part_ks_iff parts p mem o (k : string) v : NoDup (map fst mem) -> NoDup o ->
  In (k, v) (part_ks parts p mem o) <-> get k mem = Some v /\ part_of parts k = p.
Proof.
  intros Hm Ho. unfold part_ks. rewrite filter_In, (order_map_iff mem o Hm k v). cbn [fst].
  rewrite N.eqb_eq. tauto.
Qed.

Lemma part_ks_nodup parts p mem o : NoDup (map fst mem) -> NoDup o -> NoDup (map fst (part_ks parts p mem o)).
Proof. intros Hm Ho. apply nodup_filter_keys, order_map_nodup; auto. Qed.

Lemma part_obj_exact parts p mem o : NoDup (map fst mem) -> NoDup o -> mem_ok3 mem ->
  recs_exact parts p mem (part_obj parts p mem o).
Proof.
  intros Hm Ho Hok. unfold part_obj. split; [|split].
  - rewrite part_recs_keys. apply nodup_filter_keys, part_ks_nodup; auto.
  - apply part_recs_ok. apply (mem_ok3_sub mem); auto. intros k v H. now apply part_ks_iff in H.
  - intros r. rewrite part_recs_in. split; intros (v & H & R).
    + apply part_ks_iff in H; auto. exists v. tauto.
    + exists v. split; [|tauto]. apply part_ks_iff; tauto.
Qed.

Lemma part_attempts_nofault fuel parts p dbn mem s clock orders : st_putfail s = None ->
  part_attempts fuel parts p dbn mem s clock orders =
  (mkStub (aset (pname dbn p) (pcat (part_obj parts p mem (hd [] orders))) (st_objs s))
          (st_puts s + 1) (st_gets s) None (st_getfail s),
   pw_mem (part_w parts p mem clock (hd [] orders)), pw_clock (part_w parts p mem clock (hd [] orders)),
   tl orders, true).
Proof.
  intros H. unfold part_obj, part_w, part_ks.
  destruct fuel; cbn [part_attempts]; destruct orders as [|o os]; cbn [hd tl]; cbv zeta;
    fold (pname dbn p); rewrite stub_put_nofault by exact H; cbv iota beta;
    rewrite part_fold_buf; reflexivity.
Qed.

Lemma part_w_mem parts p mem clock o : NoDup (map fst mem) -> NoDup o ->
  snap_mem (fun k => N.eqb (part_of parts k) p) mem (pw_mem (part_w parts p mem clock o)).
Proof.
  intros Hm Ho. unfold part_w.
  apply (fold_set_snap pw_mem (part_one p) _ _ _ (part_one_mem p) _ mem (part_ks parts p mem o)); auto.
  - now apply part_ks_nodup.
  - intros k v. rewrite part_ks_iff, N.eqb_eq; tauto.
Qed.

Lemma load_exact_get parts p mem recs m0 clk0 k : recs_exact parts p mem recs ->
  match get k mem with
  | Some mv => if negb (dead mv) && N.eqb (part_of parts k) p
               then exists opp, get k (pload_abs p recs m0 clk0) = Some (mkV (v_val mv) (v_ver mv) opp VOk p 0)
               else get k (pload_abs p recs m0 clk0) = get k m0
  | None => get k (pload_abs p recs m0 clk0) = get k m0
  end.
Proof.
  intros (Hnd & Hok & Hiff). destruct (pload_abs_get p recs m0 clk0 k) as [G1 G2].
  assert (Hout : (forall v, get k mem = Some v -> part_of parts k = p -> dead v = false -> False) ->
                 get k (pload_abs p recs m0 clk0) = get k m0).
  { intros Hno. apply G1. intros Hin. apply in_map_iff in Hin. destruct Hin as (r & <- & Hr). apply Hiff in Hr.
    destruct Hr as (v & A & B & C & _). eauto. }
  destruct (get k mem) as [mv|] eqn:E; [|apply Hout; discriminate].
  destruct (dead mv) eqn:D; cbn [negb andb]; [apply Hout; congruence|].
  destruct (N.eqb_spec (part_of parts k) p) as [Hp|Hp]; [|apply Hout; congruence].
  assert (Hr : In (mkP k (v_val mv) (v_ver mv)) recs) by (apply Hiff; exists mv; cbn; auto).
  destruct (G2 Hnd _ Hr eq_refl) as [opp Ho]. exists opp. exact Ho.
Qed.

Theorem part_object_roundtrip parts p dbn mem s clock fuel orders :
  NoDup (map fst mem) -> mem_ok3 mem -> NoDup (hd [] orders) -> st_putfail s = None ->
  exists s1 mem1 clk1 data,
    part_attempts fuel parts p dbn mem s clock orders = (s1, mem1, clk1, tl orders, true) /\
    st_objs s1 = aset (pname dbn p) data (st_objs s) /\
    (* memory: the non-deleted keys of partition p are now Ok, nothing else changed *)
    snap_mem (fun k => N.eqb (part_of parts k) p) mem mem1 /\
    (* the object decodes, into any accumulator, to exactly the non-deleted keys of partition p *)
    forall m0 clk0, exists m' clk',
      part_load_loop (S (len data)) p data (zeros 8) (mkPL 0 m0 clk0) = LOk m' clk' /\
      forall k, match get k mem with
                | Some mv => if negb (dead mv) && N.eqb (part_of parts k) p
                             then exists opp, get k m' = Some (mkV (v_val mv) (v_ver mv) opp VOk p 0)
                             else get k m' = get k m0
                | None => get k m' = get k m0
                end.
Proof.
  intros Hm Hok Ho Hpf. rewrite part_attempts_nofault by exact Hpf.
  eexists _, _, _, _. split; [reflexivity|]. cbn [st_objs]. split; [reflexivity|].
  split; [now apply part_w_mem|].
  intros m0 clk0. pose proof (part_obj_exact parts p mem (hd [] orders) Hm Ho Hok) as Hex.
  rewrite part_load_object by apply Hex.
  eexists _, _. split; [reflexivity|]. intros k. now apply load_exact_get.
Qed.

Lemma snap_mem_compose s1 s2 a b c :
  snap_mem s1 a b -> snap_mem s2 b c -> snap_mem (fun k => s1 k || s2 k) a c.
Proof.
  intros H1 H2 k. specialize (H1 k). specialize (H2 k). destruct (get k a) as [mv|].
  - destruct (s1 k) eqn:S1; cbn [andb orb] in *.
    + destruct (dead mv) eqn:D; cbn [negb] in *.
      * rewrite H1 in H2. rewrite D, andb_false_r in H2. exact H2.
      * destruct H1 as (x & Hx & A & B & C). rewrite Hx in H2.
        rewrite (ok_not_dead x C) in H2. cbn [negb] in H2. rewrite andb_true_r in H2.
        destruct (s2 k).
        -- destruct H2 as (y & Hy & A' & B' & C'). exists y. repeat split; congruence.
        -- exists x. auto.
    + rewrite H1 in H2. exact H2.
  - rewrite H1 in H2. exact H2.
Qed.

Lemma snap_mem_ext s1 s2 a b : (forall k, s1 k = s2 k) -> snap_mem s1 a b -> snap_mem s2 a b.
Proof. intros E H k. specialize (H k). now rewrite <- E. Qed.

Lemma snap_mem_none a : snap_mem (fun _ => false) a a.
Proof. intros k. destruct (get k a); reflexivity. Qed.

Lemma snap_mem_live sel a b k (Q : Prop) val ver : snap_mem sel a b ->
  (exists v, get k a = Some v /\ Q /\ dead v = false /\ val = v_val v /\ ver = v_ver v) <->
  (exists v, get k b = Some v /\ Q /\ dead v = false /\ val = v_val v /\ ver = v_ver v).
Proof.
  intros H. specialize (H k). destruct (get k a) as [mv|] eqn:E.
  - destruct (sel k && negb (dead mv)) eqn:S.
    + destruct H as (x & Hx & A & B & C). apply andb_true_iff in S. destruct S as [_ S].
      apply negb_true_iff in S. pose proof (ok_not_dead x C) as Dx. split.
      * intros (v & Ev & HQ & D & -> & ->). inversion Ev; subst. exists x. auto.
      * intros (v & Ev & HQ & D & -> & ->). rewrite Hx in Ev. inversion Ev; subst. exists mv. auto.
    + rewrite H. tauto.
  - rewrite H. split; intros (v & Ev & _); discriminate.
Qed.

Lemma live_restored_snap sel a b m : snap_mem sel a b -> live_restored b m -> live_restored a m.
Proof.
  intros Hsn Hlr k. specialize (Hlr k). specialize (Hsn k).
  destruct (get k a) as [mv|]; [|now rewrite Hsn in Hlr].
  destruct (sel k && negb (dead mv)) eqn:S; [|now rewrite Hsn in Hlr].
  destruct Hsn as (x & Hx & A & B & C). rewrite Hx in Hlr. rewrite (ok_not_dead x C) in Hlr.
  apply andb_true_iff in S. destruct S as [_ S]. apply negb_true_iff in S. rewrite S.
  destruct Hlr as (y & Hy & A' & B' & C'). exists y. repeat split; congruence.
Qed.

Lemma recs_exact_snap parts p sel a b recs : snap_mem sel a b ->
  recs_exact parts p a recs <-> recs_exact parts p b recs.
Proof.
  intros H.
  unfold recs_exact. split; intros (A & B & C); (split; [exact A|split; [exact B|]]); intros r;
    rewrite C; [|symmetry]; apply (snap_mem_live sel a b (p_key r) _ (p_val r) (p_ver r) H).
Qed.

(* no PUT will fail any more *)
Definition putq (s : stub) : Prop :=
  match st_putfail s with None => True | Some (n, al) => al = false /\ n <= st_puts s end.
(* at most one PUT fails, and the retry budget covers it *)
Definition ptol (retry : nat) (s : stub) : Prop :=
  putq s \/ ((1 <= retry)%nat /\ exists n, st_putfail s = Some (n, false)).

Lemma stub_put_quiet s nm d : putq s ->
  stub_put s nm d = (mkStub (aset nm d (st_objs s)) (st_puts s + 1) (st_gets s) (st_putfail s) (st_getfail s), true).
Proof.
  unfold putq, stub_put. destruct (st_putfail s) as [[n al]|]; [|reflexivity].
  intros [-> Hn]. destruct (N.eqb_spec n (st_puts s + 1)); [lia|reflexivity].
Qed.

Lemma stub_put_cases s nm d n : st_putfail s = Some (n, false) ->
  stub_put s nm d = (mkStub (aset nm d (st_objs s)) (st_puts s + 1) (st_gets s) (st_putfail s) (st_getfail s), true) \/
  (stub_put s nm d = (mkStub (st_objs s) (st_puts s + 1) (st_gets s) (st_putfail s) (st_getfail s), false) /\
   putq (mkStub (st_objs s) (st_puts s + 1) (st_gets s) (st_putfail s) (st_getfail s))).
Proof.
  intros H. unfold stub_put, putq. cbn [st_putfail st_puts]. rewrite H.
  destruct (N.eqb_spec n (st_puts s + 1)); [right|left]; auto. split; auto. split; auto. lia.
Qed.

Lemma part_attempts_step fuel parts p dbn mem s clock orders :
  part_attempts fuel parts p dbn mem s clock orders =
  let w := part_w parts p mem clock (hd [] orders) in
  let '(s1, ok) := stub_put s (pname dbn p) (pcat (part_obj parts p mem (hd [] orders))) in
  if ok then (s1, pw_mem w, pw_clock w, tl orders, true)
  else match fuel with
       | O => (s1, pw_mem w, pw_clock w, tl orders, false)
       | S f => part_attempts f parts p dbn (pw_mem w) s1 (pw_clock w) (tl orders)
       end.
Proof.
  unfold part_obj, part_w, part_ks.
  destruct fuel; cbn [part_attempts]; destruct orders as [|o os]; cbn [hd tl]; cbv zeta;
    rewrite part_fold_buf; reflexivity.
Qed.

Definition psel (parts : list (str * N)) (p : N) : str -> bool := fun k => N.eqb (part_of parts k) p.

(* what a successful write of partition p establishes *)
Definition AttPost parts p dbn (mem : list (string * value)) (objs : objects) mem1 (objs1 : objects) : Prop :=
  exists recs, objs1 = aset (pname dbn p) (pcat recs) objs /\ recs_exact parts p mem recs /\
               snap_mem (psel parts p) mem mem1 /\ NoDup (map fst mem1) /\ mem_ok3 mem1.

Lemma part_w_good parts p mem clock o : NoDup (map fst mem) -> mem_ok3 mem -> NoDup o ->
  NoDup (map fst (pw_mem (part_w parts p mem clock o))) /\ mem_ok3 (pw_mem (part_w parts p mem clock o)).
Proof.
  intros Hm Hok Ho. unfold part_w. split.
  - apply (fold_set_nodup pw_mem (part_one p) _ _ _ (part_one_mem p)). exact Hm.
  - apply (fold_set_ok pw_mem (part_one p) _ _ _ (part_one_mem p)); auto.
    apply (mem_ok3_sub mem); auto. intros k v H. now apply part_ks_iff in H.
Qed.

Lemma hd_nodup (orders : list (list str)) : Forall (@NoDup str) orders -> NoDup (hd [] orders).
Proof. destruct orders; cbn; [constructor|]. now inversion 1. Qed.
Lemma tl_nodup (orders : list (list str)) : Forall (@NoDup str) orders -> Forall (@NoDup str) (tl orders).
Proof. destruct orders; cbn; auto. now inversion 1. Qed.

(* With at most one PUT fault left and a retry to cover it, writing a partition succeeds at the first
   or the second attempt; the second attempt writes the memory the first one left (its keys already
   Ok), and [recs_exact_snap] carries the object's exactness back to the memory before. *)
Lemma part_attempts_tol fuel parts p dbn mem s clock orders :
  ptol fuel s -> NoDup (map fst mem) -> mem_ok3 mem -> Forall (@NoDup str) orders ->
  exists s1 mem1 clk1 os1,
    part_attempts fuel parts p dbn mem s clock orders = (s1, mem1, clk1, os1, true) /\
    AttPost parts p dbn mem (st_objs s) mem1 (st_objs s1) /\
    st_putfail s1 = st_putfail s /\ st_puts s <= st_puts s1 /\ st_getfail s1 = st_getfail s /\
    st_gets s1 = st_gets s /\ Forall (@NoDup str) os1.
Proof.
  intros Htol Hm Hok Hos.
  pose proof (hd_nodup _ Hos) as Ho. pose proof (tl_nodup _ Hos) as Hos'.
  pose proof (part_w_good parts p mem clock (hd [] orders) Hm Hok Ho) as [Hm1 Hok1].
  pose proof (part_w_mem parts p mem clock (hd [] orders) Hm Ho) as Hsn.
  pose proof (part_obj_exact parts p mem (hd [] orders) Hm Ho Hok) as Hex.
  assert (Hgood : forall s1,
     s1 = mkStub (aset (pname dbn p) (pcat (part_obj parts p mem (hd [] orders))) (st_objs s))
                 (st_puts s + 1) (st_gets s) (st_putfail s) (st_getfail s) ->
     AttPost parts p dbn mem (st_objs s) (pw_mem (part_w parts p mem clock (hd [] orders))) (st_objs s1) /\
     st_putfail s1 = st_putfail s /\ st_puts s <= st_puts s1 /\ st_getfail s1 = st_getfail s /\
     st_gets s1 = st_gets s /\ Forall (@NoDup str) (tl orders)).
  { intros s1 ->. cbn [st_objs st_putfail st_puts st_getfail st_gets]. split; [|repeat split; auto; lia].
    exists (part_obj parts p mem (hd [] orders)). auto. }
  rewrite part_attempts_step. cbv zeta.
  destruct Htol as [Hq|(Hf & n & Hn)].
  - rewrite stub_put_quiet by exact Hq. eexists _, _, _, _. split; [reflexivity|]. now apply Hgood.
  - destruct (stub_put_cases s (pname dbn p) (pcat (part_obj parts p mem (hd [] orders))) n Hn) as [E|[E Hq]];
      rewrite E.
    + eexists _, _, _, _. split; [reflexivity|]. now apply Hgood.
    + destruct fuel as [|f]; [lia|].
      set (mem1 := pw_mem (part_w parts p mem clock (hd [] orders))) in *.
      set (clk1 := pw_clock (part_w parts p mem clock (hd [] orders))).
      pose proof (hd_nodup _ Hos') as Ho2.
      pose proof (part_w_good parts p mem1 clk1 (hd [] (tl orders)) Hm1 Hok1 Ho2) as [Hm2 Hok2].
      pose proof (part_w_mem parts p mem1 clk1 (hd [] (tl orders)) Hm1 Ho2) as Hsn2.
      pose proof (part_obj_exact parts p mem1 (hd [] (tl orders)) Hm1 Ho2 Hok1) as Hex2.
      rewrite part_attempts_step. cbv zeta. rewrite stub_put_quiet by exact Hq.
      eexists _, _, _, _. split; [reflexivity|].
      cbn [st_objs st_putfail st_puts st_getfail st_gets]. split; [|repeat split; auto using tl_nodup; lia].
      exists (part_obj parts p mem1 (hd [] (tl orders))). split; [reflexivity|]. split; [|split; [|split]]; auto.
      * apply (recs_exact_snap parts p _ mem mem1 _ Hsn). exact Hex2.
      * eapply snap_mem_ext; [|eapply snap_mem_compose; [exact Hsn|exact Hsn2]].
        intros k. cbv beta. apply orb_diag.
Qed.

Lemma part_attempts_allfail fuel parts p dbn : forall mem s clock orders n,
  st_putfail s = Some (n, true) -> n <= st_puts s + 1 ->
  exists s1 mem1 clk1 os1,
    part_attempts fuel parts p dbn mem s clock orders = (s1, mem1, clk1, os1, false) /\
    st_objs s1 = st_objs s.
Proof.
  induction fuel as [|f IH]; intros mem s clock orders n Hn Hle; rewrite part_attempts_step; cbv zeta;
    unfold stub_put at 1; rewrite Hn; (destruct (N.leb_spec n (st_puts s + 1)); [|lia]).
  - eexists _, _, _, _. split; reflexivity.
  - edestruct (IH (pw_mem (part_w parts p mem clock (hd [] orders)))
                  (mkStub (st_objs s) (st_puts s + 1) (st_gets s) (Some (n, true)) (st_getfail s))
                  (pw_clock (part_w parts p mem clock (hd [] orders))) (tl orders) n) as (s1 & m1 & c1 & o1 & E & O).
    + reflexivity.
    + cbn [st_puts]. lia.
    + rewrite E. eexists _, _, _, _. split; [reflexivity|]. exact O.
Qed.

Definition pssel (parts : list (str * N)) (ps : list N) : str -> bool :=
  fun k => existsb (N.eqb (part_of parts k)) ps.

(* what a successful snapshot of the partitions [ps] establishes: every written object holds exactly
   the non-deleted keys of its partition, no other object changes, the non-deleted keys of the
   written partitions are Ok in memory and nothing else changes in memory *)
Definition GoPost parts dbn (ps : list N) (mem : list (string * value)) (objs : objects) mem' (objs' : objects) : Prop :=
  (exists dec : N -> list prec,
     forall p, In p ps -> get (pname dbn p) objs' = Some (pcat (dec p)) /\ recs_exact parts p mem (dec p)) /\
  (forall nm, (forall p, In p ps -> nm <> pname dbn p) -> get nm objs' = get nm objs) /\
  (forall nm, In nm (map fst objs') -> In nm (map fst objs) \/ exists p, In p ps /\ nm = pname dbn p) /\
  snap_mem (pssel parts ps) mem mem' /\ NoDup (map fst mem') /\ mem_ok3 mem'.

Lemma ptol_mono retry s s1 : ptol retry s -> st_putfail s1 = st_putfail s -> st_puts s <= st_puts s1 -> ptol retry s1.
Proof.
  intros [Hq|(Hr & n & Hn)] Hpf Hpu.
  - left. unfold putq in *. rewrite Hpf. destruct (st_putfail s) as [[m al]|]; auto. destruct Hq. split; auto. lia.
  - right. split; auto. exists n. congruence.
Qed.

Lemma part_go_tol retry parts dbn : forall ps mem s clock orders,
  ptol retry s -> NoDup (map fst mem) -> mem_ok3 mem -> Forall (@NoDup str) orders ->
  exists s' mem' clk' os',
    part_snapshot_go retry parts ps dbn mem s clock orders = (s', mem', clk', os', true) /\
    GoPost parts dbn ps mem (st_objs s) mem' (st_objs s') /\
    st_putfail s' = st_putfail s /\ st_puts s <= st_puts s' /\ st_getfail s' = st_getfail s /\
    st_gets s' = st_gets s.
Proof.
  induction ps as [|p rest IH]; intros mem s clock orders Htol Hm Hok Hos; cbn [part_snapshot_go].
  - eexists _, _, _, _. split; [reflexivity|]. split; [|repeat split; auto; lia].
    split; [exists (fun _ => []); intros p []|]. split; [reflexivity|]. split; [auto|]. split; [|auto].
    apply (snap_mem_ext (fun _ => false)); [reflexivity|apply snap_mem_none].
  - destruct (part_attempts_tol retry parts p dbn mem s clock orders Htol Hm Hok Hos)
      as (s1 & mem1 & clk1 & os1 & E & (recs & Eo & Hex & Hsn & Hm1 & Hok1) & Hpf & Hpu & Hgf & Hge & Hos1).
    rewrite E. cbv iota beta.
    destruct (IH mem1 s1 clk1 os1 (ptol_mono _ _ _ Htol Hpf Hpu) Hm1 Hok1 Hos1)
      as (s' & mem' & clk' & os' & E' & ((decr & G1) & G2 & G3 & G4 & G5 & G6) & Hpf' & Hpu' & Hgf' & Hge').
    rewrite E'. eexists _, _, _, _. split; [reflexivity|].
    split; [|repeat split; try congruence; lia].
    split; [|split; [|split; [|split; [|split]]]]; auto.
    + exists (fun q => if in_dec N.eq_dec q rest then decr q else recs).
      intros q Hq. destruct (in_dec N.eq_dec q rest) as [Hin|Hnin].
      * destruct (G1 q Hin) as (A & B). split; auto.
        now apply (recs_exact_snap parts q _ mem mem1 _ Hsn).
      * destruct Hq as [<-|Hq]; [|contradiction]. split; auto.
        rewrite G2; [rewrite Eo; apply str_get_set_same|].
        intros q Hq Heq. apply pname_inj in Heq. congruence.
    + intros nm Hnm. rewrite G2 by (intros q Hq; apply Hnm; now right).
      rewrite Eo. apply str_get_set_other. apply Hnm. now left.
    + intros nm Hin. destruct (G3 nm Hin) as [H|(q & Hq & ->)].
      * rewrite Eo in H. apply (in_keys_set String.eqb String.eqb_spec) in H. destruct H as [->|H]; auto. right. exists p. split; auto. now left.
      * right. exists q. split; auto. now right.
    + eapply snap_mem_ext; [|eapply snap_mem_compose; [exact Hsn|exact G4]]. reflexivity.
Qed.

Definition snap_ps (parts : list (str * N)) (m : list (string * value)) (order0 : list str) (reclaim : bool) : list N :=
  fold_left (fun acc kv => insert_N (part_of parts (fst kv)) acc) (keys_to_update m order0 reclaim) [].

Lemma part_snapshot_eq retry parts d dbn order0 reclaim s clock orders :
  part_snapshot retry parts d dbn order0 reclaim s clock orders =
  part_snapshot_go retry parts (snap_ps parts (d_map d) order0 reclaim) dbn (d_map d) s clock orders.
Proof. reflexivity. Qed.

Lemma insert_N_in x y l : In x (insert_N y l) <-> x = y \/ In x l.
Proof.
  induction l as [|a l IH]; cbn [insert_N].
  - cbn. intuition.
  - destruct (N.ltb y a); [cbn; intuition|].
    destruct (N.eqb_spec y a) as [->|Hn]; [cbn; intuition|].
    cbn [In]. rewrite IH. intuition.
Qed.

Lemma fold_insert_in parts (L : list (string * value)) : forall acc x,
  In x (fold_left (fun acc kv => insert_N (part_of parts (fst kv)) acc) L acc) <->
  In x acc \/ exists kv, In kv L /\ part_of parts (fst kv) = x.
Proof.
  induction L as [|a L IH]; intros acc x; cbn [fold_left].
  - split; [auto|]. intros [H|(kv & [] & _)]; auto.
  - rewrite IH, insert_N_in. split.
    + intros [[->|H]|(kv & H & E)]; auto.
      * right. exists a. split; [now left|reflexivity].
      * right. exists kv. split; [now right|auto].
    + intros [H|(kv & [<-|H] & E)]; auto.
      right. exists kv. auto.
Qed.

Lemma snap_ps_in parts m order0 reclaim p :
  In p (snap_ps parts m order0 reclaim) <->
  exists (k : string) v, In (k, v) (keys_to_update m order0 reclaim) /\ part_of parts k = p.
Proof.
  unfold snap_ps. rewrite fold_insert_in. split.
  - intros [[]|([k v] & H & E)]. exists k, v. auto.
  - intros (k & v & H & E). right. exists (k, v). auto.
Qed.

Lemma snap_ps_selects parts m order0 reclaim (k : string) v : NoDup (map fst m) ->
  get k m = Some v -> (reclaim || negb (vstate_eqb (v_st v) VOk)) = true ->
  In (part_of parts k) (snap_ps parts m order0 reclaim).
Proof. intros Hm Hg Hs. apply snap_ps_in. exists k, v. split; [|reflexivity]. apply todo_iff; auto. Qed.

Theorem part_snapshot_tol retry parts d dbn order0 reclaim s clock orders :
  ptol retry s -> NoDup (map fst (d_map d)) -> mem_ok3 (d_map d) -> Forall (@NoDup str) orders ->
  exists s' mem' clk' os',
    part_snapshot retry parts d dbn order0 reclaim s clock orders = (s', mem', clk', os', true) /\
    GoPost parts dbn (snap_ps parts (d_map d) order0 reclaim) (d_map d) (st_objs s) mem' (st_objs s') /\
    st_putfail s' = st_putfail s /\ st_getfail s' = st_getfail s.
Proof.
  intros Ht Hm Hok Hos. rewrite part_snapshot_eq.
  destruct (part_go_tol retry parts dbn (snap_ps parts (d_map d) order0 reclaim) (d_map d) s clock orders Ht Hm Hok Hos)
    as (s' & mem' & clk' & os' & E & G & A & _ & B & _).
  eexists _, _, _, _. eauto.
Qed.

(* a single PUT failure is absorbed by the retry: the snapshot succeeds and establishes
   exactly what the fault-free snapshot establishes ([part_snapshot_nofault] below) *)
Theorem part_put_fault_once_retried retry parts d dbn order0 reclaim s clock orders n :
  (1 <= retry)%nat -> st_putfail s = Some (n, false) ->
  NoDup (map fst (d_map d)) -> mem_ok3 (d_map d) -> Forall (@NoDup str) orders ->
  exists s' mem' clk' os',
    part_snapshot retry parts d dbn order0 reclaim s clock orders = (s', mem', clk', os', true) /\
    GoPost parts dbn (snap_ps parts (d_map d) order0 reclaim) (d_map d) (st_objs s) mem' (st_objs s').
Proof.
  intros Hr Hn Hm Hok Hos.
  destruct (part_snapshot_tol retry parts d dbn order0 reclaim s clock orders) as (s' & mem' & clk' & os' & E & G & _); auto.
  - right. eauto.
  - eexists _, _, _, _. eauto.
Qed.

Theorem part_snapshot_nofault retry parts d dbn order0 reclaim s clock orders :
  st_putfail s = None ->
  NoDup (map fst (d_map d)) -> mem_ok3 (d_map d) -> Forall (@NoDup str) orders ->
  exists s' mem' clk' os',
    part_snapshot retry parts d dbn order0 reclaim s clock orders = (s', mem', clk', os', true) /\
    GoPost parts dbn (snap_ps parts (d_map d) order0 reclaim) (d_map d) (st_objs s) mem' (st_objs s') /\
    st_putfail s' = None /\ st_getfail s' = st_getfail s.
Proof.
  intros Hn Hm Hok Hos.
  destruct (part_snapshot_tol retry parts d dbn order0 reclaim s clock orders) as (s' & mem' & clk' & os' & E & G & A & B); auto.
  - left. unfold putq. now rewrite Hn.
  - eexists _, _, _, _. split; [exact E|split; [exact G|split; [congruence|exact B]]].
Qed.

(* every PUT fails: the snapshot reports the failure (the implementation panics) and the
   store is unchanged *)
Theorem part_put_fault_reported retry parts d dbn order0 reclaim s clock orders n :
  st_putfail s = Some (n, true) -> n <= st_puts s + 1 ->
  keys_to_update (d_map d) order0 reclaim <> [] ->
  exists s' mem' clk' os',
    part_snapshot retry parts d dbn order0 reclaim s clock orders = (s', mem', clk', os', false) /\
    st_objs s' = st_objs s.
Proof.
  intros Hn Hle Hne. rewrite part_snapshot_eq.
  destruct (snap_ps parts (d_map d) order0 reclaim) as [|p rest] eqn:Eps.
  - exfalso. destruct (keys_to_update (d_map d) order0 reclaim) as [|[k v] t] eqn:Ek; [congruence|].
    assert (Hin : In (part_of parts k) (snap_ps parts (d_map d) order0 reclaim)).
    { apply snap_ps_in. exists k, v. rewrite Ek. split; [now left|reflexivity]. }
    rewrite Eps in Hin. destruct Hin.
  - cbn [part_snapshot_go].
    destruct (part_attempts_allfail retry parts p dbn (d_map d) s clock orders n Hn Hle) as (s1 & m1 & c1 & o1 & E & O).
    rewrite E. eexists _, _, _, _. split; [reflexivity|exact O].
Qed.

(* no GET will fail any more *)
Definition getq (s : stub) : Prop := match st_getfail s with None => True | Some n => n <= st_gets s end.
(* either no GET fails any more, or the (single) failure is covered by a retry *)
Definition gtol (retry : nat) (s : stub) : Prop := getq s \/ (1 <= retry)%nat.

Definition gframe (s s' : stub) : Prop :=
  st_objs s' = st_objs s /\ st_getfail s' = st_getfail s /\ st_gets s < st_gets s' /\
  st_putfail s' = st_putfail s /\ st_puts s' = st_puts s.

Lemma getq_mono s s' : getq s -> st_getfail s' = st_getfail s -> st_gets s <= st_gets s' -> getq s'.
Proof. unfold getq. intros H -> Hle. destruct (st_getfail s); auto. lia. Qed.

Lemma stub_get_frame s nm : gframe s (fst (stub_get s nm)).
Proof.
  unfold stub_get, gframe. destruct (st_getfail s) as [n|]; [destruct (N.eqb n (st_gets s + 1))|];
    cbn [fst st_objs st_getfail st_gets st_putfail st_puts]; repeat split; auto; lia.
Qed.

Lemma gframe_trans a b c : gframe a b -> gframe b c -> gframe a c.
Proof. unfold gframe. intros (A1 & A2 & A3 & A4 & A5) (B1 & B2 & B3 & B4 & B5). repeat split; try congruence. lia. Qed.

Lemma stub_get_quiet s nm : getq s -> snd (stub_get s nm) = get nm (st_objs s).
Proof.
  unfold getq, stub_get. destruct (st_getfail s) as [n|]; [|reflexivity].
  intros H. destruct (N.eqb_spec n (st_gets s + 1)); [lia|reflexivity].
Qed.

Lemma stub_get_cases s nm : snd (stub_get s nm) = get nm (st_objs s) \/
  (snd (stub_get s nm) = None /\ getq (fst (stub_get s nm))).
Proof.
  unfold stub_get, getq. destruct (st_getfail s) as [n|] eqn:E; [|now left].
  destruct (N.eqb_spec n (st_gets s + 1)); [right|now left].
  cbn [fst snd st_getfail st_gets]. split; auto. lia.
Qed.

Lemma get_retry_none nm : forall fuel s, get nm (st_objs s) = None ->
  snd (part_get_retry fuel s nm) = None /\ gframe s (fst (part_get_retry fuel s nm)).
Proof.
  induction fuel as [|f IH]; intros s Hn; cbn [part_get_retry];
    pose proof (stub_get_frame s nm) as Hf;
    destruct (stub_get_cases s nm) as [E|[E _]]; destruct (stub_get s nm) as [s1 r]; cbn [fst snd] in *;
    rewrite E, ?Hn; cbn [fst snd]; auto.
  - destruct (IH s1) as [A B]; [destruct Hf as (-> & _); exact Hn|].
    destruct (part_get_retry f s1 nm) as [s2 r2]. cbn [fst snd] in *. split; auto. eapply gframe_trans; eauto.
  - destruct (IH s1) as [A B]; [destruct Hf as (-> & _); exact Hn|].
    destruct (part_get_retry f s1 nm) as [s2 r2]. cbn [fst snd] in *. split; auto. eapply gframe_trans; eauto.
Qed.

Lemma get_retry_quiet nm : forall fuel s, getq s ->
  snd (part_get_retry fuel s nm) = get nm (st_objs s) /\ gframe s (fst (part_get_retry fuel s nm)).
Proof.
  intros fuel s Hq. destruct (get nm (st_objs s)) as [d|] eqn:E; [|now apply get_retry_none].
  pose proof (stub_get_frame s nm) as Hf. pose proof (stub_get_quiet s nm Hq) as Hg.
  destruct fuel; cbn [part_get_retry]; destruct (stub_get s nm) as [s1 r]; cbn [fst snd] in *;
    rewrite Hg, E; cbn [fst snd]; auto.
Qed.

Lemma get_retry_tol nm fuel s : gtol fuel s ->
  snd (part_get_retry fuel s nm) = get nm (st_objs s) /\ gframe s (fst (part_get_retry fuel s nm)).
Proof.
  intros [Hq|Hr]; [now apply get_retry_quiet|].
  destruct (get nm (st_objs s)) as [d|] eqn:E; [|now apply get_retry_none].
  destruct fuel as [|f]; [lia|]. cbn [part_get_retry].
  pose proof (stub_get_frame s nm) as Hf.
  destruct (stub_get_cases s nm) as [Eg|[Eg Hq]]; destruct (stub_get s nm) as [s1 r]; cbn [fst snd] in *; rewrite Eg.
  - rewrite E. cbn [fst snd]. auto.
  - destruct (get_retry_quiet nm f s1 Hq) as [A B].
    destruct (part_get_retry f s1 nm) as [s2 r2]. cbn [fst snd] in *.
    pose proof Hf as (Ho & _). rewrite Ho in A. split; [congruence|].
    eapply gframe_trans; [exact Hf|exact B].
Qed.

Lemma gtol_frame retry s s' : gtol retry s -> gframe s s' -> gtol retry s'.
Proof.
  intros [Hq|Hr] (A & B & C & D); [left|now right]. eapply getq_mono; eauto. lia.
Qed.

(* the body of the loop of part_read_db, and what it computes from the objects alone (no faults, no counters) *)
Definition read_step (retry : nat) (dbn : str) (acc : stub * pres) (stem : str) : stub * pres :=
  let '(s0, r) := acc in
  match r with
  | PLoaded m clk =>
      let '(s1, got) := part_get_retry retry s0 (prefix_name +++ "/" +++ dbn +++ "/" +++ stem +++ ".nun") in
      match got with
      | None => (s1, PFail)
      | Some data =>
          match parse_u64 stem with
          | None => (s1, PPanicked)
          | Some p =>
              match part_load_loop (S (String.length data)) p data (zeros 8) (mkPL 0 m clk) with
              | LOk m' clk' => (s1, PLoaded m' clk')
              | LPanic => (s1, PPanicked)
              end
          end
      end
  | _ => acc
  end.

Definition read_pure (dbn : str) (objs : objects) (r : pres) (stem : str) : pres :=
  match r with
  | PLoaded m clk =>
      match get (prefix_name +++ "/" +++ dbn +++ "/" +++ stem +++ ".nun") objs with
      | None => PFail
      | Some data =>
          match parse_u64 stem with
          | None => PPanicked
          | Some p =>
              match part_load_loop (S (String.length data)) p data (zeros 8) (mkPL 0 m clk) with
              | LOk m' clk' => PLoaded m' clk'
              | LPanic => PPanicked
              end
          end
      end
  | _ => r
  end.

Lemma part_read_db_eq retry s dbn clock :
  part_read_db retry s dbn clock =
  fold_left (read_step retry dbn) (map stem_of (stub_list s (dbprefix dbn))) (s, PLoaded [] clock).
Proof. reflexivity. Qed.

(* [gframe] with [<=]: a step on a failed result does no GET *)
Definition gframe0 (s s' : stub) : Prop :=
  st_objs s' = st_objs s /\ st_getfail s' = st_getfail s /\ st_gets s <= st_gets s' /\
  st_putfail s' = st_putfail s /\ st_puts s' = st_puts s.

Lemma read_step_pure retry dbn s r stem : gtol retry s ->
  snd (read_step retry dbn (s, r) stem) = read_pure dbn (st_objs s) r stem /\
  gframe0 s (fst (read_step retry dbn (s, r) stem)).
Proof.
  intros Ht. unfold read_step, read_pure.
  destruct r as [m clk| |]; cbn [fst snd]; try (split; [reflexivity|unfold gframe0; repeat split; auto; lia]).
  destruct (get_retry_tol (prefix_name +++ "/" +++ dbn +++ "/" +++ stem +++ ".nun") retry s Ht) as [A (B1 & B2 & B3 & B4 & B5)].
  destruct (part_get_retry retry s _) as [s1 got]. cbn [fst snd] in *. rewrite <- A.
  assert (F : gframe0 s s1) by (unfold gframe0; repeat split; auto; lia).
  destruct got as [data|]; [|now split].
  destruct (parse_u64 stem); [|now split].
  destruct (part_load_loop _ _ _ _ _); now split.
Qed.

Lemma read_fold_pure retry dbn : forall stems s r, gtol retry s ->
  snd (fold_left (read_step retry dbn) stems (s, r)) = fold_left (read_pure dbn (st_objs s)) stems r /\
  gframe0 s (fst (fold_left (read_step retry dbn) stems (s, r))).
Proof.
  induction stems as [|x t IH]; intros s r Ht; cbn [fold_left].
  - cbn. unfold gframe0. repeat split; auto; lia.
  - destruct (read_step_pure retry dbn s r x Ht) as [A (B1 & B2 & B3 & B4 & B5)].
    destruct (read_step retry dbn (s, r) x) as [s1 r1]. cbn [fst snd] in *. subst r1.
    destruct (IH s1 (read_pure dbn (st_objs s) r x)) as [C (D1 & D2 & D3 & D4 & D5)].
    { destruct Ht as [Hq|Hr]; [left|now right]. eapply getq_mono; eauto. }
    rewrite B1 in C. split; [exact C|]. unfold gframe0. repeat split; try congruence. lia.
Qed.

Definition read_result (dbn : str) (objs : objects) (clock : N) : pres :=
  fold_left (read_pure dbn objs)
            (map stem_of (sort_strs (filter (fun k => starts_with k (dbprefix dbn)) (map fst objs))))
            (PLoaded [] clock).

Theorem part_read_db_tol retry s dbn clock : gtol retry s ->
  snd (part_read_db retry s dbn clock) = read_result dbn (st_objs s) clock /\
  st_objs (fst (part_read_db retry s dbn clock)) = st_objs s.
Proof.
  intros Ht. rewrite part_read_db_eq.
  destruct (read_fold_pure retry dbn (map stem_of (stub_list s (dbprefix dbn))) s (PLoaded [] clock) Ht) as [A (B & _)].
  split; [exact A|exact B].
Qed.

Theorem part_get_fault_once_retried retry s dbn clock n :
  (1 <= retry)%nat -> st_getfail s = Some n ->
  let s0 := mkStub (st_objs s) (st_puts s) (st_gets s) (st_putfail s) None in
  snd (part_read_db retry s dbn clock) = snd (part_read_db retry s0 dbn clock) /\
  st_objs (fst (part_read_db retry s dbn clock)) = st_objs s.
Proof.
  intros Hr Hn s0.
  destruct (part_read_db_tol retry s dbn clock) as [A B]; [now right|].
  destruct (part_read_db_tol retry s0 dbn clock) as [A0 _]; [left; exact I|].
  rewrite A, A0. split; [reflexivity|exact B].
Qed.

Definition ex_db (val : str) (ver : Z) (st : vstate) : db := mkDb [("a", mkV val ver 0 st 0 0)] [] 0 1 SNewer.
Definition ex_s1 : stub := fst (fst (s3_snapshot (ex_db "old" 1 VNew) "d" ["a"] false stub0 10)).
Definition with_putfail (s : stub) f : stub := mkStub (st_objs s) (st_puts s) (st_gets s) f (st_getfail s).
Definition with_getfail (s : stub) f : stub := mkStub (st_objs s) (st_puts s) (st_gets s) (st_putfail s) f.

(* strategy s3 ignores the result of its two PUTs: with every upload denied, the snapshot still
   "succeeds" (it has no failure result), memory marks the key persisted (Ok), the store still
   holds the old objects, and a restart silently comes back with the OLD value *)
Example s3_put_fault_silent_refuted :
  let snap := s3_snapshot (ex_db "new" 2 VUpdated) "d" ["a"] false (with_putfail ex_s1 (Some (1, true))) 20 in
  let s2 := fst (fst snap) in
  st_objs s2 = st_objs ex_s1 /\
  snd (fst snap) = [("a", mkV "new" 2 20 VOk 0 0)] /\
  snd (s3_read_db s2 "d" 30) = LOk [("a", mkV "old" 1 30 VOk 0 21)] 31.
Proof. vm_compute. repeat split; reflexivity. Qed.

(* strategy s3 unwraps its GET results: one denied GET panics the loader although the objects
   are intact (the same read without the fault succeeds) *)
Example s3_get_fault_panics_refuted :
  snd (s3_read_db (with_getfail ex_s1 (Some 1)) "d" 30) = LPanic /\
  st_objs (fst (s3_read_db (with_getfail ex_s1 (Some 1)) "d" 30)) = st_objs ex_s1 /\
  snd (s3_read_db ex_s1 "d" 30) = LOk [("a", mkV "old" 1 30 VOk 0 21)] 31.
Proof. vm_compute. repeat split; reflexivity. Qed.

(* the retry of a failed partition PUT consumes the next observed iteration order, so the bytes of
   the object may differ from those of the fault-free run on the same list of orders (the decoded
   content is the same: GoPost); this is why part_put_fault_once_retried is stated with GoPost *)
Example part_retry_bytes_differ :
  let d := mkDb [("a", mkV "1" 1 0 VNew 0 0); ("b", mkV "2" 1 0 VNew 0 0)] [] 0 1 SNewer in
  let run f := st_objs (fst (fst (fst (fst (part_snapshot 2 [] d "d" ["a"; "b"] false (with_putfail stub0 f) 10
                                              [["a"; "b"]; ["b"; "a"]]))))) in
  run None <> run (Some (1, false)).
Proof. vm_compute. discriminate. Qed.

(* the S3 strategies store no metadata: after a restart every database has id 1 and the
   arbiter strategy, whatever it was created with *)
Definition ex_run (n : node) (c : nat) (cmds : list str) : node :=
  fold_left (fun n l => fst (step n c l)) cmds n.
Definition ex_node : node :=
  let n0 := init_node "nun" "pwd" "n0:3014" 1000 Primary 1000000000000000000 in
  let '(n1, c) := connect n0 in
  ex_run n1 c ["auth nun pwd"; "create-db d1 tok1 newer"; "use-db d1 tok1"; "set a 1"; "snapshot false d1"].
Definition ex_node2 : node :=
  let n0 := init_node "nun" "pwd" "n0:3014" 1000 Primary 1000000000000000000 in
  let '(n1, c) := connect n0 in
  ex_run n1 c ["auth nun pwd"; "create-db d1 tok1 newer"; "create-db d2 tok2 none"; "use-db d1 tok1"; "set a 1";
               "use-db d2 tok2"; "set b 2"; "snapshot false d1"; "snapshot false d2"].

Definition db_meta (n : node) (dbn : str) : option (N * strat) :=
  option_map (fun d => (d_id d, d_strat d)) (get_db n dbn).

Example metadata_not_restored_refuted :
  let x := mkSN ex_node stub0 false in
  let '(x1, ok1) := s3_flush StPart 2 [] x [["a"; "$$token"; "$connections"]] in
  let '(x2, ok2) := s3_restart StPart 2 x1 in
  ok1 = true /\ ok2 = true /\
  db_meta ex_node "d1" = Some (1, SNewer) /\
  db_meta (sn_node x2) "d1" = Some (1, SArbiter) /\
  option_map (fun d => map (fun kv => (fst kv, v_val (snd kv))) (d_map d)) (get_db (sn_node x2) "d1")
    = Some [("a", "1"); ("$$token", "tok1"); ("$connections", "1")].
Proof. vm_compute. repeat split; reflexivity. Qed.

(* two databases created with ids 1 and 2 (strategies newer / none) both come back with id 1 *)
Example metadata_not_restored_two_dbs :
  let x := mkSN ex_node2 stub0 false in
  let '(x1, ok1) := s3_flush StPart 2 [] x [[]; []] in
  let '(x2, ok2) := s3_restart StPart 2 x1 in
  ok1 = true /\ ok2 = true /\
  db_meta ex_node2 "d1" = Some (1, SNewer) /\ db_meta ex_node2 "d2" = Some (2, SNone) /\
  db_meta (sn_node x2) "d1" = Some (1, SArbiter) /\ db_meta (sn_node x2) "d2" = Some (1, SArbiter).
Proof. vm_compute. repeat split; reflexivity. Qed.

Example metadata_not_restored_s3 :
  let x := mkSN ex_node2 stub0 false in
  let '(x1, ok1) := s3_flush StS3 2 [] x [[]; []] in
  let '(x2, ok2) := s3_restart StS3 2 x1 in
  ok1 = true /\ ok2 = true /\
  db_meta (sn_node x2) "d1" = Some (1, SArbiter) /\ db_meta (sn_node x2) "d2" = Some (1, SArbiter).
Proof. vm_compute. repeat split; reflexivity. Qed.

Definition two64' : N := 18446744073709551616.

(* every object whose name starts with "<prefix>/<dbn>/" is a partition object of dbn.  Since the
   listing prefix ends with '/', the objects of other databases ("d10" when reading "d1") are not
   concerned: see part_read_db_other_dbs and part_prefix_no_collision_example.  What this still
   excludes: foreign objects INSIDE the database's own directory (e.g. "<prefix>/<dbn>/nun.keys"
   left by strategy s3, or a database literally named "<dbn>/x"), whose stems do not parse *)
Definition names_ok (dbn : str) (objs : objects) : Prop :=
  forall nm, In nm (map fst objs) -> starts_with nm (dbprefix dbn) = true ->
             exists p, nm = pname dbn p /\ p < two64'.

Definition decodes (dbn : str) (objs : objects) (dec : N -> list prec) : Prop :=
  forall p data, get (pname dbn p) objs = Some data ->
                 data = pcat (dec p) /\ NoDup (map p_key (dec p)) /\ Forall prec_ok (dec p).

Fixpoint pload_all (dec : N -> list prec) (ps : list N) (m : list (str * value)) (clk : N) : list (str * value) * N :=
  match ps with
  | [] => (m, clk)
  | p :: t => pload_all dec t (pload_abs p (dec p) m clk) (clk + N.of_nat (length (dec p)))
  end.

Lemma read_pure_ps dbn objs dec : decodes dbn objs dec -> forall ps m clk,
  Forall (fun p => p < two64' /\ get (pname dbn p) objs <> None) ps ->
  fold_left (read_pure dbn objs) (map stem_of (map (pname dbn) ps)) (PLoaded m clk) =
  PLoaded (fst (pload_all dec ps m clk)) (snd (pload_all dec ps m clk)).
Proof.
  intros Hdec. induction ps as [|p t IH]; intros m clk Hf; cbn [map fold_left pload_all]; [reflexivity|].
  apply Forall_cons_iff in Hf. destruct Hf as [[Hp Hg] Ht].
  rewrite stem_pname. unfold read_pure at 2. fold (pname dbn p).
  destruct (get (pname dbn p) objs) as [data|] eqn:E; [|congruence].
  destruct (Hdec p data E) as (-> & Hnd & Hok).
  rewrite parse_u64_N by exact Hp.
  rewrite part_load_object by exact Hok. now apply IH.
Qed.

(* partitions that hold exactly their non-deleted keys load to exactly those keys: a key lives in one
   partition, the others leave it alone ([load_exact_get]) *)
Lemma pload_all_exact parts mem dec k : forall ps m0 clk0,
  (forall p, In p ps -> recs_exact parts p mem (dec p)) ->
  match get k mem with
  | Some mv => if negb (dead mv) && pssel parts ps k
               then exists opp, get k (fst (pload_all dec ps m0 clk0)) =
                                Some (mkV (v_val mv) (v_ver mv) opp VOk (part_of parts k) 0)
               else get k (fst (pload_all dec ps m0 clk0)) = get k m0
  | None => get k (fst (pload_all dec ps m0 clk0)) = get k m0
  end.
Proof.
  induction ps as [|p t IH]; intros m0 clk0 H; cbn [pload_all fst].
  - destruct (get k mem) as [mv|]; [|reflexivity]. unfold pssel. cbn [existsb]. now rewrite andb_false_r.
  - specialize (IH (pload_abs p (dec p) m0 clk0) (clk0 + N.of_nat (length (dec p))) (fun q Hq => H q (or_intror Hq))).
    pose proof (load_exact_get parts p mem (dec p) m0 clk0 k (H p (or_introl eq_refl))) as Hp.
    unfold pssel in *. cbn [existsb]. destruct (get k mem) as [mv|]; [|congruence].
    destruct (negb (dead mv)); cbn [andb] in *; [|congruence].
    destruct (existsb (N.eqb (part_of parts k)) t); [now rewrite orb_true_r|]. rewrite orb_false_r.
    destruct (N.eqb_spec (part_of parts k) p) as [E|E]; [|congruence].
    destruct Hp as [opp Ho]. exists opp. now rewrite IH, Ho, E.
Qed.

Lemma names_to_ps dbn (P : N -> Prop) names :
  (forall nm, In nm names -> exists p, nm = pname dbn p /\ P p) ->
  exists ps, names = map (pname dbn) ps /\ Forall P ps.
Proof.
  induction names as [|nm t IH]; intros H.
  - exists []. split; [reflexivity|constructor].
  - destruct (H nm (or_introl eq_refl)) as (p & -> & Hp).
    destruct IH as (ps & -> & Hps); [intros x Hx; apply H; now right|].
    exists (p :: ps). split; [reflexivity|now constructor].
Qed.

(* the store holds, for database dbn, exactly the non-deleted keys of [mem], partition by partition *)
Definition Synced parts dbn (mem : list (string * value)) (objs : objects) : Prop :=
  exists dec, decodes dbn objs dec /\ names_ok dbn objs /\
    (forall p, get (pname dbn p) objs <> None -> recs_exact parts p mem (dec p)) /\
    (forall k v, get k mem = Some v -> dead v = false -> get (pname dbn (part_of parts k)) objs <> None).

(* The listing names exactly the objects of partitions ([names_ok]), each decodes to the non-deleted
   keys memory has in that partition ([recs_exact]), and every non-deleted key has its object: so
   loading them in the listing's order yields the non-deleted keys of memory, by [pload_all_exact]. *)
Theorem read_result_synced parts dbn mem objs clock : Synced parts dbn mem objs ->
  exists m clk', read_result dbn objs clock = PLoaded m clk' /\ live_restored mem m.
Proof.
  intros (dec & Hdec & Hnames & Hex & Hlive). unfold read_result.
  set (names := sort_strs (filter (fun k => starts_with k (dbprefix dbn)) (map fst objs))).
  assert (Hin : forall nm, In nm names <-> In nm (map fst objs) /\ starts_with nm (dbprefix dbn) = true).
  { intros nm. unfold names. rewrite in_sort_strs, filter_In. reflexivity. }
  destruct (names_to_ps dbn (fun p => p < two64' /\ get (pname dbn p) objs <> None) names) as (ps & Eps & Hps).
  { intros nm Hnm. apply Hin in Hnm. destruct Hnm as [A B]. destruct (Hnames nm A B) as (p & -> & Hp).
    exists p. split; auto. split; auto. now apply str_in_keys_get. }
  rewrite Eps. rewrite (read_pure_ps dbn objs dec Hdec ps [] clock Hps).
  eexists _, _. split; [reflexivity|].
  assert (Hobj : forall p, In p ps -> get (pname dbn p) objs <> None).
  { intros p Hp. rewrite Forall_forall in Hps. now apply Hps. }
  intros k. pose proof (pload_all_exact parts mem dec k ps [] clock (fun p Hp => Hex p (Hobj p Hp))) as P.
  destruct (get k mem) as [v|] eqn:E; [|exact P].
  destruct (dead v) eqn:D; cbn [negb andb] in P; [exact P|].
  assert (Hp : pssel parts ps k = true).
  { apply (existsb_eqb_In N.eqb N.eqb_spec).
    assert (Hn : In (pname dbn (part_of parts k)) names).
    { apply Hin. split; [apply str_in_keys_get, (Hlive k v E D)|apply pname_prefix]. }
    rewrite Eps in Hn. apply in_map_iff in Hn. destruct Hn as (q & Hq & Hqin).
    apply pname_inj in Hq. now subst q. }
  rewrite Hp in P. destruct P as [opp Ho]. eexists. split; [exact Ho|]. cbn. auto.
Qed.

Theorem Synced_read parts dbn mem retry s clk0 :
  Synced parts dbn mem (st_objs s) -> gtol retry s ->
  exists s'' m clk'', part_read_db retry s dbn clk0 = (s'', PLoaded m clk'') /\ live_restored mem m /\
                      st_objs s'' = st_objs s.
Proof.
  intros Hsy Ht. destruct (read_result_synced parts dbn mem (st_objs s) clk0 Hsy) as (m & clk'' & Er & Hlr).
  destruct (part_read_db_tol retry s dbn clk0 Ht) as [A B].
  destruct (part_read_db retry s dbn clk0) as [s'' r]. cbn [fst snd] in *.
  exists s'', m, clk''. split; [congruence|]. split; auto.
Qed.

(* what a successful snapshot of the partitions ps leaves in sync: the written objects are exact
   (GoPost); the others have to be exact already *)
Lemma GoPost_Synced parts dbn ps mem objs mem' objs' dec0 :
  GoPost parts dbn ps mem objs mem' objs' ->
  (forall p, In p ps -> p < two64') -> names_ok dbn objs ->
  (forall p data, ~ In p ps -> get (pname dbn p) objs = Some data ->
     data = pcat (dec0 p) /\ recs_exact parts p mem (dec0 p)) ->
  (forall k v, get k mem = Some v -> dead v = false ->
     In (part_of parts k) ps \/ get (pname dbn (part_of parts k)) objs <> None) ->
  Synced parts dbn mem' objs'.
Proof.
  intros ((decG & G1) & G2 & G3 & G4 & _) Hb Hnames Hold Hlive.
  assert (Hsame : forall q, ~ In q ps -> get (pname dbn q) objs' = get (pname dbn q) objs).
  { intros q Hn. apply G2. intros p Hp Heq. apply pname_inj in Heq. congruence. }
  exists (fun q => if in_dec N.eq_dec q ps then decG q else dec0 q). split; [|split; [|split]].
  - intros q data Hg. destruct (in_dec N.eq_dec q ps) as [Hi|Hn].
    + destruct (G1 q Hi) as (A & B & C & _). rewrite A in Hg. inversion Hg. auto.
    + rewrite (Hsame q Hn) in Hg. destruct (Hold q data Hn Hg) as (A & B & C & _). auto.
  - intros nm Hin Hst. destruct (G3 nm Hin) as [Hi|(p & Hp & ->)]; eauto.
  - intros p Hne. apply (recs_exact_snap parts p _ mem mem' _ G4). destruct (in_dec N.eq_dec p ps) as [Hi|Hn].
    + now destruct (G1 p Hi).
    + rewrite (Hsame p Hn) in Hne. destruct (get (pname dbn p) objs) as [data|] eqn:Eo; [|congruence].
      now destruct (Hold p data Hn Eo).
  - intros k v Hg D. destruct (snap_mem_live _ _ _ k True (v_val v) (v_ver v) G4) as [_ (mv & A & _ & Dm & _)]; [eauto 6|].
    destruct (in_dec N.eq_dec (part_of parts k) ps) as [Hi|Hn].
    + destruct (G1 _ Hi) as (A1 & _). rewrite A1. discriminate.
    + rewrite (Hsame _ Hn). destruct (Hlive k mv A Dm); tauto.
Qed.

Definition parts_ok (parts : list (str * N)) : Prop := forall k, part_of parts k < two64'.

Lemma pssel_in parts ps k : pssel parts ps k = true <-> In (part_of parts k) ps.
Proof. apply (existsb_eqb_In N.eqb N.eqb_spec). Qed.

Lemma snap_mem_ext_on s1 s2 a b : (forall k v, get k a = Some v -> s1 k = s2 k) -> snap_mem s1 a b -> snap_mem s2 a b.
Proof. intros E H k. specialize (H k). destruct (get k a) as [v|] eqn:G; auto. now rewrite <- (E k v G). Qed.

Theorem part_roundtrip_reclaim retry parts d dbn order0 s clock orders clk0 :
  NoDup (map fst (d_map d)) -> mem_ok3 (d_map d) -> NoDup order0 -> Forall (@NoDup str) orders ->
  parts_ok parts -> st_putfail s = None -> st_getfail s = None ->
  (* every object already stored under "<prefix>/<dbn>" is a partition object that gets rewritten *)
  (forall nm, In nm (map fst (st_objs s)) -> starts_with nm (dbprefix dbn) = true ->
     exists p, nm = pname dbn p /\ In p (snap_ps parts (d_map d) order0 true)) ->
  exists s' mem' clk' os' s'' m clk'',
    part_snapshot retry parts d dbn order0 true s clock orders = (s', mem', clk', os', true) /\
    part_read_db retry s' dbn clk0 = (s'', PLoaded m clk'') /\
    live_restored (d_map d) m /\ snap_mem (fun _ => true) (d_map d) mem' /\ st_objs s'' = st_objs s'.
Proof.
  intros Hm Hok Ho0 Hos Hparts Hpf Hgf Hpre.
  destruct (part_snapshot_nofault retry parts d dbn order0 true s clock orders Hpf Hm Hok Hos)
    as (s' & mem' & clk' & os' & E & G & Hpf' & Hgf').
  pose proof G as (_ & _ & _ & G4 & _).
  set (ps := snap_ps parts (d_map d) order0 true) in *.
  assert (Hps : forall k v, get k (d_map d) = Some v -> In (part_of parts k) ps)
    by (intros k v Hg; now apply (snap_ps_selects parts (d_map d) order0 true k v)).
  assert (Hb : forall p, In p ps -> p < two64').
  { intros p Hp. apply snap_ps_in in Hp. destruct Hp as (k & v & _ & <-). apply Hparts. }
  assert (Hsy : Synced parts dbn mem' (st_objs s')).
  { apply (GoPost_Synced parts dbn ps (d_map d) (st_objs s) mem' _ (fun _ => []) G Hb).
    - intros nm Hin Hst. destruct (Hpre nm Hin Hst) as (p & -> & Hp). eauto.
    - intros p data Hn Hg. destruct (Hpre (pname dbn p)) as (q & Hq & Hqin);
        [apply str_in_keys_get; congruence|apply pname_prefix|]. apply pname_inj in Hq. now subst q.
    - intros k v Hg _. left. eauto. }
  destruct (Synced_read parts dbn mem' retry s' clk0 Hsy) as (s'' & m & clk'' & Er & Hlr & Ho).
  { left. unfold getq. now rewrite Hgf', Hgf. }
  exists s', mem', clk', os', s'', m, clk''. split; [exact E|]. split; [exact Er|].
  split; [exact (live_restored_snap _ _ _ _ G4 Hlr)|]. split; [|exact Ho].
  eapply snap_mem_ext_on; [|exact G4]. intros k v Hg. cbv beta. apply pssel_in. eapply Hps; eauto.
Qed.

(* a database stored for the first time: whatever OTHER databases the store holds *)
Corollary part_roundtrip_reclaim_fresh retry parts d dbn order0 s clock orders clk0 :
  NoDup (map fst (d_map d)) -> mem_ok3 (d_map d) -> NoDup order0 -> Forall (@NoDup str) orders ->
  parts_ok parts -> st_putfail s = None -> st_getfail s = None ->
  (forall nm, In nm (map fst (st_objs s)) -> starts_with nm (dbprefix dbn) = false) ->
  exists s' mem' clk' os' s'' m clk'',
    part_snapshot retry parts d dbn order0 true s clock orders = (s', mem', clk', os', true) /\
    part_read_db retry s' dbn clk0 = (s'', PLoaded m clk'') /\
    live_restored (d_map d) m /\ snap_mem (fun _ => true) (d_map d) mem' /\ st_objs s'' = st_objs s'.
Proof.
  intros Hm Hok Ho0 Hos Hparts Hpf Hgf Hfresh. apply part_roundtrip_reclaim; auto.
  intros nm Hin Hst. rewrite (Hfresh nm Hin) in Hst. discriminate.
Qed.

Definition db_objs (dbn : str) (objs : objects) : objects :=
  filter (fun kv => starts_with (fst kv) (dbprefix dbn)) objs.

Lemma read_pure_db_objs dbn objs r stem : read_pure dbn objs r stem = read_pure dbn (db_objs dbn objs) r stem.
Proof.
  unfold read_pure, db_objs. destruct r; auto.
  rewrite (get_filter _ String.eqb_spec (fun k => starts_with k (dbprefix dbn))) by apply stem_name_prefix. reflexivity.
Qed.

Lemma read_result_db_objs dbn objs clock : read_result dbn objs clock = read_result dbn (db_objs dbn objs) clock.
Proof.
  unfold read_result. unfold db_objs at 2.
  rewrite (map_fst_filter (fun k => starts_with k (dbprefix dbn))), filter_idem.
  apply fold_left_ext. intros a b. apply read_pure_db_objs.
Qed.

(* two stores that agree on the objects named "<prefix>/<dbn>/..." give the same read result: the
   objects of other databases do not influence part_read_db *)
Theorem part_read_db_other_dbs retry s1 s2 dbn clk :
  gtol retry s1 -> gtol retry s2 ->
  db_objs dbn (st_objs s1) = db_objs dbn (st_objs s2) ->
  snd (part_read_db retry s1 dbn clk) = snd (part_read_db retry s2 dbn clk).
Proof.
  intros H1 H2 E. destruct (part_read_db_tol retry s1 dbn clk H1) as [A _].
  destruct (part_read_db_tol retry s2 dbn clk H2) as [B _].
  rewrite A, B, read_result_db_objs, E, <- read_result_db_objs. reflexivity.
Qed.

Lemma db_objs_put_other dbn nm data objs : starts_with nm (dbprefix dbn) = false ->
  db_objs dbn (aset nm data objs) = db_objs dbn objs.
Proof.
  intros Hn. unfold db_objs. induction objs as [|[k v] r IH]; cbn [assoc_set filter fst].
  - now rewrite Hn.
  - destruct (String.eqb_spec nm k) as [<-|Hne]; cbn [filter fst].
    + now rewrite Hn.
    + now rewrite IH.
Qed.

Corollary part_read_db_put_other retry s dbn clk nm data :
  gtol retry s -> starts_with nm (dbprefix dbn) = false ->
  let s2 := mkStub (aset nm data (st_objs s)) (st_puts s) (st_gets s) (st_putfail s) (st_getfail s) in
  snd (part_read_db retry s2 dbn clk) = snd (part_read_db retry s dbn clk).
Proof.
  intros Ht Hn s2. apply part_read_db_other_dbs; auto. cbn [st_objs]. now apply db_objs_put_other.
Qed.

(* before the fix the listing prefix had no trailing slash and reading "d1" also listed the objects
   of "d10" (the read failed when d10 had a partition that d1 lacks); after the fix d1 loads *)
Example part_prefix_no_collision_example :
  let d1 := mkDb [("a", mkV "1" 1 0 VNew 0 0)] [] 0 1 SNewer in
  let d10 := mkDb [("b", mkV "2" 1 0 VNew 0 0)] [] 0 2 SNewer in
  let parts := [("a", 0); ("b", 5)] in
  let s1 := fst (fst (fst (fst (part_snapshot 2 parts d1 "d1" ["a"] true stub0 10 [["a"]])))) in
  let s2 := fst (fst (fst (fst (part_snapshot 2 parts d10 "d10" ["b"] true s1 20 [["b"]])))) in
  map fst (st_objs s2) = ["nun-db-base/d1/0.nun"; "nun-db-base/d10/5.nun"] /\
  snd (part_read_db 2 s1 "d1" 30) = PLoaded [("a", mkV "1" 1 30 VOk 0 0)] 31 /\
  snd (part_read_db 2 s2 "d1" 30) = PLoaded [("a", mkV "1" 1 30 VOk 0 0)] 31 /\
  snd (part_read_db 2 s2 "d10" 30) = PLoaded [("b", mkV "2" 1 30 VOk 5 0)] 31.
Proof. vm_compute. repeat split; reflexivity. Qed.

Record PInvD parts dbn (mem : list (string * value)) (objs : objects) (dec : N -> list prec) : Prop := mkPInv {
  pi_nodup : NoDup (map fst mem);
  pi_ok : mem_ok3 mem;
  pi_names : names_ok dbn objs;
  (* every partition object decodes *)
  pi_dec : decodes dbn objs dec;
  (* a key stored in object p belongs to partition p and is a key of mem that is not New;
     if its stored value/version differ from memory's, it is not Ok in memory (a deleted key is
     never Ok): its partition is "to update" *)
  pi_b : forall p r, get (pname dbn p) objs <> None -> In r (dec p) ->
           part_of parts (p_key r) = p /\
           exists mv, get (p_key r) mem = Some mv /\ v_st mv <> VNew /\
                      (v_st mv = VOk -> v_val mv = p_val r /\ v_ver mv = p_ver r);
  (* an Ok key of mem is stored in the object of its partition with mem's value and version *)
  pi_c : forall k mv, get k mem = Some mv -> v_st mv = VOk ->
           get (pname dbn (part_of parts k)) objs <> None /\
           In (mkP k (v_val mv) (v_ver mv)) (dec (part_of parts k)) }.

Definition PInv parts dbn mem objs : Prop := exists dec, PInvD parts dbn mem objs dec.

Theorem PInv_init parts dbn : PInv parts dbn [] [].
Proof.
  exists (fun _ => []). constructor.
  - constructor.
  - intros k v [].
  - intros nm [].
  - intros p data H. discriminate.
  - intros p r H. now elim H.
  - intros k mv H. discriminate.
Qed.

(* the database functions change the map by [map_step]s: an entry is unchanged or its new state is
   not Ok (and a key known to the store, i.e. not New, does not become New); only New keys
   disappear; keys that appear are New *)
Theorem PInv_map_step parts dbn mem mem' objs :
  PInv parts dbn mem objs -> map_step ent_ok mem mem' -> PInv parts dbn mem' objs.
Proof.
  intros (dec & H) HS. pose proof (map_step_get _ _ _ HS) as Hst.
  pose proof (map_step_nodup _ _ _ HS (pi_nodup _ _ _ _ _ H)) as Hnd.
  exists dec. constructor; auto; try apply H.
  - intros k b Hin. apply (in_get String.eqb String.eqb_spec) in Hin; auto. specialize (Hst k). rewrite Hin in Hst.
    destruct (get k mem) as [a|] eqn:E; [|apply Hst].
    destruct Hst as [<-|(_ & _ & _ & He)]; auto. exact (mem_ok3_get _ _ _ (pi_ok _ _ _ _ _ H) E).
  - intros p r Hne Hr. destruct (pi_b _ _ _ _ _ H p r Hne Hr) as (A & mv & B & C & D). split; auto.
    specialize (Hst (p_key r)). rewrite B in Hst.
    destruct (get (p_key r) mem') as [b|]; [|contradiction].
    exists b. split; auto. destruct Hst as [<-|(E & F & _)]; auto. split; [|intros; contradiction].
    destruct (v_st mv), (v_st b); cbn in F; congruence.
  - intros k b Hg Hs. specialize (Hst k). rewrite Hg in Hst.
    destruct (get k mem) as [a|] eqn:E; [|destruct Hst; congruence].
    destruct Hst as [->|[F _]]; [|contradiction]. now apply (pi_c _ _ _ _ _ H).
Qed.

Lemma pname_not_other dbn nm p : starts_with nm (dbprefix dbn) = false -> pname dbn p <> nm.
Proof. intros Hn E. rewrite <- E, pname_prefix in Hn. discriminate. Qed.

(* objects of OTHER databases (any name that does not start with "<prefix>/<dbn>/") may be written
   at any time: the invariant of dbn does not see them *)
Theorem PInv_put_other parts dbn mem objs nm data :
  starts_with nm (dbprefix dbn) = false -> PInv parts dbn mem objs -> PInv parts dbn mem (aset nm data objs).
Proof.
  intros Hn (dec & H). exists dec.
  assert (G : forall p, get (pname dbn p) (aset nm data objs) = get (pname dbn p) objs).
  { intros p. apply str_get_set_other. now apply pname_not_other. }
  constructor; try apply H.
  - intros x Hin Hst. apply (in_keys_set String.eqb String.eqb_spec) in Hin. destruct Hin as [->|Hin]; [congruence|].
    now apply (pi_names _ _ _ _ _ H).
  - intros p d0. rewrite G. apply (pi_dec _ _ _ _ _ H).
  - intros p r. rewrite G. apply (pi_b _ _ _ _ _ H).
  - intros k mv A B. rewrite G. now apply (pi_c _ _ _ _ _ H).
Qed.

Lemma PInv_clean_exact parts dbn mem objs dec p :
  PInvD parts dbn mem objs dec -> get (pname dbn p) objs <> None ->
  (forall k v, get k mem = Some v -> part_of parts k = p -> v_st v = VOk) ->
  recs_exact parts p mem (dec p).
Proof.
  intros H Hne Hclean.
  destruct (get (pname dbn p) objs) as [data|] eqn:Eo; [|congruence].
  destruct (pi_dec _ _ _ _ _ H p data Eo) as (_ & Nd & Ok). split; auto. split; auto.
  intros r. split.
  - intros Hr. destruct (pi_b _ _ _ _ _ H p r) as (A & mv & B & C & D); [congruence|exact Hr|].
    pose proof (Hclean _ _ B A) as St. destruct (D St) as [D1 D2].
    exists mv. split; auto. split; auto. split; [unfold dead; now rewrite St|auto].
  - intros (v & A & B & C & D & F). pose proof (Hclean _ _ A B) as St.
    destruct (pi_c _ _ _ _ _ H (p_key r) v A St) as (_ & C2). rewrite B in C2.
    destruct r as [rk rv rr]. cbn [p_key p_val p_ver] in *. now rewrite D, F.
Qed.

Lemma Synced_PInv parts dbn mem objs :
  Synced parts dbn mem objs -> NoDup (map fst mem) -> mem_ok3 mem ->
  (forall k v, get k mem = Some v -> v_st v = VOk \/ v_st v = VDeleted) -> PInv parts dbn mem objs.
Proof.
  intros (dec & Hdec & Hnames & Hex & Hlive) Hnd Hok Hset. exists dec. constructor; auto.
  - intros p r Hne Hr. destruct (Hex p Hne) as (_ & _ & Hiff). apply Hiff in Hr.
    destruct Hr as (v & A & B & C & D & E). split; auto. exists v. split; auto.
    split; [destruct (Hset _ _ A) as [-> | ->]; discriminate|auto].
  - intros k mv Hg Hs. assert (D : dead mv = false) by (unfold dead; now rewrite Hs).
    pose proof (Hlive k mv Hg D) as Ho. split; auto. destruct (Hex _ Ho) as (_ & _ & Hiff).
    apply Hiff. exists mv. cbn. auto.
Qed.

Lemma sat_succ_range z : i32_range z -> i32_range (sat_succ z).
Proof. unfold i32_range, sat_succ, i32_max. intros H. destruct (Z.ltb_spec z 2147483647); lia. Qed.

Theorem PInv_snapshot retry parts d dbn order0 reclaim s clock orders :
  PInv parts dbn (d_map d) (st_objs s) -> parts_ok parts -> NoDup order0 -> Forall (@NoDup str) orders ->
  st_putfail s = None ->
  exists s' mem' clk' os',
    part_snapshot retry parts d dbn order0 reclaim s clock orders = (s', mem', clk', os', true) /\
    PInv parts dbn mem' (st_objs s') /\
    Synced parts dbn mem' (st_objs s') /\
    (forall k v, get k mem' = Some v -> v_st v = VOk \/ v_st v = VDeleted) /\
    snap_mem (pssel parts (snap_ps parts (d_map d) order0 reclaim)) (d_map d) mem' /\
    st_putfail s' = None /\ st_getfail s' = st_getfail s.
Proof.
  intros (dec0 & H) Hparts Ho0 Hos Hpf.
  destruct (part_snapshot_nofault retry parts d dbn order0 reclaim s clock orders Hpf (pi_nodup _ _ _ _ _ H) (pi_ok _ _ _ _ _ H) Hos)
    as (s' & mem' & clk' & os' & E & G & Hpf' & Hgf').
  pose proof G as (_ & _ & _ & G4 & G5 & G6).
  set (ps := snap_ps parts (d_map d) order0 reclaim) in *. set (mem := d_map d) in *.
  (* a key of a partition that is not written is not pending and keeps its entry *)
  assert (Hps : forall k v, get k mem = Some v -> ~ In (part_of parts k) ps -> v_st v = VOk /\ get k mem' = Some v).
  { intros k v Hg Hn. split.
    - destruct (v_st v) eqn:St; auto; exfalso; apply Hn, (snap_ps_selects parts mem order0 reclaim k v); auto;
        try apply H; rewrite St; apply orb_true_r.
    - specialize (G4 k). rewrite Hg in G4. destruct (pssel parts ps k) eqn:S; [apply pssel_in in S; contradiction|exact G4]. }
  assert (Hset : forall k v, get k mem' = Some v -> v_st v = VOk \/ v_st v = VDeleted).
  { intros k v' Hg. destruct (snap_mem_states _ _ _ _ _ G4 Hg) as (mv & A & _ & _ & [St|(St & _)]); [|auto].
    destruct (in_dec N.eq_dec (part_of parts k) ps) as [Hi|Hn].
    - specialize (G4 k). rewrite A in G4. apply pssel_in in Hi. rewrite Hi in G4. cbn [andb] in G4.
      destruct (dead mv) eqn:D; cbn [negb] in G4.
      + right. rewrite St. now apply dead_deleted.
      + destruct G4 as (x & Hx & _ & _ & X). left. congruence.
    - left. rewrite St. now apply (Hps k mv A Hn). }
  assert (Hsy : Synced parts dbn mem' (st_objs s')).
  { apply (GoPost_Synced parts dbn ps mem (st_objs s) mem' _ dec0 G); [|apply H| |].
    - intros p Hp. apply snap_ps_in in Hp. destruct Hp as (k & v & _ & <-). apply Hparts.
    - intros p data Hn Hg. split; [now apply (pi_dec _ _ _ _ _ H)|].
      apply (PInv_clean_exact parts dbn mem (st_objs s) dec0 p H); [congruence|].
      intros k v Hk <-. now apply (Hps k v Hk Hn).
    - intros k v Hg D. destruct (in_dec N.eq_dec (part_of parts k) ps) as [Hi|Hn]; [now left|right].
      destruct (Hps k v Hg Hn) as [St _]. now apply (pi_c _ _ _ _ _ H k v Hg St). }
  exists s', mem', clk', os'. split; [exact E|]. split; [now apply Synced_PInv|]. auto 10.
Qed.

(* histories: any sequence of set / remove / inc / snapshot (incremental or reclaim), without
   injected faults, starting from the empty database and the empty store *)
Inductive pev :=
| PvSet (ch : change)
| PvRemove (k : str)
| PvInc (k : str) (i : Z) (opp : N)
| PvSnap (reclaim : bool) (order0 : list str) (orders : list (list str))
| PvOther (nm data : str).      (* another database (or anybody) writes an object outside "<prefix>/<dbn>/" *)

Definition pstate := (list (str * value) * stub * N)%type.

Definition prun (retry : nat) (parts : list (str * N)) (dbn : str) (st : pstate) (e : pev) : pstate :=
  let '(m, s, clk) := st in
  match e with
  | PvSet ch => (d_map (fst (fst (set_value (db_of m) ch))), s, clk)
  | PvRemove k => (d_map (fst (fst (remove_value (db_of m) k))), s, clk)
  | PvInc k i opp => (d_map (fst (fst (inc_value (db_of m) k i opp))), s, clk)
  | PvSnap reclaim o0 os =>
      let '(s', m', clk', _, _) := part_snapshot retry parts (db_of m) dbn o0 reclaim s clk os in (m', s', clk')
  | PvOther nm data => (m, fst (stub_put s nm data), clk)
  end.

Definition pev_ok (dbn : str) (e : pev) : Prop :=
  match e with
  | PvSet ch => str_ok (c_key ch) /\ str_ok (c_val ch) /\ i32_range (c_ver ch)
  | PvRemove _ => True
  | PvInc k _ _ => str_ok k
  | PvSnap _ o0 os => NoDup o0 /\ Forall (@NoDup str) os
  | PvOther nm _ => starts_with nm (dbprefix dbn) = false
  end.

Definition PJ parts dbn (st : pstate) : Prop :=
  let '(m, s, clk) := st in PInv parts dbn m (st_objs s) /\ st_putfail s = None /\ st_getfail s = None.

Lemma PInv_mem parts dbn m objs : PInv parts dbn m objs -> NoDup (map fst m) /\ mem_ok3 m.
Proof. intros (dec & H). split; apply H. Qed.

Lemma prun_inv retry parts dbn st e : parts_ok parts -> PJ parts dbn st -> pev_ok dbn e -> PJ parts dbn (prun retry parts dbn st e).
Proof.
  intros Hparts. destruct st as [[m s] clk]. intros (HI & Hpf & Hgf) He.
  destruct (PInv_mem _ _ _ _ HI) as [Hnd Hok].
  assert (Hwf : map_wf i32_range (d_map (db_of m))) by (intros k v; now apply mem_ok3_get).
  destruct e as [ch|k|k i opp|reclaim o0 os|nm data]; cbn [prun pev_ok] in *.
  - destruct He as (A & B & C). split; auto. apply (PInv_map_step _ _ _ _ _ HI).
    apply (set_value_step i32_range i32_range) with (d := db_of m); auto using sat_succ_range.
  - split; auto. apply (PInv_map_step _ _ _ _ _ HI).
    apply (remove_value_step i32_range) with (d := db_of m); auto using sat_succ_range.
  - split; auto. apply (PInv_map_step _ _ _ _ _ HI).
    apply (inc_value_step i32_range) with (d := db_of m); auto using sat_succ_range. unfold i32_range. lia.
  - destruct He as [A B].
    destruct (PInv_snapshot retry parts (db_of m) dbn o0 reclaim s clk os HI Hparts A B Hpf)
      as (s' & mem' & clk' & os' & E & HI' & _ & _ & _ & Hpf' & Hgf').
    rewrite E. split; auto. split; auto. congruence.
  - rewrite stub_put_nofault by exact Hpf. cbn [fst st_objs st_putfail st_getfail].
    split; auto. now apply PInv_put_other.
Qed.

Theorem part_history_inv retry parts dbn clk0 evs :
  parts_ok parts -> Forall (pev_ok dbn) evs ->
  PJ parts dbn (fold_left (prun retry parts dbn) evs ([], stub0, clk0)).
Proof.
  intros Hparts. assert (H0 : PJ parts dbn ([], stub0, clk0)).
  { split; [apply PInv_init|split; reflexivity]. }
  revert H0. generalize (@nil (str * value), stub0, clk0). induction evs as [|e t IH]; intros st H0 Hev; cbn [fold_left]; auto.
  apply Forall_cons_iff in Hev. destruct Hev as [He Ht]. apply IH; auto. now apply prun_inv.
Qed.

(* a snapshot (incremental or reclaim) after any history followed by a load of the database
   (what a restart runs for it) restores exactly the non-deleted keys, with their values and versions;
   the retry budget may absorb one GET fault injected for the load *)
Theorem part_history_restore retry parts dbn clk0 evs reclaim o0 os getfault clk1 :
  parts_ok parts -> Forall (pev_ok dbn) evs -> NoDup o0 -> Forall (@NoDup str) os ->
  (getfault = None \/ (1 <= retry)%nat) ->
  let '(m, s, clk) := fold_left (prun retry parts dbn) evs ([], stub0, clk0) in
  exists s' mem' clk' os' s'' m' clk'',
    part_snapshot retry parts (db_of m) dbn o0 reclaim s clk os = (s', mem', clk', os', true) /\
    (forall k v, get k mem' = Some v -> v_st v = VOk \/ v_st v = VDeleted) /\
    snap_mem (pssel parts (snap_ps parts m o0 reclaim)) m mem' /\
    part_read_db retry (with_getfail s' getfault) dbn clk1 = (s'', PLoaded m' clk'') /\
    live_restored mem' m' /\ live_restored m m'.
Proof.
  intros Hparts Hev Ho0 Hos Hg. pose proof (part_history_inv retry parts dbn clk0 evs Hparts Hev) as HJ.
  destruct (fold_left (prun retry parts dbn) evs ([], stub0, clk0)) as [[m s] clk].
  destruct HJ as (HI & Hpf & Hgf).
  destruct (PInv_snapshot retry parts (db_of m) dbn o0 reclaim s clk os HI Hparts Ho0 Hos Hpf)
    as (s' & mem' & clk' & os' & E & HI' & Hsy & Hall & Hsn & Hpf' & Hgf').
  destruct (Synced_read parts dbn mem' retry (with_getfail s' getfault) clk1) as (s'' & m' & clk'' & Er & Hlr & _).
  - exact Hsy.
  - destruct Hg as [->|Hr]; [left; exact I|now right].
  - exists s', mem', clk', os', s'', m', clk''. repeat (split; [assumption|]).
    exact (live_restored_snap _ _ _ _ Hsn Hlr).
Qed.

(* the theorems are not vacuous: a history with every kind of event, a key removed after it was
   stored (its partition is rewritten without it) and the read after it *)
Definition ex_evs : list pev :=
  [PvSet (mkCh "a" "1" (-1) 1 false); PvSet (mkCh "b" "x" (-1) 2 false); PvSnap false ["a"; "b"] [["a"]; ["b"]];
   PvRemove "a"; PvInc "c" 5 3; PvOther "nun-db-base/d2/7.nun" "junk"; PvSet (mkCh "b" "y" (-1) 4 false);
   PvSnap false ["c"; "b"; "a"] [["c"; "a"]; ["b"]]].

Example part_history_demo :
  let '(m, s, clk) := fold_left (prun 2 [("a", 0); ("b", 1); ("c", 0)] "d") ex_evs ([], stub0, 0) in
  map (fun kv => (fst kv, v_val (snd kv), v_st (snd kv))) m = [("a", "<Empty>", VDeleted); ("b", "y", VOk); ("c", "5", VOk)] /\
  map fst (st_objs s) = ["nun-db-base/d/0.nun"; "nun-db-base/d/1.nun"; "nun-db-base/d2/7.nun"] /\
  snd (part_read_db 2 s "d" 100) = PLoaded [("c", mkV "5" 1 100 VOk 0 0); ("b", mkV "y" 1 101 VOk 1 0)] 102.
Proof. vm_compute. repeat split; reflexivity. Qed.

Example ex_evs_ok : Forall (pev_ok "d") ex_evs.
Proof.
  repeat constructor; cbn; try (vm_compute; reflexivity); try (unfold slen, max_alloc; cbn; lia);
    try (unfold i32_range; lia); try (intros [H|H]; try discriminate H; try destruct H);
    try (intros [H|[H|H]]; try discriminate H; try destruct H); auto.
  all: discriminate.
Qed.
