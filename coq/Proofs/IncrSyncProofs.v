(* IncrSyncProofs.v -- the incremental catch-up a primary sends to a rejoining node
   (Cluster.incr_sync_lines = get_pendding_opps_since): coverage, exactness, one line
   per key, order, and the writer-side invariant that makes the log decodable. *)
From NunDB Require Import Model.Base Model.Pending Model.Parse Model.Node Model.Oplog Model.Cluster Proofs.ListLemmas.
From NunDB Require Import Proofs.AssocLemmas Proofs.OplogProofs Proofs.ClusterProofs.
From Coq Require Import Lia ZifyBool ZifyN ZifyNat Sorted Permutation.
Local Open Scope N_scope.

Inductive sline :=
| SLSet (dbn k v : str)
| SLRemove (dbn k : str)
| SLCreate (dbn : str)
| SLSnap (dbn : str).

Definition render (n : node) (s : sline) : str :=
  match s with
  | SLSet dbn k v => "replicate " +++ dbn +++ " " +++ k +++ " " +++ v
  | SLRemove dbn k => "replicate-remove " +++ dbn +++ " " +++ k
  | SLCreate dbn => create_db_line n dbn
  | SLSnap dbn => "replicate-snapshot " +++ dbn
  end.

(* the line one log record is turned into; None = unwrap() panic *)
Definition sline_of (x : cnode) (r : oprec) : option sline :=
  let n := cn_node x in
  match name_of_id (n_idmap n) (r_db r) with
  | None => None
  | Some dbn =>
      if N.eqb (r_op r) 0 then
        match key_of_id (cn_keymap x) (r_key r), get_db n dbn with
        | Some k, Some d => Some (SLSet dbn k (fst (get_key_value_new d k)))
        | _, _ => None
        end
      else if N.eqb (r_op r) 1 then
        match key_of_id (cn_keymap x) (r_key r) with
        | Some k => Some (SLRemove dbn k)
        | None => None
        end
      else if N.eqb (r_op r) 2 then
        match get_db n dbn with Some _ => Some (SLCreate dbn) | None => None end
      else Some (SLSnap dbn)
  end.

(* [istep], [sort_hits]: the body of the fold of Cluster.incr_sync_lines and its insertion sort *)
Definition istep (x : cnode) (acc : option (list str)) (h : okey * ohit) : option (list str) :=
  match acc with
  | None => None
  | Some ls =>
      match sline_of x (h_rec (snd h)) with
      | Some sl => Some (ls ++ [render (cn_node x) sl])
      | None => None
      end
  end.

Definition sort_hits (hits : list (okey * ohit)) : list (okey * ohit) := fold_right insert_hit [] hits.

Lemma incr_sync_lines_unfold x since :
  incr_sync_lines x since =
  match query_all [] (cn_log x) since with
  | None => None
  | Some hits => fold_left (istep x) (sort_hits hits) (Some [])
  end.
Proof.
  unfold incr_sync_lines. destruct (query_all [] (cn_log x) since) as [hits|]; [|reflexivity].
  unfold sort_hits. apply fold_left_ext.
  intros acc h. unfold istep, sline_of. destruct acc as [ls|]; [|reflexivity].
  cbv zeta. destruct (name_of_id (n_idmap (cn_node x)) (r_db (h_rec (snd h)))) as [dbn|]; [|reflexivity].
  destruct (N.eqb (r_op (h_rec (snd h))) 0).
  { destruct (key_of_id (cn_keymap x) (r_key (h_rec (snd h)))); [|reflexivity].
    destruct (get_db (cn_node x) dbn); reflexivity. }
  destruct (N.eqb (r_op (h_rec (snd h))) 1).
  { destruct (key_of_id (cn_keymap x) (r_key (h_rec (snd h)))); reflexivity. }
  destruct (N.eqb (r_op (h_rec (snd h))) 2).
  { destruct (get_db (cn_node x) dbn); reflexivity. }
  reflexivity.
Qed.

(* [sl] is the line of hit [h] *)
Definition line_rel (x : cnode) (h : okey * ohit) (sl : sline) : Prop :=
  sline_of x (h_rec (snd h)) = Some sl.

Lemma fold_istep_ok x : forall l sls acc, Forall2 (line_rel x) l sls ->
  fold_left (istep x) l (Some acc) = Some (acc ++ map (render (cn_node x)) sls).
Proof.
  intros l sls acc H. revert acc. induction H as [|h sl l sls Hh Hrest IH]; intros acc.
  - cbn. now rewrite app_nil_r.
  - cbn [fold_left map]. unfold istep at 2. unfold line_rel in Hh. rewrite Hh.
    rewrite IH. rewrite <- app_assoc. reflexivity.
Qed.

Lemma lines_exist x : forall l, (forall h, In h l -> sline_of x (h_rec (snd h)) <> None) ->
  exists sls, Forall2 (line_rel x) l sls.
Proof.
  induction l as [|h l IH]; intros H.
  - exists []. constructor.
  - destruct IH as [sls Hsls]; [intros h' Hin; apply H; now right|].
    destruct (sline_of x (h_rec (snd h))) as [sl|] eqn:E.
    + exists (sl :: sls). constructor; [exact E|exact Hsls].
    + exfalso. apply (H h); [now left|exact E].
Qed.

(* hits ordered by their position in the scan *)
Definition ple (a b : okey * ohit) : Prop := h_pos (snd a) <= h_pos (snd b).

Lemma insert_hit_perm h : forall l, Permutation (insert_hit h l) (h :: l).
Proof.
  induction l as [|y r IH]; cbn [insert_hit]; [apply Permutation_refl|].
  destruct (N.leb (h_pos (snd h)) (h_pos (snd y))); [apply Permutation_refl|].
  eapply perm_trans; [apply perm_skip; exact IH|apply perm_swap].
Qed.

Lemma sort_hits_perm : forall l, Permutation (sort_hits l) l.
Proof.
  induction l as [|h l IH]; [apply Permutation_refl|].
  unfold sort_hits in *. cbn [fold_right].
  eapply perm_trans; [apply insert_hit_perm|]. now apply perm_skip.
Qed.

Lemma insert_hit_sorted h : forall l, StronglySorted ple l -> StronglySorted ple (insert_hit h l).
Proof.
  induction l as [|y r IH]; intros Hs; cbn [insert_hit].
  - constructor; constructor.
  - inversion Hs as [|y' r' Hsr Hfa]; subst.
    destruct (N.leb_spec (h_pos (snd h)) (h_pos (snd y))) as [Hle|Hgt].
    + constructor; [exact Hs|]. constructor; [exact Hle|].
      rewrite Forall_forall in *. intros z Hz. specialize (Hfa z Hz). unfold ple in *. lia.
    + constructor; [apply IH; exact Hsr|].
      rewrite Forall_forall in *. intros z Hz.
      apply (Permutation_in _ (insert_hit_perm h r)) in Hz. destruct Hz as [<-|Hz].
      * unfold ple. lia.
      * now apply Hfa.
Qed.

Lemma sort_hits_sorted : forall l, StronglySorted ple (sort_hits l).
Proof.
  induction l as [|h l IH]; [constructor|].
  unfold sort_hits in *. cbn [fold_right]. now apply insert_hit_sorted.
Qed.

(* no record of [l] belongs to the (db id, key id) pair [k] *)
Definition nokey (k : okey) (l : list oprec) : Prop := forall r, In r l -> kof r <> k.

Lemma scan_in : forall l c m, NoDup (map fst m) -> forall k h, In (k, h) (scan l c m) ->
  (In (k, h) m /\ nokey k l) \/
  (exists l1 l2, l = l1 ++ h_rec h :: l2 /\ kof (h_rec h) = k /\ nokey k l2 /\
                 h_pos h = c + N.of_nat (length l1) + 1).
Proof.
  induction l as [|x l IH] using rev_ind; intros c m Hnd k h Hin.
  - left. split; [exact Hin|]. intros r [].
  - rewrite scan_snoc_pos in Hin.
    apply (in_set_nodup okey_eqb okey_eqb_spec) in Hin; [|now apply scan_nodup].
    destruct Hin as [[-> ->]|[Hne Hin]].
    + right. exists l, []. cbn [h_rec h_pos]. split; [reflexivity|]. split; [reflexivity|].
      split; [intros r []|reflexivity].
    + destruct (IH c m Hnd k h Hin) as [[Hm Hno]|(l1 & l2 & -> & Hk & Hno & Hpos)].
      * left. split; [exact Hm|]. intros r Hr. apply in_app_or in Hr.
        destruct Hr as [Hr|[<-|[]]]; [now apply Hno|congruence].
      * right. exists l1, (l2 ++ [x]). split; [now rewrite <- app_assoc|].
        split; [exact Hk|]. split; [|exact Hpos].
        intros r Hr. apply in_app_or in Hr.
        destruct Hr as [Hr|[<-|[]]]; [now apply Hno|congruence].
Qed.

(* what the query leaves in its map: for every (db id, key id) pair the last record of the pair in
   the scanned suffix [suf] of the log, with its position there *)
Definition hits_spec (f : ofile) (since : N) (hits : omap) (pre suf : list oprec) : Prop :=
  f = pre ++ suf /\
  NoDup (map fst hits) /\
  (forall k r, spec_last f since k = Some r -> exists h, In (k, h) hits /\ h_rec h = r) /\
  (forall k h, In (k, h) hits -> exists l1 l2, suf = l1 ++ h_rec h :: l2 /\ kof (h_rec h) = k /\
                                   nokey k l2 /\ h_pos h = N.of_nat (length l1) + 1) /\
  (hits = [] \/ exists sp, search f since = Found sp /\ suf = skipn (N.to_nat (scan_start f since sp)) f).

Theorem query_hits_spec f since : sorted_times f = true ->
  exists hits pre suf, query_all [] f since = Some hits /\ hits_spec f since hits pre suf.
Proof.
  intros Hs.
  destruct (query_all_complete [] f since Hs) as (m & Hq & Hcomplete).
  change (all_records [] f) with f in Hcomplete.
  exists m. pose proof Hq as Hq'. rewrite query_all_single in Hq'. unfold query_file in Hq'.
  destruct (search f since) as [sp| | |] eqn:Es; try discriminate.
  - injection Hq' as Hm.
    set (s := N.to_nat (scan_start f since sp)) in *.
    exists (firstn s f), (skipn s f).
    split; [exact Hq|]. split; [symmetry; apply firstn_skipn|].
    assert (Hnd : NoDup (map fst m)) by (rewrite <- Hm; apply scan_nodup; constructor).
    split; [exact Hnd|]. split.
    + intros k r Hk. destruct (Hcomplete k r Hk) as (h & Hg & Hr).
      exists h. split; [|exact Hr]. now apply (get_in okey_eqb okey_eqb_spec).
    + split; [|right; exists sp; split; [exact Es|reflexivity]].
      intros k h Hin. rewrite <- Hm in Hin.
      apply scan_in in Hin; [|constructor].
      destruct Hin as [[[] _]|(l1 & l2 & H1 & H2 & H3 & H4)].
      exists l1, l2. repeat split; try assumption.
  - injection Hq' as Hm. exists f, []. split; [exact Hq|]. split; [now rewrite app_nil_r|].
    subst m. split; [constructor|]. split.
    + intros k r Hk. destruct (Hcomplete k r Hk) as (h & Hg & _). discriminate.
    + split; [intros k h []|now left].
Qed.

Lemma hits_spec_perm f since hits hits' pre suf : Permutation hits hits' ->
  hits_spec f since hits pre suf -> hits_spec f since hits' pre suf.
Proof.
  intros P (Hf & Hnd & Hc & Hstr & He). split; [exact Hf|].
  split; [apply (Permutation_NoDup (Permutation_map fst P) Hnd)|]. split.
  { intros k r Hr. destruct (Hc k r Hr) as (h & Hin & Hh). exists h. split; [exact (Permutation_in _ P Hin)|exact Hh]. }
  split; [intros k h Hin; apply Hstr, (Permutation_in _ (Permutation_sym P) Hin)|].
  destruct He as [->|He]; [left; now apply Permutation_nil|now right].
Qed.

Lemma hits_in_log f since hits pre suf : hits_spec f since hits pre suf ->
  forall k h, In (k, h) hits -> In (h_rec h) f /\ kof (h_rec h) = k.
Proof.
  intros (Hf & _ & _ & Hstr & _) k h Hin.
  destruct (Hstr k h Hin) as (l1 & l2 & Hsuf & Hk & _). split; [|exact Hk].
  rewrite Hf, Hsuf. apply in_or_app. right. apply in_or_app. right. now left.
Qed.

Definition recs_decodable (x : cnode) : Prop :=
  forall r, In r (cn_log x) ->
    (exists dbn, name_of_id (n_idmap (cn_node x)) (r_db r) = Some dbn /\ get_db (cn_node x) dbn <> None) /\
    (r_op r <= 1 -> exists k, key_of_id (cn_keymap x) (r_key r) = Some k).

Lemma decodable_sline x r : recs_decodable x -> In r (cn_log x) -> sline_of x r <> None.
Proof.
  intros Hd Hin. destruct (Hd r Hin) as [(dbn & Hn & Hdb) Hk].
  unfold sline_of. rewrite Hn.
  destruct (get_db (cn_node x) dbn) as [d|] eqn:Ed; [|congruence].
  destruct (N.eqb_spec (r_op r) 0) as [E0|E0].
  { destruct Hk as [k Hk]; [lia|]. rewrite Hk. discriminate. }
  destruct (N.eqb_spec (r_op r) 1) as [E1|E1].
  { destruct Hk as [k Hk]; [lia|]. rewrite Hk. discriminate. }
  destruct (N.eqb (r_op r) 2); discriminate.
Qed.

(* The lemma the four results (coverage, exactness, one line per key, order) are read off: the answer is
   [map render sls], [sls] the lines ([line_rel]) of the query's hits sorted by position, the hits as
   [hits_spec] says *)
Theorem incr_sync_struct x since :
  sorted_times (cn_log x) = true -> recs_decodable x ->
  exists hits pre suf sls,
    hits_spec (cn_log x) since hits pre suf /\ StronglySorted ple hits /\
    Forall2 (line_rel x) hits sls /\
    incr_sync_lines x since = Some (map (render (cn_node x)) sls).
Proof.
  intros Hs Hd.
  destruct (query_hits_spec (cn_log x) since Hs) as (hits & pre & suf & Hq & Hspec).
  apply (hits_spec_perm _ _ _ _ _ _ (Permutation_sym (sort_hits_perm hits))) in Hspec.
  destruct (lines_exist x (sort_hits hits)) as [sls Hsls].
  { intros [k h] Hin. cbn [snd]. apply decodable_sline; [exact Hd|].
    apply (hits_in_log _ _ _ _ _ Hspec k h Hin). }
  exists (sort_hits hits), pre, suf, sls. split; [exact Hspec|]. split; [apply sort_hits_sorted|].
  split; [exact Hsls|].
  rewrite incr_sync_lines_unfold, Hq. now rewrite (fold_istep_ok x _ sls []).
Qed.

Definition line_sent (x : cnode) (ls : list str) (dbn k : str) (r' : oprec) : Prop :=
  (r_op r' = 0 /\ exists d, get_db (cn_node x) dbn = Some d /\
       In ("replicate " +++ dbn +++ " " +++ k +++ " " +++ fst (get_key_value_new d k)) ls)
  \/ (r_op r' = 1 /\ In ("replicate-remove " +++ dbn +++ " " +++ k) ls).

(* What holds of an ARBITRARY decodable log: the (db,key) of every record at or after
   [since] is represented in the answer by the line of the LAST record carrying that
   (db id, key id) pair.  The pair does not include the operation, so if a create-db or a
   snapshot record shares the pair (last two cases) the key's update is not sent.
   The writer files those records under reserved key ids ([marker_create],
   [marker_snapshot]), which excludes this: see [incr_sync_covers_fixed]. *)
Theorem incr_sync_covers_general x since :
  sorted_times (cn_log x) = true -> recs_decodable x ->
  exists ls, incr_sync_lines x since = Some ls /\
    forall r dbn k, In r (cn_log x) -> since <= r_time r ->
      name_of_id (n_idmap (cn_node x)) (r_db r) = Some dbn ->
      key_of_id (cn_keymap x) (r_key r) = Some k ->
      exists r', spec_last (cn_log x) since (r_db r, r_key r) = Some r' /\
        (line_sent x ls dbn k r'
         \/ (r_op r' = 2 /\ In (create_db_line (cn_node x) dbn) ls)
         \/ (2 < r_op r' /\ In ("replicate-snapshot " +++ dbn) ls)).
Proof.
  intros Hs Hd.
  destruct (incr_sync_struct x since Hs Hd) as (hits & pre & suf & sls & Hspec & _ & Hsls & Hls).
  exists (map (render (cn_node x)) sls). split; [exact Hls|].
  intros r dbn k Hin Hge Hname Hkey.
  destruct (spec_last_exists _ _ _ Hin Hge) as [r' Hr'].
  exists r'. split; [exact Hr'|].
  pose proof (spec_last_some since _ _ _ Hr') as (Hin' & Hge' & Hkof).
  unfold kof in Hkof. injection Hkof as Hdb' Hkey'.
  destruct Hspec as (_ & _ & Hcompl & _).
  destruct (Hcompl _ _ Hr') as (h & Hh & Hrec).
  destruct (Forall2_in_l _ _ _ Hsls _ Hh) as (sl & Hsl & Hrel).
  unfold line_rel in Hrel. cbn [snd] in Hrel. rewrite Hrec in Hrel.
  apply (in_map (render (cn_node x))) in Hsl.
  unfold sline_of in Hrel. rewrite Hdb', Hname, Hkey', Hkey in Hrel. unfold line_sent.
  destruct (N.eqb_spec (r_op r') 0) as [E0|E0].
  { left. left. split; [exact E0|].
    destruct (get_db (cn_node x) dbn) as [d|]; [|discriminate].
    injection Hrel as <-. exists d. split; [reflexivity|exact Hsl]. }
  destruct (N.eqb_spec (r_op r') 1) as [E1|E1].
  { left. right. split; [exact E1|]. injection Hrel as <-. exact Hsl. }
  destruct (N.eqb_spec (r_op r') 2) as [E2|E2].
  { right. left. split; [exact E2|].
    destruct (get_db (cn_node x) dbn) as [d|]; [|discriminate].
    injection Hrel as <-. exact Hsl. }
  right. right. split; [lia|]. injection Hrel as <-. exact Hsl.
Qed.

(* Coverage under the hypothesis that no create-db / snapshot record at or after
   [since] shares the record's (db id, key id) pair.  [incr_sync_covers_fixed] discharges
   this hypothesis for logs produced by the writer. *)
Theorem incr_sync_covers x since :
  sorted_times (cn_log x) = true -> recs_decodable x ->
  exists ls, incr_sync_lines x since = Some ls /\
    forall r dbn k, In r (cn_log x) -> since <= r_time r ->
      name_of_id (n_idmap (cn_node x)) (r_db r) = Some dbn ->
      key_of_id (cn_keymap x) (r_key r) = Some k ->
      (forall r2, In r2 (cn_log x) -> since <= r_time r2 ->
                  r_db r2 = r_db r -> r_key r2 = r_key r -> r_op r2 <= 1) ->
      exists r', spec_last (cn_log x) since (r_db r, r_key r) = Some r' /\ line_sent x ls dbn k r'.
Proof.
  intros Hs Hd. destruct (incr_sync_covers_general x since Hs Hd) as (ls & Hls & Hcov).
  exists ls. split; [exact Hls|].
  intros r dbn k Hin Hge Hname Hkey Hnocoll.
  destruct (Hcov r dbn k Hin Hge Hname Hkey) as (r' & Hr' & Hcases).
  exists r'. split; [exact Hr'|].
  pose proof (spec_last_some since _ _ _ Hr') as (Hin' & Hge' & Hkof).
  unfold kof in Hkof. injection Hkof as Hdb' Hkey'.
  pose proof (Hnocoll r' Hin' Hge' Hdb' Hkey') as Hop.
  destruct Hcases as [H|[[H _]|[H _]]]; [exact H|lia|lia].
Qed.

(* keys_map hands out the ids 0, 1, 2, ... in order of first use *)
Definition keymap_ok (km : list (str * N)) : Prop :=
  map snd km = map N.of_nat (seq 0 (length km)).

Lemma keymap_ok_ids km : keymap_ok km -> forall k id, In (k, id) km -> id < N.of_nat (length km).
Proof.
  unfold keymap_ok. intros H k id Hin. apply (in_map snd) in Hin. cbn [snd] in Hin.
  rewrite H in Hin. apply in_map_iff in Hin. destruct Hin as (i & <- & Hi).
  apply in_seq in Hi. lia.
Qed.

Lemma keymap_ok_snoc km key : keymap_ok km -> keymap_ok (km ++ [(key, N.of_nat (length km))]).
Proof.
  unfold keymap_ok. intros H. rewrite map_app, app_length. cbn [length map snd].
  rewrite Nat.add_1_r, seq_S, map_app, H. reflexivity.
Qed.

Lemma keymap_ok_nodup km : keymap_ok km -> NoDup (map snd km).
Proof.
  unfold keymap_ok. intros ->. apply NoDup_map_inv with (f := N.to_nat).
  rewrite map_map, (map_ext _ id), map_id; [apply seq_NoDup|apply Nat2N.id].
Qed.

Lemma key_of_id_some : forall km id k, In (k, id) km -> exists k', key_of_id km id = Some k'.
Proof.
  intros km id k Hin. destruct (key_of_id km id) as [k'|] eqn:E; [now exists k'|now apply key_of_id_none in Hin].
Qed.

Lemma key_of_id_exact km id k : keymap_ok km -> In (k, id) km -> key_of_id km id = Some k.
Proof. intros Hok. apply key_of_id_unique. now apply keymap_ok_nodup. Qed.

Lemma keymap_ok_closed : snoc_closed keymap_ok.
Proof. intros km key H _. now apply keymap_ok_snoc. Qed.

Theorem key_id_keeps_keymap_ok x key x1 kid :
  keymap_ok (cn_keymap x) -> key_id x key = (x1, kid) -> keymap_ok (cn_keymap x1).
Proof. intros Hok H. now apply (key_id_spec x key x1 kid H); [apply keymap_ok_closed|]. Qed.

Theorem key_id_decodes x key x1 kid :
  keymap_ok (cn_keymap x) -> key_id x key = (x1, kid) ->
  key_of_id (cn_keymap x1) kid = Some key.
Proof.
  intros Hok H. destruct (key_id_spec x key x1 kid H) as (_ & _ & _ & _ & Hin & _).
  apply key_of_id_exact; [exact (key_id_keeps_keymap_ok x key x1 kid Hok H)|exact Hin].
Qed.

(* every database of the node has its id in id_name_db_map, under the name of a database *)
Definition idmap_covers (n : node) : Prop :=
  forall dbn d, get_db n dbn = Some d ->
    exists dbn', name_of_id (n_idmap n) (d_id d) = Some dbn' /\ get_db n dbn' <> None.

Definition times_le (f : ofile) (id : N) : Prop := forall r, In r f -> r_time r <= id.

(* the invariant: the two hypotheses of [incr_sync_covers], the id discipline of keys_map and the
   coverage of id_name_db_map *)
Definition decodable (x : cnode) : Prop :=
  sorted_times (cn_log x) = true /\ recs_decodable x /\
  keymap_ok (cn_keymap x) /\ idmap_covers (cn_node x).

Lemma sorted_times_snoc : forall f r, sorted_times f = true -> times_le f (r_time r) ->
  sorted_times (f ++ [r]) = true.
Proof.
  induction f as [|a f IH]; intros r Hs Hle; [reflexivity|].
  destruct f as [|b f'].
  - cbn. rewrite andb_true_r. apply N.leb_le. apply Hle. now left.
  - change ((a :: b :: f') ++ [r]) with (a :: (b :: f') ++ [r]).
    cbn [sorted_times app] in *. apply andb_true_iff in Hs. destruct Hs as [H1 H2].
    apply andb_true_iff. split; [exact H1|].
    apply (IH r H2). intros r0 Hr0. apply Hle. now right.
Qed.

Definition logged_request (rq : request) : Prop :=
  match rq with
  | RqReplicateSet _ _ _ _ | RqReplicateRemove _ _ | RqReplicateIncrement _ _ _
  | RqCreateDb _ _ _ | RqReplicateSnapshot _ _ => True
  | _ => False
  end.

Lemma decodable_extends x x' id : decodable x -> times_le (cn_log x) id -> extends x x' id ->
  decodable x' /\ times_le (cn_log x') id.
Proof.
  intros (Hs & Hd & Hkm & Hid) Hle (Hn & _ & _ & (extra & Hextra) & Hkm' & recs & Hl & Hr).
  assert (Hlog : sorted_times (cn_log x ++ recs) = true /\ times_le (cn_log x ++ recs) id).
  { clear Hl. revert Hs Hle. generalize (cn_log x). induction Hr as [|r recs (Ht & _) _ IH]; intros f Hs Hle.
    - now rewrite app_nil_r.
    - change (r :: recs) with ([r] ++ recs). rewrite app_assoc. apply IH.
      + apply sorted_times_snoc; [exact Hs|now rewrite Ht].
      + intros r0 Hr0. apply in_app_or in Hr0 as [Hr0|[<-|[]]]; [now apply Hle|lia]. }
  destruct Hlog as [Hs' Hle']. split; [|now rewrite Hl].
  unfold decodable, recs_decodable. rewrite Hl, Hn. split; [exact Hs'|]. split; [|split; [apply Hkm'; [apply keymap_ok_closed|exact Hkm]|exact Hid]].
  intros r Hin. apply in_app_or in Hin as [Hin|Hin].
  - destruct (Hd r Hin) as [H1 H2]. split; [exact H1|].
    intros Hop. destruct (H2 Hop) as [k Hk]. exists k. rewrite Hextra, key_of_id_app_some; congruence.
  - rewrite Forall_forall in Hr. destruct (Hr r Hin) as (_ & (dbn & d & Hdb & ->) & Hk & _).
    split; [exact (Hid dbn d Hdb)|]. intros Hop. destruct (Hk Hop) as [k Hin']. eapply key_of_id_some; eauto.
Qed.

(* The result [Some id] says that every database the request names exists: repl_oplog answers None
   ("Missing DB Id") exactly when one does not.  Neither that result nor
   [logged_request rq] is used: [repl_oplog_extends] needs no such hypothesis (an unlogged request
   leaves the node as it is). *)
Theorem repl_oplog_keeps_decodable x rq id x' :
  decodable x -> logged_request rq -> times_le (cn_log x) id ->
  repl_oplog x rq id = (x', Some id) ->
  decodable x' /\ times_le (cn_log x') id.
Proof. intros Hd _ Hle H. exact (decodable_extends x x' id Hd Hle (proj1 (repl_oplog_extends _ _ _ _ _ H))). Qed.

Theorem repl_oplog_set_record x dbn key v ver id x' :
  keymap_ok (cn_keymap x) ->
  repl_oplog x (RqReplicateSet dbn key v ver) id = (x', Some id) ->
  exists d kid, get_db (cn_node x) dbn = Some d /\
    cn_log x' = cn_log x ++ [mkRec id kid (d_id d) 0] /\
    key_of_id (cn_keymap x') kid = Some key.
Proof.
  intros Hok H. rewrite (proj2 (repl_oplog_keyed x (RqReplicateSet dbn key v ver) id dbn key 0 eq_refl)) in H.
  destruct (key_id x key) as [x1 kid] eqn:Ek. cbn [fst snd] in H.
  destruct (key_id_spec x key x1 kid Ek) as (Hn1 & _ & _ & Hl1 & _).
  destruct (db_id_of (cn_node x) dbn) as [i|] eqn:Ei; [|discriminate].
  injection H as <-. destruct (db_id_of_some _ _ _ Ei) as (d & Hdb & <-).
  exists d, kid. split; [exact Hdb|]. unfold log_append. cbn [cn_log cn_keymap].
  split; [now rewrite Hl1|]. now apply (key_id_decodes x key x1 kid).
Qed.

(* the writer files create-db records under [marker_create] and snapshot records under
   [marker_snapshot], and nothing else with an operation code above 1 *)
Definition meta_keys (f : ofile) : Prop :=
  forall r, In r f -> 2 <= r_op r -> r_key r = marker_create \/ r_key r = marker_snapshot.

Theorem repl_oplog_keeps_meta_keys x rq id x' o :
  meta_keys (cn_log x) -> repl_oplog x rq id = (x', o) -> meta_keys (cn_log x').
Proof.
  intros Hm H. destruct (repl_oplog_extends _ _ _ _ _ H) as ((_ & _ & _ & _ & _ & recs & -> & Hr) & _).
  intros r Hin. apply in_app_or in Hin as [Hin|Hin]; [now apply Hm|].
  rewrite Forall_forall in Hr. apply (Hr r Hin).
Qed.

(* For logs of the writer: under the writer's invariants
   ([decodable], [meta_keys]) and as long as keys_map has not reached the reserved ids,
   no panic, and every key written or removed at or after [since] has its line, chosen by
   the last record of the key at or after [since].  No per-record hypothesis. *)
Theorem incr_sync_covers_fixed x since :
  decodable x -> meta_keys (cn_log x) ->
  N.of_nat (length (cn_keymap x)) < marker_snapshot ->
  exists ls, incr_sync_lines x since = Some ls /\
    forall r, In r (cn_log x) -> since <= r_time r -> r_op r <= 1 ->
      exists dbn k r',
        name_of_id (n_idmap (cn_node x)) (r_db r) = Some dbn /\
        key_of_id (cn_keymap x) (r_key r) = Some k /\
        spec_last (cn_log x) since (r_db r, r_key r) = Some r' /\
        ((r_op r' = 0 /\ exists d, get_db (cn_node x) dbn = Some d /\
             In ("replicate " +++ dbn +++ " " +++ k +++ " " +++ fst (get_key_value_new d k)) ls)
         \/ (r_op r' = 1 /\ In ("replicate-remove " +++ dbn +++ " " +++ k) ls)).
Proof.
  intros (Hs & Hd & Hkm & _) Hm Hlen.
  destruct (incr_sync_covers x since Hs Hd) as (ls & Hls & Hcov).
  exists ls. split; [exact Hls|].
  intros r Hin Hge Hop.
  destruct (Hd r Hin) as [(dbn & Hname & _) Hk]. destruct (Hk Hop) as [k Hkey].
  destruct (Hcov r dbn k Hin Hge Hname Hkey) as (r' & Hr' & Hsent).
  { (* a record that shares the pair has a key id of keys_map, so not a reserved one *)
    intros r2 Hin2 _ _ Hkey2.
    destruct (N.le_gt_cases (r_op r2) 1) as [Hle|Hgt]; [exact Hle|]. exfalso.
    pose proof (keymap_ok_ids _ Hkm _ _ (key_of_id_in _ _ _ Hkey)) as Hlt.
    destruct (Hm r2 Hin2 ltac:(lia)) as [E|E]; rewrite E in Hkey2;
      unfold marker_create, marker_snapshot in *; lia. }
  exists dbn, k, r'. repeat split; assumption.
Qed.

(* the length bound is an invariant as long as fewer than 2^64 - 2 distinct key names
   are ever used: key_id adds at most one entry *)
Lemma key_id_length x key x1 kid : key_id x key = (x1, kid) ->
  (length (cn_keymap x1) <= S (length (cn_keymap x)))%nat.
Proof.
  unfold key_id. destruct (assoc_get String.eqb key (cn_keymap x)); intros [= <- _].
  - lia.
  - cbn [cn_keymap]. rewrite app_length. cbn [length]. lia.
Qed.

Definition rec_decodable_b (x : cnode) (r : oprec) : bool :=
  match name_of_id (n_idmap (cn_node x)) (r_db r) with
  | Some dbn => match get_db (cn_node x) dbn with Some _ => true | None => false end
  | None => false
  end &&
  (negb (N.leb (r_op r) 1) ||
   match key_of_id (cn_keymap x) (r_key r) with Some _ => true | None => false end).

Lemma recs_decodable_check x : forallb (rec_decodable_b x) (cn_log x) = true -> recs_decodable x.
Proof.
  intros H r Hin. rewrite forallb_forall in H. specialize (H r Hin).
  unfold rec_decodable_b in H. apply andb_true_iff in H. destruct H as [H1 H2]. split.
  - destruct (name_of_id (n_idmap (cn_node x)) (r_db r)) as [dbn|]; [|discriminate].
    exists dbn. split; [reflexivity|]. destruct (get_db (cn_node x) dbn); [discriminate|discriminate].
  - intros Hop. destruct (N.leb_spec (r_op r) 1) as [_|Hgt]; [|lia]. cbn [negb orb] in H2.
    destruct (key_of_id (cn_keymap x) (r_key r)) as [k|]; [now exists k|discriminate].
Qed.

Definition idmap_covers_b (n : node) : bool :=
  forallb (fun p => match name_of_id (n_idmap n) (d_id (snd p)) with
                    | Some nm => match get_db n nm with Some _ => true | None => false end
                    | None => false
                    end) (n_dbs n).

Lemma idmap_covers_check n : idmap_covers_b n = true -> idmap_covers n.
Proof.
  intros H dbn d Hdb. unfold idmap_covers_b in H. rewrite forallb_forall in H.
  apply str_get_in in Hdb. specialize (H _ Hdb). cbn [snd] in H.
  destruct (name_of_id (n_idmap n) (d_id d)) as [nm|]; [|discriminate].
  exists nm. split; [reflexivity|]. destruct (get_db n nm); discriminate.
Qed.

(* a primary, one client; every command goes through the request handler (Node.step) and
   the replication thread (poll_repl -> repl_one -> repl_oplog) *)
Definition run_cmds (x : cnode) (sid : nat) (cmds : list str) : cnode :=
  fold_left (fun x c => poll_repl (cn_set_node x (fst (step (cn_node x) sid c)))) cmds x.

Definition ex_start : cnode * nat :=
  let x0 := init_cnode "user" "pwd" "n1" 1 Primary 100 in
  let '(n, c) := connect (cn_node x0) in (cn_set_node x0 n, c).

Definition ex : cnode :=
  run_cmds (fst ex_start) (snd ex_start)
    ["auth user pwd"; "create-db d1 tok"; "use-db d1 tok";
     "set k0 a"; "set k1 b"; "set k2 c"; "remove k1"; "set k0 a2"; "snapshot false"; "set k3 d"].

Example ex_log :
  cn_log ex = [mkRec 104 marker_create 1 2;     (* create-db d1 : reserved key id *)
               mkRec 107 0 1 0;                 (* set k0 *)
               mkRec 109 1 1 0;                 (* set k1 *)
               mkRec 111 2 1 0;                 (* set k2 *)
               mkRec 112 1 1 1;                 (* remove k1 *)
               mkRec 114 0 1 0;                 (* set k0 *)
               mkRec 115 marker_snapshot 1 3;   (* snapshot d1 : reserved key id *)
               mkRec 117 3 1 0]                 (* set k3 *)
  /\ cn_keymap ex = [("k0", 0); ("k1", 1); ("k2", 2); ("k3", 3)]
  /\ n_idmap (cn_node ex) = [(0, "$admin"); (1, "d1")].
Proof. vm_compute. repeat split. Qed.

Example ex_decodable : decodable ex.
Proof.
  split; [vm_compute; reflexivity|]. split; [apply recs_decodable_check; vm_compute; reflexivity|].
  split; [vm_compute; reflexivity|apply idmap_covers_check; vm_compute; reflexivity].
Qed.

(* the joiner was last in step at 110: everything from "set k2 c" on happened while it was away *)
Example ex_lines :
  incr_sync_lines ex 110 =
  Some ["replicate d1 k2 c"; "replicate-remove d1 k1"; "replicate d1 k0 a2";
        "replicate-snapshot d1"; "replicate d1 k3 d"].
Proof. vm_compute. reflexivity. Qed.

(* Were create-db filed under key id 1 and snapshot under key id 2 (ids that keys_map also hands out, see
   [marker_create] in Model/Cluster.v), the snapshot record (115) would replace "set k2 c" (111, key id 2)
   in the query result and the joiner would get no line for k2.  With the reserved key ids the update is sent. *)
Example covers_fixed_example :
  let r := mkRec 111 2 1 0 in
  In r (cn_log ex) /\ 110 <= r_time r /\ r_op r <= 1 /\
  name_of_id (n_idmap (cn_node ex)) (r_db r) = Some "d1" /\
  key_of_id (cn_keymap ex) (r_key r) = Some "k2" /\
  (exists d, get_db (cn_node ex) "d1" = Some d /\ fst (get_key_value_new d "k2") = "c") /\
  spec_last (cn_log ex) 110 (r_db r, r_key r) = Some r /\
  exists ls, incr_sync_lines ex 110 = Some ls /\ In "replicate d1 k2 c" ls.
Proof.
  cbv zeta.
  split; [rewrite (proj1 ex_log); cbn; tauto|].
  split; [cbn; lia|]. split; [cbn; lia|].
  split; [vm_compute; reflexivity|]. split; [vm_compute; reflexivity|].
  split.
  { destruct (get_db (cn_node ex) "d1") as [d|] eqn:E; [|vm_compute in E; discriminate].
    exists d. split; [reflexivity|].
    assert (H : option_map (fun d => fst (get_key_value_new d "k2")) (get_db (cn_node ex) "d1") = Some "c")
      by (vm_compute; reflexivity).
    rewrite E in H. cbn [option_map] in H. now injection H. }
  split; [vm_compute; reflexivity|].
  eexists. split; [apply ex_lines|]. now left.
Qed.

(* likewise "remove k1" (key id 1) does not displace the create-db record of d1: a joiner
   that was away since 104 is sent "create-db d1 tok" first *)
Example create_db_line_kept_example :
  In (mkRec 104 marker_create 1 2) (cn_log ex) /\
  create_db_line (cn_node ex) "d1" = "create-db d1 tok" /\
  incr_sync_lines ex 104 =
  Some ["create-db d1 tok"; "replicate d1 k2 c"; "replicate-remove d1 k1"; "replicate d1 k0 a2";
        "replicate-snapshot d1"; "replicate d1 k3 d"].
Proof. split; [rewrite (proj1 ex_log); now left|]. split; vm_compute; reflexivity. Qed.

Example ex_next_decodable :
  decodable (fst (repl_oplog ex (RqReplicateSet "d1" "k9" "z" (-1)) 200)).
Proof.
  destruct (repl_oplog ex (RqReplicateSet "d1" "k9" "z" (-1)) 200) as [x' o] eqn:E.
  assert (Ho : o = Some 200) by (apply (f_equal snd) in E; vm_compute in E; congruence).
  subst o. cbn [fst].
  apply (repl_oplog_keeps_decodable ex (RqReplicateSet "d1" "k9" "z" (-1)) 200 x' ex_decodable I); [|exact E].
  intros r Hr. rewrite (proj1 ex_log) in Hr. cbn [In] in Hr.
  repeat (destruct Hr as [<-|Hr]; [cbn [r_time]; lia|]). destruct Hr.
Qed.

Example ex_meta_keys : meta_keys (cn_log ex).
Proof.
  intros r Hr. rewrite (proj1 ex_log) in Hr. cbn [In] in Hr.
  repeat (destruct Hr as [<-|Hr];
          [cbn [r_op r_key]; intros Hop; first [lia | now left | now right]|]).
  destruct Hr.
Qed.

(* the hypotheses of [incr_sync_covers_fixed] hold of the concrete run, so it applies *)
Example ex_covers_fixed :
  exists ls, incr_sync_lines ex 110 = Some ls /\
    forall r, In r (cn_log ex) -> 110 <= r_time r -> r_op r <= 1 ->
      exists dbn k r',
        name_of_id (n_idmap (cn_node ex)) (r_db r) = Some dbn /\
        key_of_id (cn_keymap ex) (r_key r) = Some k /\
        spec_last (cn_log ex) 110 (r_db r, r_key r) = Some r' /\
        ((r_op r' = 0 /\ exists d, get_db (cn_node ex) dbn = Some d /\
             In ("replicate " +++ dbn +++ " " +++ k +++ " " +++ fst (get_key_value_new d k)) ls)
         \/ (r_op r' = 1 /\ In ("replicate-remove " +++ dbn +++ " " +++ k) ls)).
Proof.
  apply (incr_sync_covers_fixed ex 110 ex_decodable ex_meta_keys).
  vm_compute. reflexivity.
Qed.

Lemma hits_fresh f since hits pre suf : sorted_times f = true -> hits_spec f since hits pre suf ->
  forall k h, In (k, h) hits ->
    since <= r_time (h_rec h) \/
    (nth_error f 1 = Some (h_rec h) /\ forall r0, In r0 f -> r_time r0 <> since).
Proof.
  intros Hs Hspec k h Hin. pose proof Hspec as (_ & _ & _ & Hstr & Hsuf).
  destruct Hsuf as [->|(sp & Hfound & Hsuf)]; [destruct Hin|].
  destruct (Hstr k h Hin) as (l1 & l2 & Hdec & _).
  assert (Hin' : In (h_rec h) suf) by (rewrite Hdec; apply in_or_app; right; now left).
  rewrite Hsuf in Hin'. apply in_skipn_nth in Hin'. destruct Hin' as (i & Hi & Hnth).
  destruct (suffix_fresh f since (sorted_times_sortedP f Hs) sp Hfound i _ Hnth ltac:(lia)) as [H|[-> H]].
  - now left.
  - right. split; [exact Hnth|exact H].
Qed.

Lemma spec_last_decomp since l1 r l2 : since <= r_time r -> nokey (kof r) l2 ->
  spec_last (l1 ++ r :: l2) since (kof r) = Some r.
Proof.
  intros Hge Hno. rewrite spec_last_app.
  change (r :: l2) with ([r] ++ l2). rewrite spec_last_app.
  destruct (spec_last l2 since (kof r)) as [r2|] eqn:E2.
  - exfalso. apply spec_last_some in E2. destruct E2 as (Hin & _ & Hk). now apply (Hno r2 Hin).
  - assert (E1 : spec_last [r] since (kof r) = Some r).
    { unfold spec_last. cbn [fold_left].
      destruct (N.leb_spec since (r_time r)) as [_|Hlt]; [|lia]. cbn [andb].
      fold (kof r). destruct (okey_eqb_spec (kof r) (kof r)); congruence. }
    now rewrite E1.
Qed.

(* Every line is the line of a record of the log which is
   the LAST record of its (db id, key id) pair; that record is at or after [since] -- or it
   is record number 1 (the second record) of the log, in which case no record of the log
   carries the time [since] exactly (see [only_touched_refuted]). *)
Theorem incr_sync_only_touched x since ls :
  sorted_times (cn_log x) = true -> recs_decodable x -> incr_sync_lines x since = Some ls ->
  exists sls, ls = map (render (cn_node x)) sls /\
    forall sl, In sl sls -> exists r l1 l2,
      cn_log x = l1 ++ r :: l2 /\ nokey (kof r) l2 /\ sline_of x r = Some sl /\
      (since <= r_time r \/
       (nth_error (cn_log x) 1 = Some r /\ forall r0, In r0 (cn_log x) -> r_time r0 <> since)).
Proof.
  intros Hs Hd Hls.
  destruct (incr_sync_struct x since Hs Hd) as (hits & pre & suf & sls & Hspec & _ & Hsls & Hls').
  rewrite Hls in Hls'. injection Hls' as ->.
  exists sls. split; [reflexivity|]. intros sl Hsl.
  destruct (Forall2_in_r _ _ _ Hsls _ Hsl) as ([k h] & Hin & Hrel).
  unfold line_rel in Hrel. cbn [snd] in Hrel.
  pose proof (hits_fresh _ _ _ _ _ Hs Hspec k h Hin) as Hfresh.
  destruct Hspec as (Hf & _ & _ & Hstr & _).
  destruct (Hstr k h Hin) as (l1 & l2 & Hdec & Hk & Hno & _).
  exists (h_rec h), (pre ++ l1), l2. split; [now rewrite Hf, Hdec, <- app_assoc|].
  split; [now rewrite Hk|]. split; [exact Hrel|exact Hfresh].
Qed.

(* exactness proper, when some record of the log carries the time [since]: then every line is the line
   of the record [spec_last] designates *)
Theorem incr_sync_only_touched_exact x since ls :
  sorted_times (cn_log x) = true -> recs_decodable x -> incr_sync_lines x since = Some ls ->
  (exists r0, In r0 (cn_log x) /\ r_time r0 = since) ->
  exists sls, ls = map (render (cn_node x)) sls /\
    forall sl, In sl sls -> exists r,
      In r (cn_log x) /\ since <= r_time r /\
      spec_last (cn_log x) since (kof r) = Some r /\ sline_of x r = Some sl.
Proof.
  intros Hs Hd Hls (r0 & Hr0 & Ht0).
  destruct (incr_sync_only_touched x since ls Hs Hd Hls) as (sls & Hmap & Hall).
  exists sls. split; [exact Hmap|]. intros sl Hsl.
  destruct (Hall sl Hsl) as (r & l1 & l2 & Hdec & Hno & Hline & [Hge|[_ Hnone]]).
  - exists r. split; [rewrite Hdec; apply in_or_app; right; now left|].
    split; [exact Hge|]. split; [|exact Hline]. rewrite Hdec. now apply spec_last_decomp.
  - exfalso. now apply (Hnone r0 Hr0).
Qed.

(* Not every line belongs to a record at or after [since]: a three-record log, the joiner's time strictly between the
   second and the third record: the second record's key is sent although it did not change *)
Definition ex3 : cnode :=
  run_cmds (fst ex_start) (snd ex_start)
    ["auth user pwd"; "create-db d1 tok"; "use-db d1 tok"; "set k0 a"; "set k1 b"].

Example only_touched_refuted :
  cn_log ex3 = [mkRec 104 marker_create 1 2; mkRec 107 0 1 0; mkRec 109 1 1 0] /\
  decodable ex3 /\
  incr_sync_lines ex3 108 = Some ["replicate d1 k0 a"; "replicate d1 k1 b"] /\
  spec_last (cn_log ex3) 108 (1, 0) = None.
Proof.
  split; [vm_compute; reflexivity|]. split.
  { split; [vm_compute; reflexivity|]. split; [apply recs_decodable_check; vm_compute; reflexivity|].
    split; [vm_compute; reflexivity|apply idmap_covers_check; vm_compute; reflexivity]. }
  split; vm_compute; reflexivity.
Qed.

Definition sl_key (sl : sline) : option (str * str) :=
  match sl with
  | SLSet d k _ | SLRemove d k => Some (d, k)
  | _ => None
  end.

Definition touched (sls : list sline) : list (str * str) :=
  flat_map (fun sl => match sl_key sl with Some dk => [dk] | None => [] end) sls.

Lemma sline_of_key x r sl d k : sline_of x r = Some sl -> sl_key sl = Some (d, k) ->
  name_of_id (n_idmap (cn_node x)) (r_db r) = Some d /\ key_of_id (cn_keymap x) (r_key r) = Some k.
Proof.
  unfold sline_of. intros H Hk.
  destruct (name_of_id (n_idmap (cn_node x)) (r_db r)) as [dbn|]; [|discriminate].
  destruct (N.eqb (r_op r) 0).
  { destruct (key_of_id (cn_keymap x) (r_key r)) as [k'|]; [|discriminate].
    destruct (get_db (cn_node x) dbn); [|discriminate].
    injection H as <-. cbn [sl_key] in Hk. injection Hk as -> ->. now split. }
  destruct (N.eqb (r_op r) 1).
  { destruct (key_of_id (cn_keymap x) (r_key r)) as [k'|]; [|discriminate].
    injection H as <-. cbn [sl_key] in Hk. injection Hk as -> ->. now split. }
  destruct (N.eqb (r_op r) 2).
  { destruct (get_db (cn_node x) dbn); [|discriminate]. injection H as <-. discriminate. }
  injection H as <-. discriminate.
Qed.

Lemma in_touched sls dk : In dk (touched sls) -> exists sl, In sl sls /\ sl_key sl = Some dk.
Proof.
  unfold touched. intros H. apply in_flat_map in H. destruct H as (sl & Hsl & Hin).
  exists sl. split; [exact Hsl|]. destruct (sl_key sl) as [dk'|]; [|destruct Hin].
  destruct Hin as [<-|[]]. reflexivity.
Qed.

Definition decode_inj (x : cnode) : Prop :=
  forall r1 r2 d k, In r1 (cn_log x) -> In r2 (cn_log x) ->
    name_of_id (n_idmap (cn_node x)) (r_db r1) = Some d ->
    name_of_id (n_idmap (cn_node x)) (r_db r2) = Some d ->
    key_of_id (cn_keymap x) (r_key r1) = Some k ->
    key_of_id (cn_keymap x) (r_key r2) = Some k ->
    r_db r1 = r_db r2 /\ r_key r1 = r_key r2.

Lemma touched_nodup x : decode_inj x -> forall l sls, Forall2 (line_rel x) l sls ->
  NoDup (map fst l) ->
  (forall k h, In (k, h) l -> In (h_rec h) (cn_log x) /\ kof (h_rec h) = k) ->
  NoDup (touched sls).
Proof.
  intros Hinj l sls H. induction H as [|[k0 h0] sl l sls Hh Hrest IH]; intros Hnd Hlog.
  - constructor.
  - cbn [map fst] in Hnd. inversion Hnd as [|a b Hnotin Hnd']; subst.
    assert (IH' : NoDup (touched sls)).
    { apply IH; [exact Hnd'|]. intros k h Hin. apply Hlog. now right. }
    unfold touched. cbn [flat_map]. fold (touched sls).
    destruct (sl_key sl) as [[d k]|] eqn:Ek; [|exact IH'].
    cbn [app]. constructor; [|exact IH'].
    intros Hin. apply in_touched in Hin. destruct Hin as (sl' & Hsl' & Hk').
    destruct (Forall2_in_r _ _ _ Hrest _ Hsl') as ([k1 h1] & Hin1 & Hrel1).
    unfold line_rel in Hh, Hrel1. cbn [snd] in Hh, Hrel1.
    destruct (sline_of_key _ _ _ _ _ Hh Ek) as [Hn0 Hk0].
    destruct (sline_of_key _ _ _ _ _ Hrel1 Hk') as [Hn1 Hk1].
    destruct (Hlog k0 h0 (or_introl eq_refl)) as [Hl0 Hkof0].
    destruct (Hlog k1 h1 (or_intror Hin1)) as [Hl1 Hkof1].
    destruct (Hinj _ _ d k Hl0 Hl1 Hn0 Hn1 Hk0 Hk1) as [E1 E2].
    apply Hnotin. apply (in_map fst) in Hin1. cbn [fst] in Hin1.
    replace k0 with k1; [exact Hin1|]. rewrite <- Hkof0, <- Hkof1. unfold kof. congruence.
Qed.

Theorem incr_sync_one_line_per_key x since ls :
  sorted_times (cn_log x) = true -> recs_decodable x -> decode_inj x ->
  incr_sync_lines x since = Some ls ->
  exists sls, ls = map (render (cn_node x)) sls /\ NoDup (touched sls).
Proof.
  intros Hs Hd Hinj Hls.
  destruct (incr_sync_struct x since Hs Hd) as (hits & pre & suf & sls & Hspec & _ & Hsls & Hls').
  rewrite Hls in Hls'. injection Hls' as ->.
  exists sls. split; [reflexivity|].
  apply (touched_nodup x Hinj hits sls Hsls); [apply Hspec|apply (hits_in_log _ _ _ _ _ Hspec)].
Qed.

(* the injectivity hypothesis follows from the writer's discipline: a key name has one id
   ([keymap_ok] gives the converse: distinct names have distinct ids), database ids name distinct databases *)
Lemma decode_inj_from_maps x :
  NoDup (map fst (cn_keymap x)) ->
  (forall i1 i2 d, name_of_id (n_idmap (cn_node x)) i1 = Some d ->
                   name_of_id (n_idmap (cn_node x)) i2 = Some d -> i1 = i2) ->
  decode_inj x.
Proof.
  intros Hnd Hdb r1 r2 d k _ _ Hn1 Hn2 Hk1 Hk2. split; [eapply Hdb; eauto|].
  apply key_of_id_in in Hk1. apply key_of_id_in in Hk2.
  pose proof (in_get String.eqb String.eqb_spec _ _ _ Hnd Hk1) as G1.
  pose proof (in_get String.eqb String.eqb_spec _ _ _ Hnd Hk2) as G2.
  congruence.
Qed.

Lemma last_decomp_unique (k : okey) : forall l1 m1 r r' (l2 m2 : list oprec),
  l1 ++ r :: l2 = m1 ++ r' :: m2 -> kof r = k -> kof r' = k -> nokey k l2 -> nokey k m2 ->
  length l1 = length m1.
Proof.
  induction l1 as [|a l1 IH]; intros m1 r r' l2 m2 Heq Hk Hk' Hno Hno'.
  - destruct m1 as [|b m1]; [reflexivity|]. cbn [app] in Heq. injection Heq as -> ->.
    exfalso. apply (Hno r'); [apply in_or_app; right; now left|exact Hk'].
  - destruct m1 as [|b m1]; cbn [app] in Heq.
    + injection Heq as -> <-.
      exfalso. apply (Hno' r); [apply in_or_app; right; now left|exact Hk].
    + injection Heq as -> Heq. cbn [length]. f_equal. eapply IH; eauto.
Qed.

Lemma sorted_before : forall S a b, StronglySorted ple S -> In a S -> In b S ->
  h_pos (snd a) < h_pos (snd b) -> exists s1 s2 s3, S = s1 ++ a :: s2 ++ b :: s3.
Proof.
  intros S a b Hs Ha Hb Hlt.
  destruct (in_split _ _ Hb) as (u & w & ->).
  apply in_app_or in Ha. destruct Ha as [Ha|[Ha|Ha]].
  - destruct (in_split _ _ Ha) as (s1 & s2 & ->).
    exists s1, s2, w. now rewrite <- app_assoc.
  - subst a. lia.
  - pose proof (ssorted_app_tail _ _ _ _ Hs) as Hfa. rewrite Forall_forall in Hfa.
    specialize (Hfa a Ha). unfold ple in Hfa. lia.
Qed.

(* the hit of a record that is the last of its pair, at or after [since]: its position is the
   record's index in the log, counted from the start of the scanned suffix *)
Lemma hit_of_last f since hits pre suf l1 r l2 :
  hits_spec f since hits pre suf -> f = l1 ++ r :: l2 -> since <= r_time r -> nokey (kof r) l2 ->
  exists h, In (kof r, h) hits /\ h_rec h = r /\ N.of_nat (length pre) + h_pos h = N.of_nat (length l1) + 1.
Proof.
  intros (Hf & _ & Hcompl & Hstr & _) Hlog Hge Hno.
  destruct (Hcompl (kof r) r) as (h & Hin & Hrec); [rewrite Hlog; now apply spec_last_decomp|].
  exists h. split; [exact Hin|]. split; [exact Hrec|].
  destruct (Hstr _ _ Hin) as (a1 & a2 & Hdec & Hk & Hno' & ->). rewrite Hrec in *.
  assert (E : length (pre ++ a1) = length l1).
  { apply (last_decomp_unique (kof r) _ _ r r a2 l2); auto. now rewrite <- app_assoc, <- Hdec, <- Hf. }
  rewrite app_length in E. lia.
Qed.

Theorem incr_sync_order x since ls :
  sorted_times (cn_log x) = true -> recs_decodable x -> incr_sync_lines x since = Some ls ->
  forall l1 ra l2 rb l3,
    cn_log x = l1 ++ ra :: l2 ++ rb :: l3 ->
    since <= r_time ra ->
    nokey (kof ra) (l2 ++ rb :: l3) ->       (* ra is the last record of its (db,key) *)
    nokey (kof rb) l3 ->                      (* rb is the last record of its (db,key) *)
    exists sla slb p1 p2 p3,
      sline_of x ra = Some sla /\ sline_of x rb = Some slb /\
      ls = p1 ++ render (cn_node x) sla :: p2 ++ render (cn_node x) slb :: p3.
Proof.
  intros Hs Hd Hls l1 ra l2 rb l3 Hlog Hgea Hnoa Hnob.
  destruct (incr_sync_struct x since Hs Hd) as (hits & pre & suf & sls & Hspec & Hsorted & Hsls & Hls').
  rewrite Hls in Hls'. injection Hls' as ->.
  assert (Hgeb : since <= r_time rb).
  { pose proof (sorted_times_sortedP _ Hs) as Hsp. rewrite Hlog in Hsp.
    pose proof (ssorted_app_tail _ _ _ _ Hsp) as Hfa. rewrite Forall_forall in Hfa.
    assert (Hin : In rb (l2 ++ rb :: l3)) by (apply in_or_app; right; now left).
    specialize (Hfa rb Hin). unfold tle in Hfa. lia. }
  assert (Hlog' : cn_log x = (l1 ++ ra :: l2) ++ rb :: l3)
    by (rewrite Hlog, <- app_assoc; reflexivity).
  destruct (hit_of_last _ _ _ _ _ _ _ _ Hspec Hlog Hgea Hnoa) as (ha & Hina & Hreca & Hposa).
  destruct (hit_of_last _ _ _ _ _ _ _ _ Hspec Hlog' Hgeb Hnob) as (hb & Hinb & Hrecb & Hposb).
  rewrite app_length in Hposb. cbn [length] in Hposb.
  assert (Hlt : h_pos (snd (kof ra, ha)) < h_pos (snd (kof rb, hb))) by (cbn [snd]; lia).
  destruct (sorted_before _ _ _ Hsorted Hina Hinb Hlt) as (s1 & s2 & s3 & ->).
  destruct (Forall2_mid _ _ _ _ _ Hsls) as (t1 & sla & t' & -> & Hra & Hsls').
  destruct (Forall2_mid _ _ _ _ _ Hsls') as (t2 & slb & t3 & -> & Hrb & _).
  unfold line_rel in Hra, Hrb. cbn [snd] in Hra, Hrb. rewrite Hreca in Hra. rewrite Hrecb in Hrb.
  exists sla, slb, (map (render (cn_node x)) t1), (map (render (cn_node x)) t2), (map (render (cn_node x)) t3).
  split; [exact Hra|]. split; [exact Hrb|].
  rewrite map_app. cbn [map]. rewrite map_app. reflexivity.
Qed.

Lemma sync_lines_incr x since : since <> 0 -> sync_lines x since = incr_sync_lines x since.
Proof. intros H. unfold sync_lines. destruct (N.eqb_spec since 0); congruence. Qed.

