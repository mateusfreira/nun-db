(* What a command of one session may do to a node.

   [fst (handle n c rq)], and with it a protocol line and the end of a connection (a transport's
   frame: NetProofs.v), is reached from [n] by a sequence of primitive edits: a message queued for
   some session, a field of session c, a database put back after one database operation (a watch
   or unwatch only for c itself), a new database, and changes that touch neither the databases nor
   the sessions.  Three capabilities ([cap]) bound the edits: only use-db and the end of a
   connection move the selection of c and the connection counters, only `auth` changes the
   authentication flag of c, and only an administrator writes "$$" keys or creates a database.

   The walk over the requests is done once, here.  A relation between the node before and the
   node after that every primitive edit (allowed by the capabilities at hand) preserves then holds
   of every command by an induction over [edits], one case per primitive: counters and selections
   (ConnProofs.frame), the subscriptions of the other sessions (NetWatchProofs.wframe), the set of
   databases (GuardProofs.keeps), the "$$" keys and the authentication flags under a session that
   is no administrator (SecureProofs.nsec, auths).  Where a proof needs to know which database
   changed, at which keys and who was notified, DbProofs has the finer summaries [writes] and
   [effect]. *)
From NunDB Require Import Model.Base Model.Pending Model.Parse Model.Node Proofs.AssocLemmas Proofs.StrLemmas Proofs.NodeLemmas Proofs.DbProofs.
Local Open Scope Z_scope.

Definition is_usedb (rq : request) : bool := match rq with RqUseDb _ _ _ => true | _ => false end.

(* may the selection of c and the connection counters move, may the authentication flag of c
   change, may "$$" keys be written and databases created *)
Record cap := Cap { may_select : bool; may_auth : bool; may_admin : bool }.
Definition all_caps : cap := Cap true true true.

(* [may_admin] is the flag of the session whatever the request, so an administrator's unwatch-all
   counts as able to write "$$" keys: [disconnect_edits] does without *)
Definition cap_of (n : node) (c : nat) (rq : request) : cap :=
  Cap (is_usedb rq) (match rq with RqAuth _ _ => true | _ => false end) (s_auth (get_sess n c)).

(* [d'] holds under every "$$" key what [d] holds *)
Definition dsec (d d' : db) : Prop := forall k, starts_with k "$$" = true -> get_value d' k = get_value d k.

(* what one command of session c does to a database before it is put back: other values in the
   map (a write, a remove, an increment, a conflict mark), or a subscription of c itself *)
Inductive dedit (adm : bool) (c : nat) (d : db) : db -> Prop :=
| de_map d' : d' = db_set_map d (d_map d') -> (adm = false -> dsec d d') -> dedit adm c d d'
| de_watch k : dedit adm c d (watch_key d k c)
| de_unwatch k : dedit adm c d (unwatch_key d k c)
| de_unwatch_all : dedit adm c d (unwatch_all d c).
Arguments de_map {adm c d d'}.
Arguments de_watch {adm c d}.
Arguments de_unwatch {adm c d}.
Arguments de_unwatch_all {adm c d}.

(* neither the databases nor the sessions: role, clock, queues, pending table, id map, members *)
Definition same_ds (n n' : node) : Prop := n_dbs n' = n_dbs n /\ n_sess n' = n_sess n.

Inductive edits (p : cap) (c : nat) (n : node) : node -> Prop :=
| ed_refl : edits p c n n
| ed_same m m' : edits p c n m -> (forall x, get_db m' x = get_db m x) -> n_sess m' = n_sess m -> edits p c n m'
| ed_send m i msg : edits p c n m -> edits p c n (send m i msg)
| ed_sess m s : edits p c n m -> may_select p = true \/ s_db s = s_db (get_sess m c) ->
    may_auth p = true \/ s_auth s = s_auth (get_sess m c) -> edits p c n (put_sess m c s)
| ed_db m k d d' : edits p c n m -> get_db m k = Some d -> dedit (may_admin p) c d d' -> edits p c n (put_db m k d')
| ed_new m k id st d' : may_admin p = true -> edits p c n m -> get_db m k = None -> dedit true c (empty_db id st) d' ->
    edits p c n (put_db m k d')
| ed_conn m k d z : may_select p = true -> edits p c n m -> get_db m k = Some d ->
    edits p c n (put_db m k (db_set_conn d z)).
Arguments ed_same {p c n m m'}.
Arguments ed_send {p c n m}.
Arguments ed_sess {p c n m s}.
Arguments ed_db {p c n m k d d'}.
Arguments ed_new {p c n m k id st d'}.
Arguments ed_conn {p c n m k d}.

Lemma ed_same_ds {p c n m m'} : edits p c n m -> same_ds m m' -> edits p c n m'.
Proof. intros H [Ed Es]. exact (ed_same H (fun x => get_db_dbs m m' x Ed) Es). Qed.

Lemma edits_trans {p c a b d} : edits p c a b -> edits p c b d -> edits p c a d.
Proof. intros H. induction 1; [exact H|econstructor; eassumption..]. Qed.

Lemma de_any {c d d'} : d' = db_set_map d (d_map d') -> dedit true c d d'.
Proof. intros E. apply (de_map E). discriminate. Qed.

Definition cap_le (p q : cap) : Prop :=
  (may_select p = true -> may_select q = true) /\ (may_auth p = true -> may_auth q = true) /\ (may_admin p = true -> may_admin q = true).

Lemma dedit_weaken {a b c d d'} : (a = true -> b = true) -> dedit a c d d' -> dedit b c d d'.
Proof.
  intros L. destruct 1 as [d' E S| | |]; [|apply de_watch|apply de_unwatch|apply de_unwatch_all].
  apply (de_map E). intros Hb. apply S. destruct a; [|reflexivity]. rewrite L in Hb; [discriminate|reflexivity].
Qed.

Lemma edits_weaken {p q c n n'} : cap_le p q -> edits p c n n' -> edits q c n n'.
Proof.
  intros (Ls & La & Ld). induction 1 as [| | |m s _ IH S A| | |].
  - apply ed_refl.
  - eapply ed_same; eassumption.
  - now apply ed_send.
  - apply ed_sess; [assumption|destruct S; auto|destruct A; auto].
  - eapply ed_db; [eassumption..|eapply dedit_weaken; eassumption].
  - eapply ed_new; [auto|eassumption..].
  - eapply ed_conn; [auto|eassumption..].
Qed.

Lemma edits_all_caps {p c n n'} : edits p c n n' -> edits all_caps c n n'.
Proof. apply edits_weaken. repeat split. Qed.

Lemma edits_sends p c n0 l : forall m, edits p c n0 m -> edits p c n0 (sends m l).
Proof.
  unfold sends. induction l as [|x r IH]; intros m H; cbn [fold_left]; [exact H|].
  apply IH, ed_send, H.
Qed.

Lemma edits_tick {p c n0 m} k : edits p c n0 m -> edits p c n0 (n_set_clock m k).
Proof. intros H. apply (ed_same_ds H). split; reflexivity. Qed.

(* a secondary forwards the accepted write to the primary *)
Lemma edits_forward p c n0 m msg :
  edits p c n0 m -> edits p c n0 (if is_primary m then m else send_to_primary m msg).
Proof. intros H. destruct (is_primary m); [exact H|]. apply (ed_same_ds H). split; reflexivity. Qed.

Lemma replicate_change_same n dbn ch : same_ds n (replicate_change n dbn ch).
Proof. unfold replicate_change. destruct (_ || _); split; reflexivity. Qed.

Lemma start_election_same n : same_ds n (start_election n).
Proof. unfold start_election. destruct (Nat.leb _ _); split; reflexivity. Qed.

Lemma start_new_election_same n : same_ds n (start_new_election n).
Proof. exact (start_election_same (n_set_role n StartingUp)). Qed.

Lemma election_eval_same n cand : same_ds n (election_eval n cand).
Proof.
  unfold election_eval. destruct (N.eqb _ _); [split; reflexivity|].
  destruct (N.ltb _ _); [apply start_election_same|split; reflexivity].
Qed.

(* the step of the fold of replicate-snapshot (the lambda inside [handle], kept convertible) *)
Definition snap_step (reclaim : bool) (acc : node * resp) (nm : str) : node * resp :=
  let '(n0, r0) := acc in
  match get_db n0 nm with
  | Some _ => (n_set_snap n0 (n_snap n0 ++ [(nm, reclaim)]), r0)
  | None => (n0, RError ("Error trying to snapshot database: Database " +++ nm +++ " not found"))
  end.

Lemma snap_fold_same reclaim names : forall acc, same_ds (fst acc) (fst (fold_left (snap_step reclaim) names acc)).
Proof.
  induction names as [|nm r IH]; intros [m0 r0]; cbn [fold_left]; [split; reflexivity|].
  unfold snap_step at 2. destruct (get_db m0 nm); exact (IH (_, _)).
Qed.

Lemma replicate_request_same n rq seldb r : same_ds n (fst (replicate_request n rq seldb r)).
Proof. destruct (replicate_request_cases n rq seldb r) as [[r' ->]|[m ->]]; split; reflexivity. Qed.

Lemma conflicts_nonsys k : starts_with k "$conflicts_" = true -> starts_with k "$$" = false.
Proof. intros H. apply starts_with_spec in H. destruct H as [r ->]. reflexivity. Qed.

Lemma write_keys_nonsys key k : starts_with key "$$" = false -> write_keys key k -> starts_with k "$$" = false.
Proof. intros Hk [->|H]; [exact Hk|exact (conflicts_nonsys k H)]. Qed.

(* without [may_admin] no key of class [K] is a "$$" key *)
Definition user_keys (p : cap) (K : str -> Prop) : Prop :=
  may_admin p = false -> forall k, K k -> starts_with k "$$" = false.

Lemma user_keys_write p key : (may_admin p = false -> starts_with key "$$" = false) -> user_keys p (write_keys key).
Proof. intros H Ha k. apply write_keys_nonsys, H, Ha. Qed.

Lemma writes_dedit {p c d d' msgs} K : writes K d d' msgs -> user_keys p K -> dedit (may_admin p) c d d'.
Proof.
  intros (E & O & _) HK. apply (de_map E). intros Ha k Hk. apply O. intros H.
  apply (HK Ha) in H. congruence.
Qed.

(* DbProofs sums up each write path as an [effect]: database [x] replaced, messages delivered,
   with the keys written ([writes]) *)
Lemma effect_edits {p c n0 m n' x d1 d' msgs} K :
  edits p c n0 m -> get_db m x = Some d1 -> effect m n' x d' msgs -> writes K d1 d' msgs -> user_keys p K ->
  edits p c n0 n'.
Proof.
  intros H Hd [D S] W HK.
  apply (ed_same (edits_sends _ _ _ msgs _ (ed_db H Hd (writes_dedit K W HK)))).
  - intros y. now rewrite D, get_db_sends, get_db_put.
  - rewrite S. symmetry. now apply sends_sess_congr.
Qed.

Lemma db_op_edits {p c n0 m dbn d} (x : db * resp * list (nat * str)) key :
  edits p c n0 m -> get_db m dbn = Some d ->
  writes (eq key) d (fst (fst x)) (snd x) -> (may_admin p = false -> starts_with key "$$" = false) ->
  edits p c n0 (sends (put_db m dbn (fst (fst x))) (snd x)).
Proof.
  intros H Hd W Hk. apply edits_sends. refine (ed_db H Hd (writes_dedit _ W _)).
  intros Ha k <-. exact (Hk Ha).
Qed.

Lemma apply_change_edits p c n0 n dbn ch : (may_admin p = false -> starts_with (c_key ch) "$$" = false) ->
  edits p c n0 n -> edits p c n0 (fst (apply_change n dbn ch)).
Proof.
  intros Hk H. destruct (get_db n dbn) as [d|] eqn:Hd; [|unfold apply_change; now rewrite Hd].
  destruct (apply_change_effect n dbn ch d Hd) as (d' & msgs & E & W). exact (effect_edits _ H Hd E W (user_keys_write _ _ Hk)).
Qed.

Lemma set_key_value_edits p c n0 n dbn k v ver : (may_admin p = false -> starts_with k "$$" = false) ->
  edits p c n0 n -> edits p c n0 (fst (set_key_value n dbn k v ver)).
Proof.
  intros Hk H. unfold set_key_value, tick. apply apply_change_edits; [exact Hk|]. apply edits_tick, H.
Qed.

Lemma set_connection_counter_edits p c n0 n dbn :
  edits p c n0 n -> edits p c n0 (set_connection_counter n dbn).
Proof.
  intros H. unfold set_connection_counter. destruct (get_db n dbn); [|exact H].
  now apply set_key_value_edits.
Qed.

Lemma resolve_conflict_edits p c n0 n dbn ch : (may_admin p = false -> starts_with (c_key ch) "$$" = false) ->
  edits p c n0 n -> edits p c n0 (fst (resolve_conflict n dbn ch)).
Proof.
  intros Hk H. destruct (get_db n dbn) as [d|] eqn:Hd; [|unfold resolve_conflict; now rewrite Hd].
  destruct (resolve_conflict_effect n dbn ch d Hd) as (d' & msgs & E & W). exact (effect_edits _ H Hd E W (user_keys_write _ _ Hk)).
Qed.

(* the arbiter registration subscribes c itself, then walks the conflict records *)
Lemma register_arbiter_edits p c n0 n dbn :
  edits p c n0 n -> edits p c n0 (register_arbiter n dbn c).
Proof.
  intros H. destruct (get_db n dbn) as [d|] eqn:Hd; [|unfold register_arbiter; now rewrite Hd].
  destruct (register_arbiter_effect n dbn c d Hd) as (d' & msgs & [D S] & W).
  refine (effect_edits _ (ed_db H Hd (de_watch "$conflicts")) (get_db_put_same _ _ _) (conj _ _) W
            (fun _ => conflicts_nonsys)).
  - intros y. rewrite D, get_db_put. now destruct (String.eqb y dbn).
  - rewrite S. symmetry. now apply sends_sess_congr.
Qed.

Lemma add_database_edits p c n0 n name d id st : may_admin p = true -> edits p c n0 n ->
  dedit true c (empty_db id st) d -> edits p c n0 (fst (add_database n name d)).
Proof.
  intros Ha H Hn. unfold add_database. destruct (get_db n name) eqn:Hd; [exact H|].
  unfold tick.
  set (n2 := put_db _ name d).
  assert (H2 : edits p c n0 n2).
  { refine (@ed_new _ _ _ (n_set_idmap n _) _ _ _ _ Ha _ Hd Hn). apply (ed_same_ds H). split; reflexivity. }
  destruct (get_db _ "$admin") as [adm|] eqn:Hadm.
  - destruct (set_value adm _) as [[adm' r'] msgs] eqn:Hs. cbn [fst].
    apply edits_sends. refine (ed_db (edits_tick _ H2) Hadm _). rewrite Ha.
    exact (de_any (set_value_frame' _ _ _ _ _ Hs)).
  - cbn [fst]. apply edits_tick, H2.
Qed.

Lemma client_left_edits p c n0 n i : may_select p = true -> edits p c n0 n -> edits p c n0 (client_left n i).
Proof.
  intros Hs H. unfold client_left. destruct (s_db (get_sess n i)) as [dbn|]; [|exact H].
  destruct (get_db n dbn) as [d|] eqn:Hd; [|exact H].
  apply set_connection_counter_edits. exact (ed_conn _ Hs H Hd).
Qed.

Lemma guard_db_name_edits p c n0 n dbn key req : edits p c n0 n ->
  match guard_db_name n c dbn key req with
  | GGo dbn' d => get_db n dbn' = Some d
  | GStop n' _ => edits p c n0 n'
  end.
Proof.
  intros H. unfold guard_db_name, reject_no_db. destruct (get_db n dbn) eqn:Hd; [|now apply ed_send].
  destruct key; [destruct (has_permission _ _ _ _ _)|]; try exact Hd. now apply ed_send.
Qed.

Lemma guard_safe_edits p c n0 n key req : edits p c n0 n ->
  match guard_safe n c key req with
  | GGo dbn d => get_db n dbn = Some d /\ (s_auth (get_sess n c) = false -> starts_with key "$$" = false)
  | GStop n' _ => edits p c n0 n'
  end.
Proof.
  intros H. apply guard_safe_elim; [now split|]. intros n' m [->| ->]; [exact H|now apply ed_send].
Qed.

Lemma guard_db_edits p c n0 n : edits p c n0 n ->
  match guard_db n c with
  | GGo dbn d => get_db n dbn = Some d
  | GStop n' _ => edits p c n0 n'
  end.
Proof. intros H. apply guard_db_elim; [auto|]. intros m. now apply ed_send. Qed.

Theorem handle_edits c n rq : edits (cap_of n c rq) c n (fst (handle n c rq)).
Proof.
  set (p := cap_of n c rq). pose proof (ed_refl p c n) as H.
  (* every key may be written past the administrator's check ([Adm]) and past [guard_safe] with a
     "$$" key ([Sec]): there the second conjunct of [guard_safe_edits], with [starts_with] computed,
     reads [s_auth (get_sess n c) = false -> true = false] *)
  assert (Adm : forall k, s_auth (get_sess n c) = true -> may_admin p = false -> starts_with k "$$" = false)
    by (intros k A F; cbn in F; congruence).
  assert (Sec : forall k, (s_auth (get_sess n c) = false -> true = false) -> may_admin p = false -> starts_with k "$$" = false)
    by (intros k A F; discriminate (A F)).
  destruct rq; unfold handle; cbn [fst is_usedb] in *;
    try (destruct (s_auth (get_sess n c)) eqn:Ha; cbn [negb]; [specialize (fun k => Adm k eq_refl)|exact H]).
  - (* SetPermissions *)
    pose proof (guard_safe_edits _ _ _ _ "$$permission_$" PWrite H) as G.
    destruct (guard_safe _ _ _ _) as [dbn d|n' r']; [|exact G].
    pose proof (set_key_value_edits p _ _ _ dbn ("$$permission_$" +++ user) (permissions_to_str_value perms) (-1)
                  (Sec _ (proj2 G)) H) as H1.
    destruct (set_key_value n dbn _ _ _) as [n1 r]. cbn [fst] in H1.
    destruct r; try exact H1. now apply edits_forward.
  - (* Get *)
    pose proof (guard_safe_edits _ _ _ _ key PRead H) as G.
    destruct (guard_safe _ _ _ _) as [dbn d|n' r']; [|exact G].
    destruct (get_key_value_new d key). now apply ed_send.
  - (* GetSafe *)
    pose proof (guard_safe_edits _ _ _ _ key PRead H) as G.
    destruct (guard_safe _ _ _ _) as [dbn d|n' r']; [|exact G].
    destruct (get_key_value_new d key). now apply ed_send.
  - (* Remove *)
    pose proof (guard_safe_edits _ _ _ _ key PRemove H) as G.
    destruct (guard_safe _ _ _ _) as [dbn d|n' r']; [|exact G].
    pose proof (db_op_edits _ key H (proj1 G) (remove_value_writes d key) (proj2 G)) as H1.
    destruct (remove_value d key) as [[d' r] msgs]. cbn [fst snd] in *.
    destruct r; try exact H1. now apply edits_forward.
  - (* ReplicateRemove *)
    destruct (get_db n db) as [d|] eqn:Hd; [|exact H].
    pose proof (db_op_edits _ key H Hd (remove_value_writes d key) (Adm _)) as H1.
    now destruct (remove_value d key) as [[d' r] msgs].
  - (* Set *)
    pose proof (guard_safe_edits _ _ _ _ key PWrite H) as G.
    destruct (guard_safe _ _ _ _) as [dbn d|n' r']; [|exact G].
    pose proof (set_key_value_edits p _ _ _ dbn key value version (proj2 G) H) as H1.
    destruct (set_key_value n dbn key value version) as [n1 r]. now apply edits_forward.
  - (* Increment *)
    pose proof (guard_safe_edits _ _ _ _ key PIncrement H) as G.
    destruct (guard_safe _ _ _ _) as [dbn d|n' r']; [|exact G].
    destruct (is_primary n); [|apply (ed_same_ds H); split; reflexivity]. unfold tick.
    pose proof (db_op_edits _ key (edits_tick (n_clock n + 1)%N H) (proj1 G)
                  (inc_value_writes d key inc (n_clock n)) (proj2 G)) as H1.
    now destruct (inc_value d key inc (n_clock n)) as [[d' r] msgs].
  - (* ReplicateIncrement *)
    destruct (get_db n db) as [d|] eqn:Hd; [|exact H]. unfold tick.
    pose proof (db_op_edits _ key (edits_tick (n_clock n + 1)%N H) Hd
                  (inc_value_writes d key inc (n_clock n)) (Adm _)) as H1.
    now destruct (inc_value d key inc (n_clock n)) as [[d' r] msgs].
  - (* ReplicateSet *)
    destruct (get_db n db); [|exact H]. exact (set_key_value_edits p _ _ _ _ _ _ _ (Adm _) H).
  - (* Watch *)
    pose proof (guard_safe_edits _ _ _ _ key PRead H) as G.
    destruct (guard_safe _ _ _ _) as [dbn d|n' r']; [|exact G].
    exact (ed_db H (proj1 G) (de_watch _)).
  - (* UnWatch *)
    pose proof (guard_db_edits _ _ _ _ H) as G.
    destruct (guard_db n c) as [dbn d|n' r']; [|exact G].
    exact (ed_db H G (de_unwatch _)).
  - (* UnWatchAll *)
    pose proof (guard_db_edits _ _ _ _ H) as G.
    destruct (guard_db n c) as [dbn d|n' r']; [|exact G].
    exact (ed_db H G de_unwatch_all).
  - (* Auth *)
    apply ed_send, ed_sess; [exact H| |now left]. right. destruct (_ && _); reflexivity.
  - (* CreateDb *)
    destruct (_ || _); [|exact H]. unfold tick.
    destruct (set_value (empty_db _ _) _) as [[d0 r0] m0] eqn:Hs.
    pose proof (add_database_edits p _ _ _ name d0 _ _ Ha (edits_tick (n_clock n + 1)%N H)
                  (de_any (set_value_frame' _ _ _ _ _ Hs))) as H2.
    destruct (add_database _ name d0) as [n2 r]. cbn [fst] in H2.
    destruct r; try exact H2. now apply ed_send.
  - (* CreateUser *)
    pose proof (guard_safe_edits _ _ _ _ "$$user" PWrite H) as G.
    destruct (guard_safe _ _ _ _) as [dbn d|n' r']; [|exact G].
    pose proof (set_key_value_edits p _ _ _ dbn ("$$user_" +++ user_name) token (-1) (Sec _ (proj2 G)) H) as H1.
    destruct (set_key_value n dbn _ _ _) as [n1 r]. cbn [fst] in H1.
    destruct r; try exact H1. now apply edits_forward.
  - (* UseDb: the previous selection is released, the new one taken and counted *)
    destruct (get_db n name) as [d|]; [|exact H].
    destruct (match get_value d _ with Some _ => _ | None => _ end); [|exact H].
    unfold release_previous.
    set (n1 := put_sess (client_left n c) c _).
    assert (H1 : edits p c n n1).
    { apply ed_sess; [now apply client_left_edits|now left|now right]. }
    destruct (get_db n1 name) as [d1|] eqn:Hd1; cbn [fst]; [|exact H1].
    apply set_connection_counter_edits. exact (@ed_conn p _ _ _ _ _ _ eq_refl H1 Hd1).
  - (* Snapshot *)
    apply (ed_same_ds H). destruct db_names as [|nm0 names].
    + destruct (s_db (get_sess n c)) as [dbn|]; [|split; reflexivity]. cbn [fst].
      destruct (get_db n dbn); split; reflexivity.
    + destruct (filter _ _) as [|m1 [|m2 ms]]; split; reflexivity.
  - (* ReplicateSnapshot *) apply (ed_same_ds H). exact (snap_fold_same reclaim db_names (n, ROk)).
  - (* Leave *) apply (ed_same_ds H). exact (start_new_election_same (push_sup n _)).
  - (* ReplicateLeave *) apply (ed_same_ds H). split; reflexivity.
  - (* Join *)
    destruct (_ || _); [|exact H]. apply (ed_same_ds H). exact (start_new_election_same (push_sup n _)).
  - (* ReplicateJoin *) apply (ed_same_ds H). split; reflexivity.
  - (* SetPrimary *)
    destruct (negb (is_primary n)); cbn [fst].
    + apply ed_sess; [|now right..]. apply (ed_same_ds H). split; reflexivity.
    + apply (ed_same_ds H), start_new_election_same.
  - (* SetSecondary *) apply ed_sess; [exact H|now right..].
  - (* ReplicateSince *) apply (ed_same_ds H). split; reflexivity.
  - (* ClusterState *) now apply ed_send.
  - (* MetricsState *) now apply ed_send.
  - (* ElectionWin *) apply (ed_same_ds H). split; reflexivity.
  - (* Election *) apply (ed_same_ds H), election_eval_same.
  - (* ElectionActive *) exact H.
  - (* Keys *)
    pose proof (guard_db_edits _ _ _ _ H) as G.
    destruct (guard_db n c) as [dbn d|n' r']; [|exact G]. now apply ed_send.
  - (* ReplicateRequest *) exact H.
  - (* Acknowledge *) apply (ed_same_ds H). split; reflexivity.
  - (* Debug *)
    destruct (String.eqb command "pending-ops"); [now apply ed_send|].
    destruct (String.eqb command "pendding-conflitcts").
    { pose proof (guard_db_edits _ _ _ _ H) as G.
      destruct (guard_db n c) as [dbn d|n' r']; [now apply ed_send|exact G]. }
    destruct (String.eqb command "list-dbs"); [now apply ed_send|].
    destruct (String.eqb command "force-election"); [apply (ed_same_ds H), start_new_election_same|].
    destruct (String.eqb command "process-info"); [now apply ed_send|exact H].
  - (* ListCommands *) now apply ed_send.
  - (* Arbiter *)
    pose proof (guard_safe_edits _ _ _ _ "$conflicts" PRead H) as G.
    destruct (guard_safe _ _ _ _) as [dbn d|n' r']; [|exact G]. now apply register_arbiter_edits.
  - (* Resolve *)
    assert (Hrun : forall (b : bool) dbn0 msg, (may_admin p = false -> starts_with key "$$" = false) ->
        edits p c n (if is_primary n || b
        then fst (resolve_conflict n dbn0 (mkCh key value version opp_id true))
        else send_to_primary n msg)).
    { intros b dbn0 msg Hk. destruct (is_primary n || b); [now apply resolve_conflict_edits|].
      apply (ed_same_ds H). split; reflexivity. }
    destruct (s_auth (get_sess n c)) eqn:Ha.
    + pose proof (guard_db_name_edits _ _ _ _ db_name None PRead H) as G.
      destruct (guard_db_name _ _ _ _ _) as [dbn0 d0|n' r']; [apply Hrun, Adm, eq_refl|exact G].
    + pose proof (guard_safe_edits _ _ _ _ key PWrite H) as G.
      destruct (guard_safe _ _ _ _) as [dbn0 d0|n' r']; [apply Hrun, G|exact G].
Qed.

(* [process] adds to [handle] the acknowledgement of a replicated line and the replication queue:
   what holds of every request of c and is kept by a message and by the queues holds of a line *)
Lemma process_closed (P : node -> Prop) c :
  (forall n rq, P n -> P (fst (handle n c rq))) ->
  (forall n m, P n -> P (send n c m)) ->
  (forall n n', P n -> same_ds n n' -> P n') ->
  forall fuel n line, P n -> P (fst (process fuel n c line)).
Proof.
  intros Hh Hs Hq.
  assert (Hr : forall (X : node * resp) rq seldb,
            P (fst X) -> P (fst (let '(n1, r) := X in replicate_request n1 rq seldb r))).
  { intros [n1 r] rq seldb H. exact (Hq _ _ H (replicate_request_same _ _ _ _)). }
  induction fuel as [|k IH]; intros n line HP; cbn [process]; [exact HP|].
  destruct (parse_request (trim_char nl line)) as [rq|e|]; [|exact HP|exact HP].
  apply Hr. destruct rq; try now apply Hh.
  destruct (negb (s_auth (get_sess n c))); [exact HP|]. now apply IH, Hs.
Qed.

Theorem step_edits c n line : edits all_caps c n (fst (step n c line)).
Proof.
  apply (process_closed (edits all_caps c n)); [| |exact (@ed_same_ds _ _ _)|apply ed_refl].
  - intros m rq H. exact (edits_trans H (edits_all_caps (handle_edits c m rq))).
  - intros m msg. apply ed_send.
Qed.

(* the end of a connection needs the selection only, whoever the session is *)
Theorem disconnect_edits c n : edits (Cap true false false) c n (disconnect n c).
Proof.
  rewrite disconnect_eq. apply client_left_edits; [reflexivity|]. cbn [handle].
  pose proof (ed_refl (Cap true false false) c n) as H. pose proof (guard_db_edits _ c n n H) as G.
  destruct (guard_db n c) as [dbn d|n' r']; [exact (ed_db H G de_unwatch_all)|exact G].
Qed.

(* The statements of an HTTP body: around each the worker only edits c's own inbox (it takes its
   answer out).  A property that each statement keeps, and that does not depend on c's inbox, is
   kept by the body; the statements may come from a restricted set. *)
Lemma http_commands_closed_on (P : node -> Prop) c cmds :
  (forall n s, P n -> s_db s = s_db (get_sess n c) -> P (put_sess n c s)) ->
  Forall (fun cmd => forall n, P n -> P (fst (step n c (trim cmd)))) cmds ->
  forall n acc, P n -> P (fst (http_commands n c cmds acc)).
Proof.
  intros Psess. induction 1 as [|cmd rest Hcmd _ IH]; intros n acc H; cbn [http_commands fst]; [exact H|].
  destruct (String.eqb (trim cmd) ""); [now apply IH|].
  pose proof (Hcmd n H) as Hs.
  destruct (step n c (trim cmd)) as [n1 r]. cbn [fst] in Hs.
  destruct r.
  1-3: destruct (s_inbox (get_sess n1 c)) as [|m more]; apply IH; [exact Hs|now apply Psess].
  1-2: apply IH; unfold drain; cbn [fst]; now apply Psess.
  exact Hs.
Qed.
