(* Property C12: the binary search of the operation log ends on the scan start the linear
   specification [spec_last] asks for; the queries over one file and over all files; rotation and retention. *)
From NunDB Require Import Model.Base Model.Oplog Proofs.ListLemmas Proofs.AssocLemmas.
From Coq Require Import Lia ZifyBool ZifyN ZifyNat Sorted.
Local Open Scope N_scope.

Lemma units_ok : forall d, (25 * d / 2) / 25 = d / 2.
Proof.
  intros d. rewrite N.div_div by lia. change (2 * 25) with (25 * 2).
  now rewrite N.div_mul_cancel_l by lia.
Qed.

(* The search halves a window.  All that the loop invariant needs of the division is stated
   here, so that the [lia] calls below see [d / 2] as an atom: eliminating the division in their
   contexts is slow. *)
Lemma div2_facts d : d / 2 <= d /\ (d / 2 = 0 -> d <= 1) /\ (d / 2 = d -> d = 0).
Proof.
  destruct (N.eq_dec d 0) as [->|Hd]; [cbn; lia|].
  pose proof (N.div_lt d 2). pose proof (N.div_str_pos d 2). lia.
Qed.

Definition half (d : N) : N := N.max (d / 2) 1.

Lemma half_spec d : 1 <= d -> 1 <= half d <= d /\ (half d = d -> d = 1).
Proof. intros Hd. unfold half. pose proof (div2_facts d). lia. Qed.

Definition tle (a b : oprec) : Prop := r_time a <= r_time b.
Definition sortedP (l : list oprec) : Prop := StronglySorted tle l.

Lemma sorted_times_sortedP l : sorted_times l = true -> sortedP l.
Proof.
  induction l as [|a l IH]; intros H.
  - constructor.
  - destruct l as [|b l'].
    + constructor; constructor.
    + cbn [sorted_times] in H. apply andb_true_iff in H. destruct H as [Hab Hr].
      specialize (IH Hr). constructor; [exact IH|].
      inversion IH as [|x y Hss Hfa]; subst.
      constructor.
      * unfold tle. lia.
      * eapply Forall_impl; [|exact Hfa]. intros c Hc. unfold tle in *. lia.
Qed.

Lemma sortedP_app l1 l2 : sortedP (l1 ++ l2) ->
  sortedP l1 /\ sortedP l2 /\ (forall a b, In a l1 -> In b l2 -> r_time a <= r_time b).
Proof. apply ssorted_app_inv. Qed.

Lemma sortedP_nth l : sortedP l -> forall i j a b, nth_error l i = Some a -> nth_error l j = Some b ->
  (i <= j)%nat -> r_time a <= r_time b.
Proof.
  induction 1 as [|x l Hss IH Hfa]; intros i j a b Hi Hj Hij.
  - destruct i; discriminate.
  - destruct i as [|i]; destruct j as [|j]; cbn [nth_error] in *.
    + injection Hi as <-. injection Hj as <-. lia.
    + injection Hi as <-. rewrite Forall_forall in Hfa. apply Hfa. eapply nth_error_In; eauto.
    + lia.
    + eapply IH; eauto. lia.
Qed.

(* the time of record [i]; 0 past the end of the file *)
Definition tm (f : ofile) (i : N) : N :=
  match nth_time f i with Some t => t | None => 0 end.

Lemma nth_time_cases f i :
  (i < N.of_nat (length f) /\ nth_time f i = Some (tm f i)) \/
  (N.of_nat (length f) <= i /\ nth_time f i = None).
Proof.
  unfold tm, nth_time. destruct (nth_error f (N.to_nat i)) eqn:E; cbn [option_map].
  - left. split; [|reflexivity].
    assert (H : (N.to_nat i < length f)%nat) by (apply nth_error_Some; congruence). lia.
  - right. split; [|reflexivity]. apply nth_error_None in E. lia.
Qed.

Lemma tm_nth f i r : nth_error f i = Some r -> tm f (N.of_nat i) = r_time r.
Proof. intros H. unfold tm, nth_time. rewrite Nat2N.id, H. reflexivity. Qed.

Lemma nth_of_lt f i : i < N.of_nat (length f) ->
  exists r, nth_error f (N.to_nat i) = Some r /\ tm f i = r_time r.
Proof.
  intros H. destruct (nth_error f (N.to_nat i)) eqn:E.
  - exists o. split; [reflexivity|]. unfold tm, nth_time. now rewrite E.
  - apply nth_error_None in E. lia.
Qed.

Lemma tm_mono f : sortedP f -> forall i j, i <= j -> j < N.of_nat (length f) -> tm f i <= tm f j.
Proof.
  intros Hs i j Hij Hj.
  destruct (nth_of_lt f i) as (a & Ha & ->); [lia|].
  destruct (nth_of_lt f j) as (b & Hb & ->); [lia|].
  eapply (sortedP_nth f Hs); eauto. lia.
Qed.

Section Search.
Variable f : ofile.
Variable since : N.
Hypothesis Hs : sortedP f.
Local Notation n := (N.of_nat (length f)).

(* The loop invariant.  The seek position lies in the window [s_min, s_max] of record indices; when it sits
   on an end of the window, the window holds at most one record ([i_eqmn], [i_eqmx]).  Every record from
   [s_max] on is newer than [since] ([i_up]); the record at [s_min] is older, once the window has left 0
   ([i_low]).  [i_last]: a read at the end of the file leaves the time of the last record in the buffer. *)
Record search_inv (st : sst) : Prop := mkInv {
  i_lo : s_min st <= s_seek st;
  i_hi : s_seek st <= s_max st;
  i_n : s_max st <= n;
  i_eqmn : s_seek st = s_min st -> s_max st <= s_min st + 1;
  i_eqmx : s_seek st = s_max st -> s_max st <= s_min st + 1;
  i_up : s_max st = n \/ since < tm f (s_max st);
  i_low : (s_min st <> 0 \/ s_seek st = s_max st) -> s_min st < n -> tm f (s_min st) < since;
  i_last : s_seek st = n ->
           (n = 0 /\ s_last st = 0) \/ (0 < n /\ s_last st = tm f (n - 1) /\ s_last st < since)
}.

Definition seek_flag (sp mx : N) : N := if N.eqb sp mx then 0 else 1.
Lemma seek_flag_cases sp mx : (sp = mx /\ seek_flag sp mx = 0) \/ (sp <> mx /\ seek_flag sp mx = 1).
Proof. unfold seek_flag. destruct (N.eqb_spec sp mx); [left|right]; auto. Qed.

(* The termination measure: every move shrinks the window, except that a move up from [s_min] keeps a
   window of one record and puts the seek on [s_max]: then the flag drops.  At the start it is at most
   2 n + 1, which [search_fuel] = 2 n + 8 exceeds ([search_post]). *)
Definition search_mu (st : sst) : N := 2 * (s_max st - s_min st) + seek_flag (s_seek st) (s_max st).

(* the three ways the binary search ends with Found: past the end, on a record that is
   not older than [since], or -- the "read_all" exit -- on record 1 although it is older *)
Definition pfound (sp : N) : Prop :=
  n <= sp \/ since <= tm f sp \/
  (sp = 1 /\ tm f 1 < since /\ forall j, 2 <= j -> j < n -> since < tm f j).

Definition search_ok (r : sres) : Prop :=
  match r with
  | Found sp => (nth_time f sp = Some since \/ (forall i, i < sp -> i < n -> tm f i < since)) /\ pfound sp
  | NotFound => forall i, i < n -> tm f i < since
  | OutOfFuel | Underflow => False
  end.

(* The two moves of the search.  Each keeps only the fields of the invariant it needs, so that
   [lia] works in a small context.  The window is halved ([half_spec]), and only a window of one
   record is halved to itself. *)
Lemma step_up mn mx sp last :
  search_inv (mkS mn mx sp last) -> sp < mx -> tm f sp < since ->
  search_inv (mkS sp mx (sp + half (mx - sp)) (tm f sp)) /\
  search_mu (mkS sp mx (sp + half (mx - sp)) (tm f sp)) < search_mu (mkS mn mx sp last).
Proof.
  intros [Hlo _ Hn Heq _ Hup _ _] Hsp Ht. cbn [s_min s_max s_seek s_last] in *.
  destruct (half_spec (mx - sp)) as [Hh Hh1]; [lia|].
  revert Hh Hh1. generalize (half (mx - sp)). intros h Hh Hh1. split.
  - constructor; cbn [s_min s_max s_seek s_last]; try lia.
    (* the seek reaches the end only from the last record, which is older than [since] *)
    intros Hx. right. assert (Hsp1 : sp = n - 1) by lia. rewrite <- Hsp1. lia.
  - unfold search_mu. cbn [s_min s_max s_seek s_last].
    pose proof (seek_flag_cases sp mx). pose proof (seek_flag_cases (sp + h) mx). lia.
Qed.

Lemma step_down mn mx sp last :
  search_inv (mkS mn mx sp last) -> mn < sp < n -> 2 <= mx - mn -> since < tm f sp ->
  search_inv (mkS mn sp (sp - half (sp - mn)) (tm f sp)) /\
  search_mu (mkS mn sp (sp - half (sp - mn)) (tm f sp)) < search_mu (mkS mn mx sp last).
Proof.
  intros [_ Hhi _ _ Heq _ Hlow _] Hsp Hp Ht. cbn [s_min s_max s_seek s_last] in *.
  destruct (half_spec (sp - mn)) as [Hh Hh1]; [lia|].
  revert Hh Hh1. generalize (half (sp - mn)). intros h Hh Hh1. split.
  - constructor; cbn [s_min s_max s_seek s_last]; lia.
  - unfold search_mu. cbn [s_min s_max s_seek s_last].
    pose proof (seek_flag_cases sp mx). pose proof (seek_flag_cases (sp - h) sp). lia.
Qed.

Lemma step_ok st : search_inv st ->
  match search_step f since st with
  | inl st' => search_inv st' /\ search_mu st' < search_mu st
  | inr r => search_ok r
  end.
Proof.
  (* by whether the read hits a record (else sp = n and [i_last] applies), then by the exit test of
     [search_step]; the two non-exits are [step_up] and [step_down] *)
  destruct st as [mn mx sp last]. intros Hinv.
  pose proof Hinv as [Hlo Hhi Hn Heqmn Heqmx Hup Hlow Hlast].
  cbn [s_min s_max s_seek s_last] in *.
  unfold search_step. cbn [s_min s_max s_seek s_last].
  pose proof (tm_mono f Hs) as Hmono.
  destruct (nth_time_cases f sp) as [[Hlt Ent]|[Hge Ent]]; rewrite Ent.
  - set (t := tm f sp) in *.
    destruct (N.ltb mx mn) eqn:E1; [lia|].
    destruct (N.eqb t since || (N.leb (mx - mn) 1 && N.ltb since t) || (N.eqb (mx - mn) 1 && N.eqb sp 1)) eqn:E2.
    + cbn [search_ok]. split.
      2:{ unfold pfound. fold t. destruct (N.leb_spec since t) as [Hle|Hgt]; [right; left; exact Hle|].
          right. right. assert (Hsp : sp = 1) by lia. subst sp.
          assert (Hm : (mn = 0 /\ mx = 1) \/ (mn = 1 /\ mx = 2)) by lia.
          destruct Hm as [[-> ->]|[-> ->]]; [exfalso; destruct Hup as [Hup|Hup]; lia|].
          split; [reflexivity|]. split; [exact Hgt|]. intros j Hj2 Hjn.
          destruct Hup as [Hup|Hup]; [lia|]. pose proof (Hmono 2 j Hj2 Hjn). lia. }
      destruct (N.eqb_spec t since) as [Et|Et]; [left; rewrite Ent; now rewrite Et|].
      right. intros i Hi Hin.
      pose proof (Hmono i sp) as M1. pose proof (Hmono i mn) as M2. fold t in M1.
      destruct (N.ltb since t) eqn:E3.
      * (* no_more_smaller *)
        assert (Hp : mx - mn <= 1) by lia.
        assert (Hc : sp = mn \/ (sp = mn + 1 /\ sp = mx)) by lia.
        destruct Hc as [Hc|[Hc1 Hc2]].
        -- subst sp. fold t in Hlow. lia.
        -- lia.
      * (* read_all *)
        lia.
    + destruct (N.ltb_spec t since) as [Hts|Hts].
      * assert (Hspmx : sp < mx).
        { destruct Hup as [Hup|Hup]; [lia|]. destruct (N.eq_dec sp mx) as [->|]; [fold t in Hup|]; lia. }
        rewrite (N.max_l mx sp) by lia. fold (half (mx - sp)).
        exact (step_up mn mx sp last Hinv Hspmx Hts).
      * assert (Hp : 2 <= mx - mn /\ since < t /\ mn < sp) by lia. destruct Hp as (Hp & Hgt & Hsp).
        fold (half (sp - mn)).
        destruct (N.ltb sp mn || N.ltb sp (half (sp - mn))) eqn:E4;
          [pose proof (half_spec (sp - mn)); lia|].
        exact (step_down mn mx sp last Hinv (conj Hsp Hlt) Hp Hgt).
  - (* nothing read: sp = n and t = last, the time of the last record, which is older than
       [since]: every record is *)
    assert (Hspn : sp = n) by lia.
    specialize (Hlast Hspn).
    assert (Hall : forall i, i < n -> tm f i < since).
    { intros i Hi. destruct Hlast as [[H0 _]|(_ & Hl & Hlt)]; [lia|].
      pose proof (Hmono i (n - 1)). lia. }
    destruct (N.ltb mx mn) eqn:E1; [lia|].
    destruct (N.eqb last since || (N.leb (mx - mn) 1 && N.ltb since last) || (N.eqb (mx - mn) 1 && N.eqb sp 1)) eqn:E2.
    + split; [right; intros i _ Hin; exact (Hall i Hin)|left; exact Hge].
    + destruct (N.ltb_spec last since) as [Hl|Hl]; [exact Hall|].
      exfalso. clear - Hlast E2 Hl. lia.
Qed.

Lemma loop_ok : forall fuel st, search_inv st -> (N.to_nat (search_mu st) < fuel)%nat ->
  search_ok (search_loop fuel f since st).
Proof.
  induction fuel as [|k IH]; intros st Hinv Hfuel; [lia|].
  cbn [search_loop]. pose proof (step_ok st Hinv) as Hstep.
  destruct (search_step f since st) as [st'|r].
  - destruct Hstep as [Hinv' Hmu]. apply IH; [exact Hinv'|lia].
  - exact Hstep.
Qed.

Lemma inv_init : search_inv (mkS 0 n (n / 2) 0).
Proof. pose proof (div2_facts n). constructor; cbn [s_min s_max s_seek s_last]; try lia. Qed.

Lemma search_post : search_ok (search f since).
Proof.
  unfold search. apply loop_ok; [apply inv_init|].
  unfold search_mu, search_fuel. cbn [s_min s_max s_seek s_last].
  pose proof (seek_flag_cases (n / 2) n). lia.
Qed.

Lemma walk_back_spec : forall j, (j <= length f)%nat ->
  (forall i ri, (i < j)%nat -> nth_error f i = Some ri -> r_time ri <= since) ->
  forall i ri, (i < walk_back f since j)%nat -> nth_error f i = Some ri -> r_time ri < since.
Proof.
  induction j as [|j IH]; intros Hj Hle i ri Hi Hnth; cbn [walk_back] in Hi; [lia|].
  destruct (nth_error f j) as [r|] eqn:Ej.
  - destruct (N.eqb_spec (r_time r) since) as [Er|Er].
    + apply IH with (i := i); [lia| |exact Hi|exact Hnth].
      intros i0 ri0 Hi0 Hn0. apply (Hle i0 ri0); [lia|exact Hn0].
    + pose proof (Hle j r ltac:(lia) Ej).
      pose proof (sortedP_nth f Hs i j ri r Hnth Ej ltac:(lia)). lia.
  - apply nth_error_None in Ej. lia.
Qed.

Lemma scan_start_ok sp : search_ok (Found sp) ->
  forall i r, nth_error f i = Some r -> N.of_nat i < scan_start f since sp -> r_time r < since.
Proof.
  cbn [search_ok]. intros [Hpost _] i r Hnth Hi.
  assert (Hin : N.of_nat i < n).
  { assert (i < length f)%nat by (apply nth_error_Some; congruence). lia. }
  unfold scan_start in Hi.
  (* no hit at [sp]: the scan starts there, and everything in front is older *)
  assert (Hold : nth_time f sp <> Some since -> N.of_nat i < sp -> r_time r < since).
  { intros Hne Hsp. destruct Hpost as [Hp|Hp]; [contradiction|]. rewrite <- (tm_nth f i r Hnth). apply Hp; lia. }
  destruct (nth_time_cases f sp) as [[Hlt Esp]|[Hge Esp]]; rewrite Esp in *.
  - destruct (N.eqb (tm f sp) since) eqn:Eb; rewrite ?Eb in Hi;
      [assert (Et : tm f sp = since) by lia|assert (Et : tm f sp <> since) by lia].
    + apply (walk_back_spec (N.to_nat sp)) with (i := i); [lia| |lia|exact Hnth].
      intros i' ri' Hi' Hnth'.
      rewrite <- (tm_nth f i' ri' Hnth'), <- Et.
      apply (tm_mono f Hs); lia.
    + apply Hold; [congruence|exact Hi].
  - apply Hold; [discriminate|exact Hi].
Qed.

Lemma search_found_shape sp : search f since = Found sp -> pfound sp.
Proof. intros H. pose proof search_post as P. rewrite H in P. apply P. Qed.

Lemma walk_back_eq : forall j i r, (walk_back f since j <= i < j)%nat ->
  nth_error f i = Some r -> r_time r = since.
Proof.
  induction j as [|j IH]; intros i r Hi Hnth; cbn [walk_back] in Hi; [lia|].
  destruct (nth_error f j) as [rj|] eqn:Ej; [|lia].
  destruct (N.eqb_spec (r_time rj) since) as [Et|Et]; [|lia].
  destruct (Nat.eq_dec i j) as [->|Hne]; [congruence|]. apply (IH i r); [lia|exact Hnth].
Qed.

(* every record from the scan start on is at or after [since] -- except that the scan may
   start on record 1 although it is older, and then no record carries exactly [since] *)
Lemma suffix_fresh sp : search f since = Found sp -> forall i r, nth_error f i = Some r ->
  scan_start f since sp <= N.of_nat i ->
  since <= r_time r \/ (i = 1%nat /\ forall r0, In r0 f -> r_time r0 <> since).
Proof.
  intros Hfound i r Hnth Hi. pose proof (search_found_shape sp Hfound) as Hp.
  assert (Hil : (i < length f)%nat) by (apply nth_error_Some; congruence).
  unfold scan_start in Hi.
  destruct (nth_time_cases f sp) as [[Hlt Esp]|[Hge Esp]]; rewrite Esp in Hi; [|lia].
  destruct (nth_of_lt f sp Hlt) as (rs & Hrs & Htm).
  destruct (N.eqb_spec (tm f sp) since) as [Et|Et].
  - left. destruct (Nat.lt_ge_cases i (N.to_nat sp)) as [Hlt'|Hge'].
    + pose proof (walk_back_eq (N.to_nat sp) i r ltac:(lia) Hnth). lia.
    + pose proof (sortedP_nth f Hs _ _ _ _ Hrs Hnth Hge'). lia.
  - destruct Hp as [Hp|[Hp|(Hsp1 & Hlt1 & Hp)]]; [lia| |].
    + left. pose proof (sortedP_nth f Hs (N.to_nat sp) i rs r Hrs Hnth ltac:(lia)). lia.
    + subst sp. destruct (Nat.eq_dec i 1) as [->|Hne].
      * right. split; [reflexivity|]. intros r0 Hin0.
        apply In_nth_error in Hin0. destruct Hin0 as [j Hj].
        assert (Hjl : (j < length f)%nat) by (apply nth_error_Some; congruence).
        rewrite <- (tm_nth f j r0 Hj).
        destruct (Nat.le_gt_cases j 1) as [Hj1|Hj2].
        -- pose proof (tm_mono f Hs (N.of_nat j) 1 ltac:(lia) ltac:(lia)). lia.
        -- pose proof (Hp (N.of_nat j) ltac:(lia) ltac:(lia)). lia.
      * left. rewrite <- (tm_nth f i r Hnth).
        pose proof (Hp (N.of_nat i) ltac:(lia) ltac:(lia)). lia.
Qed.

End Search.

Theorem search_total : forall f since, sorted_times f = true ->
  (exists sp, search f since = Found sp) \/ search f since = NotFound.
Proof.
  intros f since Hs. pose proof (search_post f since (sorted_times_sortedP f Hs)) as H.
  destruct (search f since); cbn [search_ok] in H; try contradiction; eauto.
Qed.

Theorem search_found_complete : forall f since sp, sorted_times f = true ->
  search f since = Found sp ->
  forall i r, nth_error f i = Some r -> (N.of_nat i < scan_start f since sp) -> r_time r < since.
Proof.
  intros f since sp Hs Hfound.
  pose proof (search_post f since (sorted_times_sortedP f Hs)) as H. rewrite Hfound in H.
  apply (scan_start_ok f since (sorted_times_sortedP f Hs) sp H).
Qed.

Theorem search_notfound_complete : forall f since, sorted_times f = true ->
  search f since = NotFound -> forall r, In r f -> r_time r < since.
Proof.
  intros f since Hs Hnf r Hin.
  pose proof (search_post f since (sorted_times_sortedP f Hs)) as H. rewrite Hnf in H. cbn [search_ok] in H.
  apply In_nth_error in Hin. destruct Hin as [i Hi].
  rewrite <- (tm_nth f i r Hi). apply H.
  assert (i < length f)%nat by (apply nth_error_Some; congruence). lia.
Qed.

Lemma okey_eqb_spec (a b : okey) : reflect (a = b) (okey_eqb a b).
Proof.
  destruct a as [a1 a2], b as [b1 b2]. unfold okey_eqb. cbn [fst snd].
  destruct (N.eqb_spec a1 b1), (N.eqb_spec a2 b2); constructor; congruence.
Qed.

(* the (database, key) a record is about *)
Definition kof (r : oprec) : okey := (r_db r, r_key r).

Lemma scan_snoc_pos : forall l x c m,
  scan (l ++ [x]) c m = assoc_set okey_eqb (kof x) (mkHit x (c + N.of_nat (length l) + 1)) (scan l c m).
Proof.
  induction l as [|y l IH]; intros x c m; cbn [app scan length].
  - unfold kof. f_equal. f_equal. lia.
  - rewrite IH. f_equal. f_equal. lia.
Qed.

Lemma scan_nodup : forall l c m, NoDup (map fst m) -> NoDup (map fst (scan l c m)).
Proof.
  induction l as [|y l IH]; intros c m H; cbn [scan]; [exact H|].
  apply IH. now apply (nodup_set okey_eqb okey_eqb_spec).
Qed.

Section PerKey.
Variable since : N.
Variable k : okey.

(* at or after [since] and about [k]: the test inside [spec_last] *)
Definition hitc (r : oprec) : bool := N.leb since (r_time r) && okey_eqb (kof r) k.

Lemma spec_last_snoc l x :
  spec_last (l ++ [x]) since k = if hitc x then Some x else spec_last l since k.
Proof. unfold spec_last. rewrite fold_left_app. reflexivity. Qed.

Lemma spec_last_app l1 l2 :
  spec_last (l1 ++ l2) since k =
  match spec_last l2 since k with Some r => Some r | None => spec_last l1 since k end.
Proof.
  induction l2 as [|x l2 IH] using rev_ind.
  - rewrite app_nil_r. reflexivity.
  - rewrite app_assoc, !spec_last_snoc. destruct (hitc x); [reflexivity|exact IH].
Qed.

Lemma spec_last_find l : spec_last l since k = find hitc (rev l).
Proof.
  induction l as [|x l IH] using rev_ind; [reflexivity|].
  rewrite spec_last_snoc, rev_unit. cbn [find]. now rewrite IH.
Qed.

Lemma hitc_spec r : hitc r = true <-> since <= r_time r /\ kof r = k.
Proof.
  unfold hitc. rewrite andb_true_iff, N.leb_le.
  destruct (okey_eqb_spec (kof r) k); intuition congruence.
Qed.

Lemma spec_last_some l r : spec_last l since k = Some r ->
  In r l /\ since <= r_time r /\ kof r = k.
Proof.
  rewrite spec_last_find. intros H. apply find_some in H. now rewrite <- in_rev, hitc_spec in H.
Qed.

Lemma spec_last_none l : spec_last l since k = None ->
  forall r, In r l -> kof r = k -> r_time r < since.
Proof.
  rewrite spec_last_find. intros H r Hin Hk. rewrite in_rev in Hin.
  pose proof (find_none _ _ H r Hin) as Hf.
  destruct (N.lt_ge_cases (r_time r) since) as [Hlt|Hge]; [exact Hlt|].
  rewrite (proj2 (hitc_spec r) (conj Hge Hk)) in Hf. discriminate.
Qed.

Lemma spec_last_old l : (forall r, In r l -> r_time r < since) -> spec_last l since k = None.
Proof.
  intros H. rewrite spec_last_find. destruct (find hitc (rev l)) as [r|] eqn:E; [|reflexivity].
  apply find_some in E. rewrite <- in_rev, hitc_spec in E. destruct E as [Hin [Hge _]].
  specialize (H r Hin). lia.
Qed.

(* [spec_last] without the time test *)
Definition last_key (l : list oprec) : option oprec :=
  fold_left (fun acc r => if okey_eqb (kof r) k then Some r else acc) l None.

Lemma last_key_snoc l x :
  last_key (l ++ [x]) = if okey_eqb (kof x) k then Some x else last_key l.
Proof. unfold last_key. rewrite fold_left_app. reflexivity. Qed.

Lemma last_key_some l r : last_key l = Some r -> In r l /\ kof r = k.
Proof.
  induction l as [|x l IH] using rev_ind; [discriminate|].
  rewrite last_key_snoc. destruct (okey_eqb_spec (kof x) k) as [E|E].
  - intros [= <-]. split; [apply in_or_app; right; now left|assumption].
  - intros H. destruct (IH H) as [H1 H2]. split; [apply in_or_app; now left|assumption].
Qed.

Lemma sorted_spec_last_key l r : sortedP l ->
  spec_last l since k = Some r -> last_key l = Some r.
Proof.
  induction l as [|x l IH] using rev_ind; [discriminate|].
  intros Hs. apply sortedP_app in Hs. destruct Hs as (Hs1 & _ & Hcross).
  rewrite spec_last_snoc, last_key_snoc. unfold hitc.
  destruct (okey_eqb (kof x) k) eqn:Ek.
  - destruct (N.leb_spec since (r_time x)) as [Hle|Hlt]; cbn [andb]; [auto|].
    intros H. apply spec_last_some in H. destruct H as (Hin & Hge & _).
    specialize (Hcross r x Hin (or_introl eq_refl)). lia.
  - rewrite andb_false_r. auto.
Qed.

Lemma scan_get : forall l c m,
  match last_key l with
  | Some r => exists h, assoc_get okey_eqb k (scan l c m) = Some h /\ h_rec h = r
  | None => assoc_get okey_eqb k (scan l c m) = assoc_get okey_eqb k m
  end.
Proof.
  induction l as [|x l IH] using rev_ind; intros c m; [reflexivity|].
  rewrite last_key_snoc. rewrite scan_snoc_pos.
  destruct (okey_eqb_spec (kof x) k) as [E|E].
  - rewrite E. rewrite (get_set_same okey_eqb okey_eqb_spec). eexists. split; reflexivity.
  - rewrite (get_set_other okey_eqb okey_eqb_spec) by congruence. apply IH.
Qed.

End PerKey.

Lemma spec_last_exists l since r : In r l -> since <= r_time r ->
  exists r', spec_last l since (kof r) = Some r'.
Proof.
  intros Hin Hge. destruct (spec_last l since (kof r)) as [r'|] eqn:E; [now exists r'|].
  pose proof (spec_last_none since (kof r) l E r Hin eq_refl). lia.
Qed.

(* what a query over the records [recs] must have merged into [m]: every key with a record at or
   after [since] maps to its most recent one; any other key keeps its entry or maps to a genuine
   record of that key *)
Definition answers (recs : list oprec) (since : N) (m m' : omap) : Prop :=
  (forall k r, spec_last recs since k = Some r ->
      exists h, assoc_get okey_eqb k m' = Some h /\ h_rec h = r) /\
  (forall k, spec_last recs since k = None ->
      assoc_get okey_eqb k m' = assoc_get okey_eqb k m \/
      (exists h, assoc_get okey_eqb k m' = Some h /\ In (h_rec h) recs /\ kof (h_rec h) = k)).

Lemma query_file_sortedP : forall f since m, sortedP f ->
  exists m', query_file f since m = Some m' /\ answers f since m m'.
Proof.
  intros f since m Hs. pose proof (search_post f since Hs) as Hpost.
  unfold query_file. destruct (search f since) as [sp| | |] eqn:Es; cbn [search_ok] in Hpost; try contradiction.
  - eexists. split; [reflexivity|].
    pose proof (scan_start_ok f since Hs sp Hpost) as Hold.
    set (s := N.to_nat (scan_start f since sp)) in *.
    assert (Hsplit : f = firstn s f ++ skipn s f) by (symmetry; apply firstn_skipn).
    assert (Hpre : forall r, In r (firstn s f) -> r_time r < since).
    { intros r Hin. apply In_nth_error in Hin. destruct Hin as [i Hi].
      assert (Hil : (i < length (firstn s f))%nat) by (apply nth_error_Some; congruence).
      rewrite firstn_length in Hil.
      apply (Hold i r); [|lia].
      rewrite Hsplit. rewrite nth_error_app1; [exact Hi|]. rewrite firstn_length. lia. }
    assert (Hsuf : sortedP (skipn s f)).
    { rewrite Hsplit in Hs. apply sortedP_app in Hs. tauto. }
    assert (Hspec : forall k, spec_last f since k = spec_last (skipn s f) since k).
    { intros k. rewrite Hsplit at 1. rewrite spec_last_app.
      rewrite (spec_last_old since k _ Hpre). now destruct (spec_last (skipn s f) since k). }
    split.
    + intros k r Hk. rewrite Hspec in Hk.
      apply (sorted_spec_last_key since k _ r Hsuf) in Hk.
      pose proof (scan_get k (skipn s f) 0 m) as Hg. rewrite Hk in Hg. exact Hg.
    + intros k _. pose proof (scan_get k (skipn s f) 0 m) as Hg.
      destruct (last_key k (skipn s f)) as [r|] eqn:El; [right|left; exact Hg].
      destruct Hg as (h & Hh & Hr). exists h. split; [exact Hh|].
      apply last_key_some in El. destruct El as [Hin Hkof]. rewrite Hr.
      split; [|exact Hkof]. rewrite Hsplit. apply in_or_app. now right.
  - eexists. split; [reflexivity|]. split.
    + intros k r Hk. apply spec_last_some in Hk. destruct Hk as (Hin & Hge & _).
      apply In_nth_error in Hin. destruct Hin as [i Hi].
      assert (i < length f)%nat by (apply nth_error_Some; congruence).
      pose proof (Hpost (N.of_nat i) ltac:(lia)) as Hlt. rewrite (tm_nth f i r Hi) in Hlt. lia.
    + intros k _. now left.
Qed.

Theorem query_file_complete : forall f since m, sorted_times f = true ->
  exists m', query_file f since m = Some m' /\ answers f since m m'.
Proof. intros f since m Hs. apply query_file_sortedP. now apply sorted_times_sortedP. Qed.

Lemma query_files_sortedP : forall fs since m, sortedP (concat fs) ->
  exists m', query_files fs since m = Some m' /\ answers (concat fs) since m m'.
Proof.
  induction fs as [|f rest IH]; intros since m Hs; cbn [concat query_files] in *.
  - exists m. split; [reflexivity|]. split; [intros k r H; discriminate|intros k _; now left].
  - pose proof (sortedP_app _ _ Hs) as (Hsf & Hsr & Hcross).
    destruct (query_file_sortedP f since m Hsf) as (m1 & Hq1 & Hsome1 & Hnone1).
    rewrite Hq1.
    destruct (IH since m1 Hsr) as (m' & Hq & Hsome & Hnone).
    exists m'. split; [exact Hq|]. split.
    + intros k r Hk. rewrite spec_last_app in Hk.
      destruct (spec_last (concat rest) since k) as [r'|] eqn:Er.
      * injection Hk as ->. now apply Hsome.
      * destruct (Hnone k Er) as [Heq|(h & Hh & Hin & Hkof)].
        -- rewrite Heq. now apply Hsome1.
        -- exfalso.
           pose proof (spec_last_none since k _ Er _ Hin Hkof) as Hlt.
           apply spec_last_some in Hk. destruct Hk as (Hinf & Hge & _).
           specialize (Hcross r (h_rec h) Hinf Hin). lia.
    + intros k Hk. rewrite spec_last_app in Hk.
      destruct (spec_last (concat rest) since k) as [r'|] eqn:Er; [discriminate|].
      destruct (Hnone k Er) as [Heq|(h & Hh & Hin & Hkof)].
      * rewrite Heq. destruct (Hnone1 k Hk) as [Heq1|(h & Hh & Hin & Hkof)]; [now left|].
        right. exists h. split; [exact Hh|]. split; [apply in_or_app; now left|exact Hkof].
      * right. exists h. split; [exact Hh|]. split; [apply in_or_app; now right|exact Hkof].
Qed.

Lemma all_records_concat rotated current :
  all_records rotated current = concat (rotated ++ [current]).
Proof. unfold all_records. rewrite concat_app. cbn [concat]. now rewrite app_nil_r. Qed.

Theorem query_all_complete : forall rotated current since,
  sorted_times (all_records rotated current) = true ->
  exists m, query_all rotated current since = Some m /\
    forall k r, spec_last (all_records rotated current) since k = Some r ->
      exists h, assoc_get okey_eqb k m = Some h /\ h_rec h = r.
Proof.
  intros rotated current since Hs. apply sorted_times_sortedP in Hs.
  rewrite all_records_concat in *. unfold query_all.
  destruct (query_files_sortedP (rotated ++ [current]) since [] Hs) as (m & Hq & Hsome & _).
  exists m. split; [exact Hq|exact Hsome].
Qed.

Lemma query_all_single f since : query_all [] f since = query_file f since [].
Proof. unfold query_all. cbn [app query_files]. destruct (query_file f since []); reflexivity. Qed.

Lemma last_op_time_nil : last_op_time [] = 0.
Proof. reflexivity. Qed.

Lemma last_op_time_snoc : forall f r, last_op_time (f ++ [r]) = r_time r.
Proof. intros f r. unfold last_op_time. rewrite rev_app_distr. reflexivity. Qed.

Theorem reopen_records : forall single l,
  all_records (l_rotated (reopen single l)) (l_current (reopen single l)) = all_records (l_rotated l) (l_current l).
Proof.
  intros single l. unfold reopen.
  destruct (N.leb single (file_bytes (l_current l))); [|reflexivity].
  cbn [l_rotated l_current]. unfold all_records.
  rewrite concat_app. cbn [concat]. now rewrite !app_nil_r.
Qed.

Theorem append_records : forall single l r,
  all_records (l_rotated (oplog_append single l r)) (l_current (oplog_append single l r))
    = all_records (l_rotated l) (l_current l) ++ [r] \/
  all_records (l_rotated (oplog_append single l r)) (l_current (oplog_append single l r))
    = all_records (l_rotated l) (l_current l) ++ [r; r].
Proof.
  intros single l r. unfold oplog_append.
  set (l1 := mkLog (l_rotated l) (l_current l ++ [r])).
  assert (H1 : all_records (l_rotated l1) (l_current l1) = all_records (l_rotated l) (l_current l) ++ [r]).
  { unfold l1, all_records. cbn [l_rotated l_current]. now rewrite app_assoc. }
  destruct (N.ltb single (file_bytes (l_current l1))).
  - right. cbn [l_rotated l_current].
    unfold all_records at 1. rewrite app_assoc.
    change (concat (l_rotated (reopen single l1)) ++ l_current (reopen single l1))
      with (all_records (l_rotated (reopen single l1)) (l_current (reopen single l1))).
    rewrite reopen_records, H1, <- app_assoc. reflexivity.
  - left. exact H1.
Qed.

Theorem declutter_suffix : forall l, exists dropped,
  all_records (l_rotated l) (l_current l) = dropped ++ all_records (l_rotated (declutter l)) (l_current (declutter l)).
Proof.
  intros l. unfold declutter.
  destruct (Nat.ltb (length (l_rotated l)) 10).
  - exists []. reflexivity.
  - cbn [l_rotated l_current].
    exists (concat (firstn (length (l_rotated l) - 9) (l_rotated l))).
    unfold all_records. rewrite app_assoc, <- concat_app, firstn_skipn. reflexivity.
Qed.
