(* Facts shared by the storage proofs (disk snapshot, crash frame, oplog metadata, S3): byte
   strings, the little-endian codecs, read_into / write_at, the part of a trace in front of the
   i-th call of one kind, and "P holds after every prefix of a trace". *)
From NunDB Require Import Model.Base Model.Pending Model.Parse Model.Node Model.Disk.
From NunDB Require Export Proofs.StrLemmas.
From Coq Require Import Lia.
Local Open Scope N_scope.

(* global, and re-exported by DiskProofs: [len] in the storage proofs is this *)
Notation len := String.length.

Lemma slen_app a b : slen (a +++ b) = slen a + slen b.
Proof. unfold slen. rewrite str_length_app. lia. Qed.

Lemma len0_empty s : len s = 0%nat -> s = "".
Proof. destruct s; cbn; congruence. Qed.

Lemma app_inj_len a : forall a' b b', len a = len a' -> a +++ b = a' +++ b' -> a = a' /\ b = b'.
Proof.
  induction a as [|c a IH]; intros [|c' a'] b b' Hl H; cbn in *; try discriminate; auto.
  inversion H; subst. destruct (IH a' b b') as [-> ->]; auto.
Qed.

Lemma app_inv_head_s a b c : a +++ b = a +++ c -> b = c.
Proof. intros H. now apply (app_inj_len a a b c). Qed.

Lemma take_app_exact a b : str_take (len a) (a +++ b) = a.
Proof. induction a; cbn; [destruct b|]; congruence. Qed.

Lemma drop_app_exact a b : str_drop (len a) (a +++ b) = b.
Proof. induction a; cbn; congruence. Qed.

Lemma take_app_eq n a b : len a = n -> str_take n (a +++ b) = a.
Proof. intros <-. apply take_app_exact. Qed.

Lemma drop_app_eq n a b : len a = n -> str_drop n (a +++ b) = b.
Proof. intros <-. apply drop_app_exact. Qed.

Lemma take_app_le n : forall a b, (n <= len a)%nat -> str_take n (a +++ b) = str_take n a.
Proof.
  induction n; intros a b H; cbn; auto.
  destruct a; cbn in *; [lia|]. rewrite IHn; auto. lia.
Qed.

Lemma drop_app_le n : forall a b, (n <= len a)%nat -> str_drop n (a +++ b) = str_drop n a +++ b.
Proof.
  induction n; intros a b H; cbn; auto.
  destruct a; cbn in *; [lia|]. rewrite IHn; auto. lia.
Qed.

Lemma len_take n : forall s, (n <= len s)%nat -> len (str_take n s) = n.
Proof. induction n; intros [|a s] H; cbn in *; auto; try lia. rewrite IHn; auto. lia. Qed.

Lemma len_take_le n : forall s, (len (str_take n s) <= n)%nat.
Proof. induction n; intros [|a s]; cbn; try lia. specialize (IHn s). lia. Qed.

Lemma len_drop n : forall s, len (str_drop n s) = (len s - n)%nat.
Proof. induction n; intros [|a s]; cbn; auto. Qed.

Lemma drop_all n : forall s, (len s <= n)%nat -> str_drop n s = "".
Proof. induction n; intros [|a s] H; cbn in *; auto; try lia. apply IHn. lia. Qed.

Lemma drop_0 s : str_drop 0 s = s.
Proof. destruct s; reflexivity. Qed.

Lemma drop_add n : forall m s, str_drop (n + m) s = str_drop m (str_drop n s).
Proof.
  induction n as [|n IH]; intros m s; cbn [Nat.add str_drop]; [reflexivity|].
  destruct s as [|c s]; [destruct m; reflexivity|apply IH].
Qed.

Lemma len_zeros n : len (zeros n) = n.
Proof. induction n; cbn; congruence. Qed.

Lemma len_le_bytes k : forall n, len (le_bytes k n) = k.
Proof. induction k; intros n; cbn; auto. Qed.

Lemma le_decode_bytes k : forall n, le_decode (le_bytes k n) = n mod 256 ^ N.of_nat k.
Proof.
  induction k as [|k IH]; intros n; cbn [le_bytes le_decode].
  - change (N.of_nat 0) with 0. now rewrite N.pow_0_r, N.mod_1_r.
  - rewrite IH, N_ascii_embedding by (apply N.mod_lt; discriminate).
    rewrite Nat2N.inj_succ, N.pow_succ_r'.
    rewrite (N.mod_mul_r n 256 (256 ^ N.of_nat k)); [reflexivity|discriminate|].
    apply N.pow_nonzero. discriminate.
Qed.

Lemma le_decode_small k n : n < 256 ^ N.of_nat k -> le_decode (le_bytes k n) = n.
Proof. intros H. rewrite le_decode_bytes. now apply N.mod_small. Qed.

(* the two widths the formats use *)
Lemma le_decode_8 n : n < 18446744073709551616 -> le_decode (le_bytes 8 n) = n.
Proof. exact (le_decode_small 8 n). Qed.

Lemma le_decode_4 n : n < 4294967296 -> le_decode (le_bytes 4 n) = n.
Proof. exact (le_decode_small 4 n). Qed.

Lemma le8_inj a b : a < 18446744073709551616 -> b < 18446744073709551616 -> le_bytes 8 a = le_bytes 8 b -> a = b.
Proof. intros Ha Hb H. rewrite <- (le_decode_8 a Ha), <- (le_decode_8 b Hb). now rewrite H. Qed.

Lemma len_i32_bytes z : len (i32_bytes z) = 4%nat.
Proof. apply len_le_bytes. Qed.

Lemma i32_decode_bytes z : (-2147483648 <= z <= 2147483647)%Z -> i32_decode (i32_bytes z) = z.
Proof.
  intros H. unfold i32_decode, i32_bytes.
  rewrite le_decode_4 by (destruct (Z.ltb_spec z 0); lia).
  destruct (Z.ltb_spec z 0); destruct (N.ltb_spec (Z.to_N (z + 4294967296)) 2147483648);
    destruct (N.ltb_spec (Z.to_N z) 2147483648); lia.
Qed.

Lemma max_alloc_lt : max_alloc < 18446744073709551616.
Proof. reflexivity. Qed.

(* a buffer of exactly the field's length is filled with the field: the short-read branch of
   read_into is not taken *)
Lemma read_into_exact file pos buf pre d post :
  file = pre +++ d +++ post -> len pre = pos -> len buf = len d ->
  read_into file pos buf = (d, len d).
Proof.
  intros -> <- Hb. unfold read_into.
  rewrite drop_app_exact, Hb, take_app_exact.
  rewrite <- Hb, (drop_all (len buf) buf), app_nil_r_s by lia. reflexivity.
Qed.

Lemma read_into_eof file pos buf : (len file <= pos)%nat -> read_into file pos buf = (buf, 0%nat).
Proof.
  intros H. unfold read_into. rewrite (drop_all pos file H).
  assert (E : str_take (len buf) "" = "") by (destruct (len buf); reflexivity).
  rewrite E. cbn. now rewrite ?drop_0.
Qed.

Lemma read_into_len file pos buf : len (fst (read_into file pos buf)) = len buf.
Proof.
  unfold read_into. cbn [fst]. rewrite str_length_app, len_drop.
  pose proof (len_take_le (len buf) (str_drop pos file)). lia.
Qed.

(* a loader reads the fields of a record one after the other, each into a buffer of exactly the
   field's length: [reads K pos [d1; ..; dn]] holds when K carries d1 .. dn from position pos on *)
Fixpoint reads (K : str) (pos : nat) (ds : list str) : Prop :=
  match ds with
  | [] => True
  | d :: t => (forall buf, len buf = len d -> read_into K pos buf = (d, len d)) /\
              reads K (pos + len d) t
  end.

Lemma reads_intro ds : forall K pre post,
  K = pre +++ fold_right String.append post ds -> reads K (len pre) ds.
Proof.
  induction ds as [|d t IH]; intros K pre post HK; cbn [reads fold_right] in *; [exact I|]. split.
  - intros buf Hb. now apply (read_into_exact K (len pre) buf pre d (fold_right String.append post t)).
  - rewrite <- str_length_app. apply (IH K (pre +++ d) post). now rewrite app_assoc_s.
Qed.

Lemma write_at_pre s off d : (off <= len s)%nat ->
  write_at s off d = str_take off s +++ d +++ str_drop (off + len d) s.
Proof. intros H. unfold write_at. destruct (Nat.leb_spec off (len s)); [reflexivity|lia]. Qed.

Lemma write_at_len s off d : (off + len d <= len s)%nat -> len (write_at s off d) = len s.
Proof.
  intros H. rewrite write_at_pre by lia.
  rewrite !str_length_app, len_take, len_drop by lia. lia.
Qed.

Lemma write_at_app s t off d : (off + len d <= len s)%nat ->
  write_at (s +++ t) off d = write_at s off d +++ t.
Proof.
  intros H. rewrite !write_at_pre by (rewrite ?str_length_app; lia).
  rewrite take_app_le, drop_app_le by lia. now rewrite !app_assoc_s.
Qed.

Lemma write_at_mid pre old post d : len old = len d ->
  write_at (pre +++ old +++ post) (len pre) d = pre +++ d +++ post.
Proof.
  intros H. rewrite write_at_pre by (rewrite !str_length_app; lia).
  rewrite take_app_exact. f_equal. f_equal.
  rewrite <- H, <- str_length_app, <- app_assoc_s. apply drop_app_exact.
Qed.
Lemma write_at_field pre p old post d off : len old = len d -> off = (len pre + len p)%nat ->
  write_at (pre +++ p +++ old +++ post) off d = pre +++ p +++ d +++ post.
Proof. intros H ->. rewrite <- str_length_app, <- !(app_assoc_s pre p). now apply write_at_mid. Qed.

(* the operations completed before the i-th one that satisfies p; Disk.take_before and
   Meta.mtake_before are this function at their own "is a call of kind s" test ([take_before_is_gen]
   below, [mtake_before_is_gen] in MetaProofs, which comes after Model.Meta) *)
Section TakeBefore.
Context {T : Type} (p : T -> bool).

Fixpoint take_before_gen (i : nat) (ops : list T) : list T :=
  match ops with
  | [] => []
  | o :: r =>
      if p o then match i with O => [] | S O => [] | S k => o :: take_before_gen k r end
      else o :: take_before_gen i r
  end.

Lemma take_before_gen_prefix ops : forall i, exists rest, ops = take_before_gen i ops ++ rest.
Proof.
  induction ops as [|o r IH]; intros i; cbn [take_before_gen]; [now exists []|].
  destruct (p o); [destruct i as [|[|k]]; [now exists (o :: r)..|]|];
    (destruct (IH (S k)) as [rest Hr] || destruct (IH i) as [rest Hr]);
    exists rest; cbn [app]; now f_equal.
Qed.

Lemma take_before_gen_complete ops : forall i,
  (length (filter p ops) < i)%nat -> take_before_gen i ops = ops.
Proof.
  induction ops as [|o r IH]; intros i Hc; cbn [take_before_gen filter] in *; [reflexivity|].
  destruct (p o).
  - cbn [length] in Hc. destruct i as [|[|k]]; try lia. f_equal. apply IH. lia.
  - f_equal. now apply IH.
Qed.

Lemma take_before_gen_stops ops : forall i, (1 <= i)%nat -> (i <= length (filter p ops))%nat ->
  exists o rest, ops = take_before_gen i ops ++ o :: rest /\ p o = true /\
                 length (filter p (take_before_gen i ops)) = (i - 1)%nat.
Proof.
  induction ops as [|o r IH]; intros i H1 Hc; cbn [take_before_gen filter] in *; [cbn in Hc; lia|].
  destruct (p o) eqn:E.
  - cbn [length] in Hc. destruct i as [|[|k]]; [lia|now exists o, r|].
    destruct (IH (S k)) as (o' & rest & Hr & Ho & Hn); [lia..|].
    exists o', rest. cbn [app filter]. rewrite E. cbn [length]. repeat split; [now f_equal|exact Ho|lia].
  - destruct (IH i H1 Hc) as (o' & rest & Hr & Ho & Hn).
    exists o', rest. cbn [app filter]. rewrite E. repeat split; [now f_equal|exact Ho|exact Hn].
Qed.
End TakeBefore.

Lemma take_before_is_gen s ops : forall i, take_before s i ops = take_before_gen (is_sc s) i ops.
Proof.
  induction ops as [|o r IH]; intros i; cbn [take_before take_before_gen]; [reflexivity|].
  destruct (is_sc s o); [destruct i as [|[|k]]|]; now rewrite ?IH.
Qed.

Lemma take_before_prefix : forall s ops i, exists rest, ops = take_before s i ops ++ rest.
Proof. intros s ops i. rewrite take_before_is_gen. apply take_before_gen_prefix. Qed.

Lemma take_before_complete : forall s ops i, (count_sc s ops < i)%nat -> take_before s i ops = ops.
Proof. intros s ops i H. rewrite take_before_is_gen. now apply take_before_gen_complete. Qed.

Lemma take_before_stops : forall s ops i, (1 <= i)%nat -> (i <= count_sc s ops)%nat ->
  exists o rest, ops = take_before s i ops ++ o :: rest /\ is_sc s o = true /\
                 count_sc s (take_before s i ops) = (i - 1)%nat.
Proof. intros s ops i H1 Hc. rewrite take_before_is_gen. exact (take_before_gen_stops (is_sc s) ops i H1 Hc). Qed.

(* P holds of the state after every prefix of a trace: a crash state is such a state
   ([tr = p ++ rest] is CrashFrame's [lprefix p tr]) *)
Section Prefixes.
Context {St Op : Type} (step : St -> Op -> St).

Definition all_prefixes (s : St) (tr : list Op) (P : St -> Prop) : Prop :=
  forall p rest, tr = p ++ rest -> P (fold_left step p s).

Lemma all_prefixes_nil s (P : St -> Prop) : P s -> all_prefixes s [] P.
Proof. intros H p rest E. symmetry in E. apply app_eq_nil in E. destruct E as [-> _]. exact H. Qed.

Lemma all_prefixes_cons s o tr (P : St -> Prop) :
  P s -> all_prefixes (step s o) tr P -> all_prefixes s (o :: tr) P.
Proof.
  intros H0 H p rest E. destruct p as [|o' p]; [exact H0|].
  injection E as <- E. now apply (H p rest).
Qed.

Lemma all_prefixes_whole s tr (P : St -> Prop) : all_prefixes s tr P -> P (fold_left step tr s).
Proof. intros H. apply (H tr []). now rewrite app_nil_r. Qed.

Lemma all_prefixes_app s a b (P : St -> Prop) :
  all_prefixes s a P -> all_prefixes (fold_left step a s) b P -> all_prefixes s (a ++ b) P.
Proof.
  intros Ha Hb p rest E. apply app_eq_app in E. destruct E as [l [[E1 E2]|[E1 E2]]].
  - now apply (Ha p l).
  - subst p. rewrite fold_left_app. now apply (Hb l rest).
Qed.

Lemma all_prefixes_snoc s tr o (P : St -> Prop) :
  all_prefixes s tr P -> P (step (fold_left step tr s) o) -> all_prefixes s (tr ++ [o]) P.
Proof.
  intros H Ho. apply all_prefixes_app; [exact H|].
  apply all_prefixes_cons; [now apply all_prefixes_whole|now apply all_prefixes_nil].
Qed.

Lemma all_prefixes_impl s tr (P Q : St -> Prop) :
  (forall g, P g -> Q g) -> all_prefixes s tr P -> all_prefixes s tr Q.
Proof. intros HPQ H p rest E. apply HPQ. now apply (H p rest). Qed.

Lemma all_prefixes_stable (ok : Op -> Prop) (P : St -> Prop) :
  (forall g o, ok o -> P g -> P (step g o)) ->
  forall tr s, Forall ok tr -> P s -> all_prefixes s tr P.
Proof.
  intros Hstep. induction tr as [|o tr IH]; intros s Hok Hs; [now apply all_prefixes_nil|].
  apply Forall_cons_iff in Hok. destruct Hok as [Ho Ht].
  apply all_prefixes_cons; [exact Hs|]. apply IH; [exact Ht|now apply Hstep].
Qed.
End Prefixes.
