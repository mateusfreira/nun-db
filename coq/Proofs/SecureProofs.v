(* C08: secure ($$) keys are invisible and immutable to
   non-administrators.  Two-run noninterference by the projection ("erasure")
   technique: a non-administrator's step commutes with every projection of the
   state that forgets (part of) the content of secret keys. *)
From NunDB Require Import Model.Base Model.Pending Model.Parse Model.Node Proofs.ListLemmas Proofs.AssocLemmas Proofs.StrLemmas Proofs.NodeLemmas Proofs.DbProofs Proofs.Footprint.
Local Open Scope Z_scope.

(* keys whose CONTENT must not influence a non-administrator.  $$token, $$user_* and $$permission_$* are
   left out: use-db compares the first two with what the client sends and [has_permission] reads the
   third for every session *)
Definition secret_key (k : str) : bool :=
  starts_with k "$$" && negb (String.eqb k "$$token") &&
  negb (starts_with k "$$user_") && negb (starts_with k "$$permission_$").

(* two values equal except possibly for the text *)
Definition same_meta (a b : value) : Prop :=
  v_ver a = v_ver b /\ v_opp a = v_opp b /\ v_st a = v_st b /\ v_vaddr a = v_vaddr b /\ v_kaddr a = v_kaddr b.

Definition low_eq_map (m1 m2 : list (str * value)) : Prop :=
  Forall2 (fun a b => fst a = fst b /\
                      (if secret_key (fst a) then same_meta (snd a) (snd b) else snd a = snd b)) m1 m2.

Definition low_eq_db (d1 d2 : db) : Prop :=
  low_eq_map (d_map d1) (d_map d2) /\ d_watch d1 = d_watch d2 /\ d_conn d1 = d_conn d2 /\
  d_id d1 = d_id d2 /\ d_strat d1 = d_strat d2.

Definition low_eq (n1 n2 : node) : Prop :=
  Forall2 (fun a b => fst a = fst b /\ low_eq_db (snd a) (snd b)) (n_dbs n1) (n_dbs n2) /\
  n_sess n1 = n_sess n2 /\ n_role n1 = n_role n2 /\ n_clock n1 = n_clock n2 /\
  n_user n1 = n_user n2 /\ n_pwd n1 = n_pwd n2 /\ n_addr n1 = n_addr n2 /\ n_pid n1 = n_pid n2 /\
  n_repl n1 = n_repl n2 /\ n_sup n1 = n_sup n2 /\ n_snap n1 = n_snap n2 /\
  n_pending n1 = n_pending n2 /\ n_idmap n1 = n_idmap n2 /\ n_members n1 = n_members n2.

Lemma nonsys_nonsecret k : starts_with k "$$" = false -> secret_key k = false.
Proof. intros H. unfold secret_key. now rewrite H. Qed.

Lemma token_nonsecret : secret_key "$$token" = false.
Proof. reflexivity. Qed.

Lemma user_nonsecret u : secret_key ("$$user_" +++ u) = false.
Proof. unfold secret_key. cbn. reflexivity. Qed.

Lemma permission_nonsecret u : secret_key ("$$permission_$" +++ u) = false.
Proof. unfold secret_key. cbn. reflexivity. Qed.

Lemma conflicts_pattern_nonsys k x :
  pattern_match k ("$conflicts_" +++ x +++ "*") = true -> starts_with k "$$" = false.
Proof.
  unfold pattern_match.
  replace (ends_with ("$conflicts_" +++ x +++ "*") "*") with true
    by (symmetry; apply ends_with_spec; exists ("$conflicts_" +++ x); reflexivity).
  intros H. apply starts_with_spec in H. destruct H as [r ->]. reflexivity.
Qed.

Lemma conflicts_pat_nonsys key k :
  pattern_match k (if String.eqb key "" then "$conflicts_*" else "$conflicts_" +++ key +++ "_*") = true ->
  starts_with k "$$" = false.
Proof.
  destruct (String.eqb key "").
  - apply (conflicts_pattern_nonsys _ "").
  - intros H. apply (conflicts_pattern_nonsys _ (key +++ "_")).
    replace ("$conflicts_" +++ (key +++ "_") +++ "*") with ("$conflicts_" +++ key +++ "_*"); auto.
    now rewrite app_assoc_s.
Qed.

(* the prefix test of list_conflicts_keys selects only keys that start with "$c" *)
Lemma conflicts_prefix_nonsys key k :
  starts_with k (if String.eqb key "" then "$conflicts_" else "$conflicts_" +++ key +++ "_") = true ->
  starts_with k "$$" = false.
Proof.
  destruct (String.eqb key ""); intros H; apply starts_with_spec in H; destruct H as [r ->]; reflexivity.
Qed.

Lemma list_conflicts_keys_nonsys d key k :
  In k (list_conflicts_keys d key) -> starts_with k "$$" = false.
Proof. intros H. eapply conflicts_prefix_nonsys, list_conflicts_keys_in, H. Qed.

Lemma n_dbs_send n c m : n_dbs (send n c m) = n_dbs n.
Proof. exact (NodeLemmas.n_dbs_send n c m). Qed.
Lemma n_dbs_replicate_web n m : n_dbs (replicate_web n m) = n_dbs n.
Proof. exact (NodeLemmas.n_dbs_replicate_web n m). Qed.
Lemma n_dbs_send_to_primary n m : n_dbs (send_to_primary n m) = n_dbs n.
Proof. exact (NodeLemmas.n_dbs_send_to_primary n m). Qed.

(* A step of a non-administrator commutes with every projection of the state that leaves
   non-secret keys alone. *)
Section Proj.
Variable pm : list (str * value) -> list (str * value).
(* the replication queue has a projection of its own only for [addq] ([low_eq_upto]: queues equal
   after a prefix each); elsewhere it is the identity *)
Variable pr : list str -> list str.
Hypothesis proj_get : forall k m, secret_key k = false ->
  assoc_get String.eqb k (pm m) = assoc_get String.eqb k m.
Hypothesis proj_set : forall k v m, secret_key k = false ->
  assoc_set String.eqb k v (pm m) = pm (assoc_set String.eqb k v m).
Hypothesis proj_del : forall k m, secret_key k = false ->
  assoc_del String.eqb k (pm m) = pm (assoc_del String.eqb k m).
Hypothesis proj_filter : forall (Q : str * value -> bool) m,
  (forall kv, Q kv = true -> secret_key (fst kv) = false) -> filter Q (pm m) = filter Q m.
Hypothesis proj_snoc : forall l x, pr (l ++ [x]) = pr l ++ [x].

(* pd / pn: the projection lifted to a database / a node; _op, _res, _guard: to what set_value, handle
   and the guards return *)
Definition pd (d : db) : db := mkDb (pm (d_map d)) (d_watch d) (d_conn d) (d_id d) (d_strat d).
Definition pn (n : node) : node :=
  mkNode (map (fun p => (fst p, pd (snd p))) (n_dbs n)) (n_sess n) (n_role n) (n_clock n)
         (n_user n) (n_pwd n) (n_addr n) (n_pid n) (pr (n_repl n)) (n_sup n) (n_snap n)
         (n_pending n) (n_idmap n) (n_members n).
Definition pd_op (x : db * resp * list (nat * str)) : db * resp * list (nat * str) :=
  let '(d, r, m) := x in (pd d, r, m).
Definition pn_res (x : node * resp) : node * resp := (pn (fst x), snd x).

Lemma get_value_pd d k : secret_key k = false -> get_value (pd d) k = get_value d k.
Proof. intros H. unfold get_value, pd. cbn [d_map]. auto. Qed.

Lemma put_value_pd d k v : secret_key k = false -> put_value (pd d) k v = pd (put_value d k v).
Proof.
  intros H. unfold put_value, db_set_map, pd. cbn [d_map d_watch d_conn d_id d_strat].
  now rewrite proj_set.
Qed.

Lemma watchers_of_pd d k : watchers_of (pd d) k = watchers_of d k.
Proof. reflexivity. Qed.

Lemma notify_msgs_pd d k v ver : notify_msgs (pd d) k v ver = notify_msgs d k v ver.
Proof. reflexivity. Qed.

Lemma set_value_pd d ch : secret_key (c_key ch) = false -> set_value (pd d) ch = pd_op (set_value d ch).
Proof.
  intros H. unfold set_value. rewrite get_value_pd by auto.
  destruct (get_value d (c_key ch)) as [old|]; cbv zeta.
  - destruct (_ && _); cbn [pd_op]; auto.
    rewrite put_value_pd by auto. now rewrite notify_msgs_pd.
  - cbn [pd_op]. rewrite put_value_pd by auto. now rewrite notify_msgs_pd.
Qed.

Lemma remove_value_pd d k : secret_key k = false -> remove_value (pd d) k = pd_op (remove_value d k).
Proof.
  intros H. unfold remove_value. destruct (String.eqb k "$$token"); auto.
  rewrite get_value_pd by auto. cbv zeta. cbn [pd_op]. rewrite watchers_of_pd.
  destruct (get_value d k) as [v|]; auto.
  destruct (v_st v); try (now rewrite put_value_pd by auto).
  unfold db_set_map, pd. cbn [d_map d_watch d_conn d_id d_strat]. now rewrite proj_del.
Qed.

Lemma inc_value_pd d k inc opp : secret_key k = false ->
  inc_value (pd d) k inc opp = pd_op (inc_value d k inc opp).
Proof.
  intros H. unfold inc_value. rewrite get_value_pd by auto. cbv zeta.
  destruct (parse_i32 _); auto.
  destruct (_ && _); auto. cbn [pd_op]. rewrite put_value_pd by auto. now rewrite notify_msgs_pd.
Qed.

Lemma list_keys_pd_nonsys d p : list_keys (pd d) p false = list_keys d p false.
Proof.
  unfold list_keys. cbn [pd d_map]. rewrite proj_filter; auto.
  intros kv H. apply nonsys_nonsecret.
  apply Bool.andb_true_iff in H. destruct H as [H _].
  apply Bool.andb_true_iff in H. destruct H as [H _]. cbn in H.
  now apply Bool.negb_true_iff in H.
Qed.

Lemma list_conflicts_keys_pd d key : list_conflicts_keys (pd d) key = list_conflicts_keys d key.
Proof.
  unfold list_conflicts_keys. cbn [pd d_map]. rewrite proj_filter; auto.
  intros kv H. apply nonsys_nonsecret.
  apply Bool.andb_true_iff in H. destruct H as [_ H].
  eapply conflicts_prefix_nonsys; eauto.
Qed.

Lemma has_pending_conflict_pd d key : has_pending_conflict (pd d) key = has_pending_conflict d key.
Proof.
  unfold has_pending_conflict. rewrite list_conflicts_keys_pd.
  apply existsb_ext_in. intros k Hk. rewrite get_value_pd; auto.
  apply nonsys_nonsecret. eapply list_conflicts_keys_nonsys; eauto.
Qed.

Lemma watch_key_pd d k c : watch_key (pd d) k c = pd (watch_key d k c).
Proof. reflexivity. Qed.

Lemma unwatch_key_pd d k c : unwatch_key (pd d) k c = pd (unwatch_key d k c).
Proof. reflexivity. Qed.

Lemma unwatch_all_pd d c : unwatch_all (pd d) c = pd (unwatch_all d c).
Proof.
  unfold unwatch_all. change (d_watch (pd d)) with (d_watch d).
  generalize (map fst (d_watch d)). intros l. revert d.
  induction l as [|k l IH]; intros d; cbn [fold_left]; auto.
  rewrite unwatch_key_pd. apply IH.
Qed.

Lemma get_key_value_new_pd d k : secret_key k = false ->
  get_key_value_new (pd d) k = get_key_value_new d k.
Proof. intros H. unfold get_key_value_new. now rewrite get_value_pd. Qed.

Lemma get_db_pn n x : get_db (pn n) x = option_map pd (get_db n x).
Proof.
  unfold get_db, pn. cbn [n_dbs].
  induction (n_dbs n) as [|[k d] l IH]; cbn [map assoc_get fst snd option_map]; auto.
  destruct (String.eqb x k); auto.
Qed.

Lemma put_db_pn n x d : put_db (pn n) x (pd d) = pn (put_db n x d).
Proof.
  unfold put_db, n_set_dbs, pn.
  cbn [n_dbs n_sess n_role n_clock n_user n_pwd n_addr n_pid n_repl n_sup n_snap n_pending n_idmap n_members].
  f_equal.
  induction (n_dbs n) as [|[k d0] l IH]; cbn [map assoc_set fst snd]; auto.
  destruct (String.eqb x k); cbn [map fst snd]; auto. now rewrite IH.
Qed.

Lemma get_sess_pn n c : get_sess (pn n) c = get_sess n c.
Proof. reflexivity. Qed.
Lemma put_sess_pn n c s : put_sess (pn n) c s = pn (put_sess n c s).
Proof. reflexivity. Qed.
Lemma send_pn n c m : send (pn n) c m = pn (send n c m).
Proof. reflexivity. Qed.
Lemma sends_pn n l : sends (pn n) l = pn (sends n l).
Proof.
  unfold sends. revert n. induction l as [|[c m] l IH]; intros n; cbn [fold_left fst snd]; auto.
  rewrite send_pn. apply IH.
Qed.
Lemma tick_pn n : tick (pn n) = (pn (fst (tick n)), snd (tick n)).
Proof. reflexivity. Qed.
Lemma is_primary_pn n : is_primary (pn n) = is_primary n.
Proof. reflexivity. Qed.
Lemma is_eligible_pn n : is_eligible (pn n) = is_eligible n.
Proof. reflexivity. Qed.
Lemma send_to_primary_pn n m : send_to_primary (pn n) m = pn (send_to_primary n m).
Proof. reflexivity. Qed.
Lemma replicate_web_pn n m : replicate_web (pn n) m = pn (replicate_web n m).
Proof.
  unfold replicate_web, tick, n_set_repl, n_set_clock, pn.
  cbn [n_dbs n_sess n_role n_clock n_user n_pwd n_addr n_pid n_repl n_sup n_snap n_pending n_idmap n_members].
  now rewrite proj_snoc.
Qed.
Lemma replicate_change_pn n dbn ch : replicate_change (pn n) dbn ch = pn (replicate_change n dbn ch).
Proof.
  unfold replicate_change. rewrite is_primary_pn, is_eligible_pn. cbv zeta.
  destruct (_ || _); [apply replicate_web_pn | apply send_to_primary_pn].
Qed.
Lemma has_db_pn n x : has_db (pn n) x = has_db n x.
Proof. unfold has_db. rewrite get_db_pn. now destruct (get_db n x). Qed.

Lemma apply_change_pn n dbn ch : secret_key (c_key ch) = false ->
  apply_change (pn n) dbn ch = pn_res (apply_change n dbn ch).
Proof.
  intros H. unfold apply_change. rewrite get_db_pn.
  destruct (get_db n dbn) as [d|] eqn:Ed; cbn [option_map]; [|reflexivity].
  rewrite set_value_pd by auto.
  destruct (set_value d ch) as [[d1 r] msgs] eqn:Es. cbn [pd_op].
  destruct r; try (unfold pn_res; cbn [fst snd]; rewrite <- sends_pn, <- put_db_pn; reflexivity).
  destruct (set_value_refused _ _ _ _ _ Es) as (_ & _ & o & _ & [= -> _ _ -> -> _]); [discriminate|].
  clear Es. change (d_strat (pd d)) with (d_strat d). destruct (d_strat d).
  - reflexivity.
  - destruct (N.ltb _ _); [|reflexivity].
    rewrite tick_pn. destruct (tick n) as [n1 id]. cbn [fst snd].
    rewrite set_value_pd by auto.
    destruct (set_value d _) as [[d2 r2] msgs2]. cbn [pd_op].
    unfold pn_res; cbn [fst snd]; rewrite <- sends_pn, <- put_db_pn; reflexivity.
  - change (has_arbiter (pd d)) with (has_arbiter d).
    destruct (negb (has_arbiter d)); [reflexivity|].
    rewrite put_value_pd by auto. cbv zeta.
    rewrite list_conflicts_keys_pd.
    match goal with |- context [match ?X with Some _ => _ | None => _ end] =>
      destruct X as [[ook cver]|] end.
    + change (arbiter_msgs (pd ?d) ?m) with (arbiter_msgs d m).
      rewrite put_db_pn, sends_pn, tick_pn.
      match goal with |- context [tick ?X] => destruct (tick X) as [n2 id] end. cbn [fst snd].
      rewrite set_value_pd by (apply nonsys_nonsecret; reflexivity).
      match goal with |- context [set_value ?X ?Y] => destruct (set_value X Y) as [[d3 r3] msgs3] end.
      cbn [pd_op]. rewrite put_db_pn, sends_pn, replicate_change_pn. reflexivity.
    + (* [info] is never [None]: ArbiterHttpProofs.apply_change_info *)
      unfold pn_res; cbn [fst snd]. now rewrite put_db_pn.
Qed.

Lemma set_key_value_pn n dbn key value ver : secret_key key = false ->
  set_key_value (pn n) dbn key value ver = pn_res (set_key_value n dbn key value ver).
Proof.
  intros H. unfold set_key_value. rewrite tick_pn. destruct (tick n) as [n1 id]. cbn [fst snd].
  now apply apply_change_pn.
Qed.

Lemma set_connection_counter_pn n dbn :
  set_connection_counter (pn n) dbn = pn (set_connection_counter n dbn).
Proof.
  unfold set_connection_counter. rewrite get_db_pn.
  destruct (get_db n dbn) as [d|]; cbn [option_map]; auto.
  rewrite set_key_value_pn by reflexivity. reflexivity.
Qed.

Lemma resolve_conflict_pn n dbn ch : secret_key (c_key ch) = false ->
  resolve_conflict (pn n) dbn ch = pn_res (resolve_conflict n dbn ch).
Proof.
  intros H. unfold resolve_conflict. rewrite get_db_pn.
  destruct (get_db n dbn) as [d|]; cbn [option_map]; [|reflexivity].
  rewrite tick_pn. destruct (tick n) as [n1 id]. cbn [fst snd]. cbv zeta.
  rewrite set_value_pd by (apply nonsys_nonsecret; reflexivity).
  match goal with |- context [set_value d ?Y] => destruct (set_value d Y) as [[d1 r1] msgs1] end.
  cbn [pd_op]. rewrite has_pending_conflict_pd.
  rewrite put_db_pn, sends_pn, replicate_change_pn.
  rewrite set_value_pd by (destruct (has_pending_conflict d1 (c_key ch)); exact H).
  match goal with |- context [set_value d1 ?Y] => destruct (set_value d1 Y) as [[d2 r2] msgs2] end.
  cbn [pd_op]. rewrite put_db_pn, sends_pn. reflexivity.
Qed.

Lemma client_left_pn n c : client_left (pn n) c = pn (client_left n c).
Proof.
  unfold client_left. rewrite get_sess_pn. destruct (s_db (get_sess n c)) as [dbn|]; auto.
  rewrite get_db_pn. destruct (get_db n dbn) as [d|]; cbn [option_map]; auto.
  change (db_set_conn (pd d) (d_conn (pd d) - 1)) with (pd (db_set_conn d (d_conn d - 1))).
  rewrite put_db_pn. apply set_connection_counter_pn.
Qed.

Lemma reg_step_pn dbn n k : starts_with k "$$" = false -> reg_step dbn (pn n) k = pn (reg_step dbn n k).
Proof.
  intros Hk. apply nonsys_nonsecret in Hk. unfold reg_step.
  rewrite get_db_pn. destruct (get_db n dbn) as [dd|]; cbn [option_map]; auto.
  rewrite get_value_pd by exact Hk.
  destruct (get_value dd k) as [v|]; auto.
  destruct (starts_with (v_val v) "resolved").
  - rewrite remove_value_pd by exact Hk.
    destruct (remove_value dd k) as [[dd' r] msgs]. cbn [pd_op].
    now rewrite put_db_pn, sends_pn.
  - change (arbiter_msgs (pd dd) (v_val v)) with (arbiter_msgs dd (v_val v)). apply sends_pn.
Qed.

Lemma register_arbiter_pn n dbn c : register_arbiter (pn n) dbn c = pn (register_arbiter n dbn c).
Proof.
  rewrite !register_arbiter_eq, get_db_pn.
  destruct (get_db n dbn) as [d|]; cbn [option_map]; auto. cbv zeta.
  rewrite watch_key_pd, list_conflicts_keys_pd, put_db_pn.
  generalize (put_db n dbn (watch_key d "$conflicts" c)).
  assert (F : Forall (fun k => starts_with k "$$" = false) (list_conflicts_keys (watch_key d "$conflicts" c) ""))
    by (apply Forall_forall; intros k; apply list_conflicts_keys_nonsys).
  induction F as [|k l Hk _ IH]; intros m; cbn [fold_left]; auto.
  rewrite reg_step_pn by exact Hk. apply IH.
Qed.

Definition pn_guard (g : guard) : guard :=
  match g with GGo dbn d => GGo dbn (pd d) | GStop n r => GStop (pn n) r end.

Lemma has_permission_pn n c key d req :
  has_permission (pn n) c key (pd d) req = has_permission n c key d req.
Proof.
  unfold has_permission. rewrite get_sess_pn. destruct (starts_with key "$$"); auto.
  cbv zeta. now rewrite get_value_pd by apply permission_nonsecret.
Qed.

Lemma guard_db_name_pn n c dbn key req :
  guard_db_name (pn n) c dbn key req = pn_guard (guard_db_name n c dbn key req).
Proof.
  unfold guard_db_name. rewrite get_db_pn.
  destruct (get_db n dbn) as [d|]; cbn [option_map]; [|reflexivity].
  destruct key as [k|]; [|reflexivity].
  rewrite has_permission_pn. now destruct (has_permission n c k d req).
Qed.

Lemma guard_safe_pn n c key req : guard_safe (pn n) c key req = pn_guard (guard_safe n c key req).
Proof.
  unfold guard_safe. rewrite get_sess_pn.
  destruct (_ && _); [reflexivity|].
  destruct (s_db (get_sess n c)); [apply guard_db_name_pn | reflexivity].
Qed.

Lemma guard_db_pn n c : guard_db (pn n) c = pn_guard (guard_db n c).
Proof.
  unfold guard_db. rewrite get_sess_pn.
  destruct (s_db (get_sess n c)); [apply guard_db_name_pn | reflexivity].
Qed.

Lemma handle_pn n c rq : s_auth (get_sess n c) = false -> handle (pn n) c rq = pn_res (handle n c rq).
Proof.
  intros Ha.
  destruct rq; unfold handle; cbv beta iota zeta; rewrite ?get_sess_pn, ?Ha; cbn [negb]; try reflexivity;
    rewrite ?guard_safe_pn, ?guard_db_pn.
  - (* set-permissions *)
    apply guard_safe_elim; [intros dbn d _ _ Hk; discriminate (Hk Ha) | reflexivity].
  - (* get *)
    apply guard_safe_elim; [intros dbn d _ _ Hk | reflexivity]. cbn [pn_guard].
    rewrite get_key_value_new_pd by auto using nonsys_nonsecret.
    destruct (get_key_value_new d key). now rewrite send_pn.
  - (* get-safe *)
    apply guard_safe_elim; [intros dbn d _ _ Hk | reflexivity]. cbn [pn_guard].
    rewrite get_key_value_new_pd by auto using nonsys_nonsecret.
    destruct (get_key_value_new d key). now rewrite send_pn.
  - (* remove *)
    apply guard_safe_elim; [intros dbn d _ _ Hk | reflexivity]. cbn [pn_guard].
    rewrite remove_value_pd by auto using nonsys_nonsecret.
    destruct (remove_value d key) as [[d' r] msgs]. cbn [pd_op]. rewrite put_db_pn, sends_pn.
    destruct r; try reflexivity. rewrite is_primary_pn.
    destruct (is_primary (sends (put_db n dbn d') msgs)); reflexivity.
  - (* set *)
    apply guard_safe_elim; [intros dbn d _ _ Hk | reflexivity]. cbn [pn_guard].
    rewrite set_key_value_pn by auto using nonsys_nonsecret.
    destruct (set_key_value n dbn key value version) as [n1 r]. unfold pn_res; cbn [fst snd].
    rewrite is_primary_pn. destruct (is_primary n1); reflexivity.
  - (* increment *)
    apply guard_safe_elim; [intros dbn d _ _ Hk | reflexivity]. cbn [pn_guard].
    rewrite is_primary_pn. destruct (is_primary n).
    + rewrite tick_pn. destruct (tick n) as [n1 id]. cbn [fst snd].
      rewrite inc_value_pd by auto using nonsys_nonsecret.
      destruct (inc_value d key inc id) as [[d' r] msgs]. cbn [pd_op].
      now rewrite put_db_pn, sends_pn.
    + now rewrite send_to_primary_pn.
  - (* watch *)
    apply guard_safe_elim; [intros dbn d _ _ _ | reflexivity]. cbn [pn_guard].
    now rewrite watch_key_pd, put_db_pn.
  - (* unwatch *)
    apply guard_db_elim; [intros dbn d _ _ | reflexivity]. cbn [pn_guard].
    now rewrite unwatch_key_pd, put_db_pn.
  - (* unwatch-all *)
    apply guard_db_elim; [intros dbn d _ _ | reflexivity]. cbn [pn_guard].
    now rewrite unwatch_all_pd, put_db_pn.
  - (* create-user *)
    apply guard_safe_elim; [intros dbn d _ _ Hk; discriminate (Hk Ha) | reflexivity].
  - (* use-db *)
    rewrite get_db_pn. destruct (get_db n name) as [d|]; cbn [option_map]; [|reflexivity].
    rewrite get_value_pd by (destruct user_name; [apply user_nonsecret | apply token_nonsecret]).
    match goal with |- context [if ?X then _ else _] => destruct X end; [|reflexivity].
    unfold release_previous. rewrite client_left_pn, get_sess_pn, put_sess_pn, get_db_pn.
    match goal with |- context [get_db ?X name] => destruct (get_db X name) as [d1|] end;
      cbn [option_map]; [|reflexivity].
    change (db_set_conn (pd d1) (d_conn (pd d1) + 1)) with (pd (db_set_conn d1 (d_conn d1 + 1))).
    now rewrite put_db_pn, set_connection_counter_pn.
  - (* keys *)
    apply guard_db_elim; [intros dbn d _ _ | reflexivity]. cbn [pn_guard].
    now rewrite list_keys_pd_nonsys, send_pn.
  - (* arbiter *)
    apply guard_safe_elim; [intros dbn d _ _ _ | reflexivity]. cbn [pn_guard].
    now rewrite register_arbiter_pn.
  - (* resolve *)
    apply guard_safe_elim; [intros dbn d _ _ Hk | reflexivity]. cbn [pn_guard].
    rewrite is_primary_pn. destruct (is_primary n).
    + now rewrite resolve_conflict_pn by auto using nonsys_nonsecret.
    + now rewrite send_to_primary_pn.
Qed.

Lemma replicate_request_pn n rq seldb r :
  replicate_request (pn n) rq seldb r = pn_res (replicate_request n rq seldb r).
Proof.
  rewrite !replicate_request_eq.
  destruct r; try reflexivity;
    (destruct seldb as [nm|]; rewrite ?has_db_pn; [destruct (negb (has_db n nm)); [reflexivity|]|];
     (destruct (wire rq _); [rewrite replicate_web_pn|]; reflexivity)).
Qed.

Theorem step_pn n c line : s_auth (get_sess n c) = false ->
  step (pn n) c line = pn_res (step n c line).
Proof.
  intros Ha. rewrite !step_user by exact Ha. rewrite get_sess_pn.
  destruct (parse_request (trim_char nl line)) as [rq| |]; try reflexivity.
  destruct (is_rp rq); [apply replicate_request_pn|].
  rewrite handle_pn by exact Ha. destruct (handle n c rq) as [n1 r1]. apply replicate_request_pn.
Qed.

Lemma connect_pn n : connect (pn n) = (pn (fst (connect n)), snd (connect n)).
Proof. reflexivity. Qed.

(* disconnect commutes for every session, administrator or not *)
Lemma handle_unwatch_all_pn n c : handle (pn n) c RqUnWatchAll = pn_res (handle n c RqUnWatchAll).
Proof.
  unfold handle. rewrite guard_db_pn. destruct (guard_db n c); cbn [pn_guard]; auto.
  now rewrite unwatch_all_pd, put_db_pn.
Qed.

Lemma disconnect_pn n c : disconnect (pn n) c = pn (disconnect n c).
Proof.
  rewrite !disconnect_eq, handle_unwatch_all_pn. cbn [pn_res fst].
  apply client_left_pn.
Qed.

End Proj.

(* masking the text of secret keys: the projection behind [low_eq] *)
Definition mask_v (v : value) : value := mkV "" (v_ver v) (v_opp v) (v_st v) (v_vaddr v) (v_kaddr v).
Definition mask_kv (kv : str * value) : str * value :=
  if secret_key (fst kv) then (fst kv, mask_v (snd kv)) else kv.
Definition mask_map (m : list (str * value)) : list (str * value) := map mask_kv m.

Lemma fst_mask_kv kv : fst (mask_kv kv) = fst kv.
Proof. unfold mask_kv. now destruct (secret_key (fst kv)). Qed.

Lemma mask_kv_nonsecret kv : secret_key (fst kv) = false -> mask_kv kv = kv.
Proof. unfold mask_kv. now intros ->. Qed.

Lemma mask_kv_eq kv : mask_kv kv = (fst kv, snd (mask_kv kv)).
Proof. rewrite <- (fst_mask_kv kv). now destruct (mask_kv kv). Qed.

Lemma mask_get k m : secret_key k = false ->
  assoc_get String.eqb k (mask_map m) = assoc_get String.eqb k m.
Proof.
  intros Hk. induction m as [|[k' v] m IH]; cbn [mask_map map assoc_get]; auto.
  fold (mask_map m). rewrite (mask_kv_eq (k', v)). cbn [fst].
  destruct (String.eqb_spec k k') as [->|]; auto.
  now rewrite mask_kv_nonsecret.
Qed.

Lemma mask_set k v m : secret_key k = false ->
  assoc_set String.eqb k v (mask_map m) = mask_map (assoc_set String.eqb k v m).
Proof.
  intros Hk. induction m as [|[k' v'] m IH]; cbn [mask_map map assoc_set].
  - now rewrite mask_kv_nonsecret.
  - fold (mask_map m). rewrite (mask_kv_eq (k', v')). cbn [fst].
    destruct (String.eqb_spec k k') as [->|]; cbn [map].
    + now rewrite mask_kv_nonsecret.
    + fold (mask_map (assoc_set String.eqb k v m)). f_equal; [symmetry; apply mask_kv_eq | exact IH].
Qed.

Lemma mask_del k m : secret_key k = false ->
  assoc_del String.eqb k (mask_map m) = mask_map (assoc_del String.eqb k m).
Proof.
  intros Hk. induction m as [|[k' v'] m IH]; cbn [mask_map map assoc_del]; auto.
  fold (mask_map m). rewrite (mask_kv_eq (k', v')). cbn [fst].
  destruct (String.eqb_spec k k') as [->|]; auto.
  cbn [map]. fold (mask_map (assoc_del String.eqb k m)). f_equal; [symmetry; apply mask_kv_eq | exact IH].
Qed.

Lemma mask_filter (Q : str * value -> bool) m :
  (forall kv, Q kv = true -> secret_key (fst kv) = false) -> filter Q (mask_map m) = filter Q m.
Proof.
  intros HQ. induction m as [|kv m IH]; cbn [mask_map map filter]; auto.
  fold (mask_map m). rewrite IH.
  destruct (secret_key (fst kv)) eqn:E.
  - destruct (Q (mask_kv kv)) eqn:E1.
    { apply HQ in E1. rewrite fst_mask_kv in E1. congruence. }
    destruct (Q kv) eqn:E2; auto. apply HQ in E2. congruence.
  - now rewrite mask_kv_nonsecret.
Qed.

Lemma id_snoc (l : list str) x : id (l ++ [x]) = id l ++ [x].
Proof. reflexivity. Qed.

Definition mask_db := pd mask_map.
Definition mask_node := pn mask_map id.

Lemma mask_v_eq a b : same_meta a b <-> mask_v a = mask_v b.
Proof.
  destruct a, b. unfold same_meta, mask_v. cbn. split.
  - intros (-> & -> & -> & -> & ->). reflexivity.
  - intros [= -> -> -> -> ->]. auto.
Qed.

Lemma low_eq_map_mask m1 m2 : low_eq_map m1 m2 <-> mask_map m1 = mask_map m2.
Proof.
  apply Forall2_map_eq. intros [k1 v1] [k2 v2]. cbn [fst snd]. split.
  - intros [-> H]. unfold mask_kv. cbn [fst snd]. destruct (secret_key k2).
    + apply mask_v_eq in H. congruence.
    + congruence.
  - intros H. pose proof (f_equal fst H) as F. rewrite !fst_mask_kv in F. cbn [fst] in F. subst k2.
    split; auto. unfold mask_kv in H. cbn [fst snd] in H. destruct (secret_key k1).
    + apply mask_v_eq. congruence.
    + congruence.
Qed.

Lemma low_eq_db_mask d1 d2 : low_eq_db d1 d2 <-> mask_db d1 = mask_db d2.
Proof.
  destruct d1, d2. unfold low_eq_db, mask_db, pd. cbn. split.
  - intros (H & -> & -> & -> & ->). apply low_eq_map_mask in H. f_equal. exact H.
  - intros [= H -> -> -> ->]. apply low_eq_map_mask in H. auto.
Qed.

Lemma low_eq_mask n1 n2 : low_eq n1 n2 <-> mask_node n1 = mask_node n2.
Proof.
  assert (F : forall l1 l2 : list (str * db),
             Forall2 (fun a b => fst a = fst b /\ low_eq_db (snd a) (snd b)) l1 l2 <->
             map (fun p : str * db => (fst p, pd mask_map (snd p))) l1 =
             map (fun p : str * db => (fst p, pd mask_map (snd p))) l2).
  { apply Forall2_map_eq. intros [k1 d1] [k2 d2]. cbn [fst snd]. split.
    - intros [-> H]. apply low_eq_db_mask in H. unfold mask_db in H. f_equal. exact H.
    - intros E. pose proof (f_equal fst E) as E1. pose proof (f_equal snd E) as E2.
      cbn [fst snd] in E1, E2. split; auto. apply low_eq_db_mask. exact E2. }
  destruct n1, n2. unfold low_eq, mask_node, pn, id. cbn. split.
  - intros (H & -> & -> & -> & -> & -> & -> & -> & -> & -> & -> & -> & -> & ->).
    apply F in H. f_equal. exact H.
  - intros [= H -> -> -> -> -> -> -> -> -> -> -> -> ->]. apply F in H. repeat split; auto.
Qed.

Lemma low_eq_sess n1 n2 : low_eq n1 n2 -> n_sess n1 = n_sess n2.
Proof. intros H. apply H. Qed.

Lemma mask_step n c line : s_auth (get_sess n c) = false ->
  step (mask_node n) c line = (mask_node (fst (step n c line)), snd (step n c line)).
Proof. apply (step_pn mask_map id mask_get mask_set mask_del mask_filter id_snoc). Qed.

(* erasing secret keys altogether: a coarser relation ([low_eq_vis_eq]), hence a stronger theorem (not
   even the existence, version or state of a secret key is visible to a non-administrator) *)
Definition nonsecret_kv (kv : str * value) : bool := negb (secret_key (fst kv)).
Definition erase_map (m : list (str * value)) : list (str * value) := filter nonsecret_kv m.
Definition erase_node := pn erase_map id.
Definition vis_eq (n1 n2 : node) : Prop := erase_node n1 = erase_node n2.

Ltac nskv := repeat match goal with |- context [nonsecret_kv (?a, ?b)] =>
                change (nonsecret_kv (a, b)) with (negb (secret_key a)) end.

Lemma erase_get k m : secret_key k = false ->
  assoc_get String.eqb k (erase_map m) = assoc_get String.eqb k m.
Proof.
  intros Hk. unfold erase_map. induction m as [|[k' v] m IH]; cbn [filter assoc_get]; auto. nskv.
  destruct (String.eqb_spec k k') as [->|].
  - rewrite Hk. cbn [negb assoc_get]. now rewrite String.eqb_refl.
  - destruct (secret_key k'); cbn [negb assoc_get]; auto.
    destruct (String.eqb_spec k k'); [contradiction|auto].
Qed.

Lemma erase_set k v m : secret_key k = false ->
  assoc_set String.eqb k v (erase_map m) = erase_map (assoc_set String.eqb k v m).
Proof.
  intros Hk. unfold erase_map. induction m as [|[k' v'] m IH]; cbn [filter assoc_set]; nskv.
  - now rewrite Hk.
  - destruct (String.eqb_spec k k') as [->|].
    + rewrite Hk. cbn [negb assoc_set filter]. rewrite String.eqb_refl. nskv. now rewrite Hk.
    + cbn [filter]. nskv.
      destruct (secret_key k'); cbn [negb assoc_set]; auto.
      destruct (String.eqb_spec k k'); [contradiction|]. now rewrite IH.
Qed.

Lemma erase_del k m : secret_key k = false ->
  assoc_del String.eqb k (erase_map m) = erase_map (assoc_del String.eqb k m).
Proof.
  intros Hk. unfold erase_map. induction m as [|[k' v'] m IH]; cbn [filter assoc_del]; auto. nskv.
  destruct (String.eqb_spec k k') as [->|].
  - rewrite Hk. cbn [negb assoc_del]. now rewrite String.eqb_refl.
  - cbn [filter]. nskv.
    destruct (secret_key k'); cbn [negb assoc_del]; auto.
    destruct (String.eqb_spec k k'); [contradiction|]. now rewrite IH.
Qed.

Lemma erase_filter (Q : str * value -> bool) m :
  (forall kv, Q kv = true -> secret_key (fst kv) = false) -> filter Q (erase_map m) = filter Q m.
Proof.
  intros HQ. unfold erase_map. induction m as [|kv m IH]; cbn [filter]; auto.
  unfold nonsecret_kv at 1.
  destruct (secret_key (fst kv)) eqn:E; cbn [negb filter].
  - destruct (Q kv) eqn:E2; auto. apply HQ in E2. congruence.
  - now rewrite IH.
Qed.

Lemma erase_step n c line : s_auth (get_sess n c) = false ->
  step (erase_node n) c line = (erase_node (fst (step n c line)), snd (step n c line)).
Proof. apply (step_pn erase_map id erase_get erase_set erase_del erase_filter id_snoc). Qed.

Lemma erase_mask_map m : erase_map (mask_map m) = erase_map m.
Proof.
  apply mask_filter. intros kv H. unfold nonsecret_kv in H. now apply Bool.negb_true_iff in H.
Qed.

Lemma erase_mask_node n : erase_node (mask_node n) = erase_node n.
Proof.
  unfold erase_node, mask_node, pn. cbn. f_equal. rewrite map_map. apply map_ext.
  intros [k d]. cbn [fst snd]. unfold pd. cbn. now rewrite erase_mask_map.
Qed.

Lemma low_eq_vis_eq n1 n2 : low_eq n1 n2 -> vis_eq n1 n2.
Proof.
  intros H. apply low_eq_mask in H. unfold vis_eq.
  rewrite <- (erase_mask_node n1), <- (erase_mask_node n2). now rewrite H.
Qed.

Lemma vis_eq_sess n1 n2 : vis_eq n1 n2 -> n_sess n1 = n_sess n2.
Proof. intros H. apply (f_equal n_sess) in H. exact H. Qed.

Inductive nev := EConnect | ECmd (c : nat) (line : str) | EDisconnect (c : nat).

Definition nstep (n : node) (e : nev) : node :=
  match e with
  | EConnect => fst (connect n)
  | ECmd c l => fst (step n c l)
  | EDisconnect c => disconnect n c
  end.
Definition nout (n : node) (e : nev) : resp :=
  match e with ECmd c l => snd (step n c l) | _ => ROk end.
Fixpoint nouts (n : node) (evs : list nev) : list resp :=
  match evs with [] => [] | e :: r => nout n e :: nouts (nstep n e) r end.

Definition ev_ok (n : node) (e : nev) : bool :=
  match e with ECmd c _ => negb (s_auth (get_sess n c)) | _ => true end.
(* boolean checker over a run: every command is issued by a session that is not
   (at that time) authenticated as administrator *)
Fixpoint nonadmin_run (n : node) (evs : list nev) : bool :=
  match evs with [] => true | e :: r => ev_ok n e && nonadmin_run (nstep n e) r end.

(* a projection that commutes with the events gives unwinding for "equal under f" *)
Section EvProj.
Variable f : node -> node.
Hypothesis f_sess : forall n, n_sess (f n) = n_sess n.
Hypothesis f_step : forall n c line, s_auth (get_sess n c) = false ->
  step (f n) c line = (f (fst (step n c line)), snd (step n c line)).
Hypothesis f_connect : forall n, fst (connect (f n)) = f (fst (connect n)).
Hypothesis f_disconnect : forall n c, disconnect (f n) c = f (disconnect n c).

Lemma ev_ok_proj n e : ev_ok (f n) e = ev_ok n e.
Proof. destruct e; cbn [ev_ok]; auto. unfold get_sess. now rewrite f_sess. Qed.

Lemma nstep_proj n e : ev_ok n e = true -> nstep (f n) e = f (nstep n e) /\ nout (f n) e = nout n e.
Proof.
  destruct e as [|c l|c]; cbn [ev_ok nstep nout]; intros H; auto.
  apply Bool.negb_true_iff in H. now rewrite f_step by exact H.
Qed.

Lemma ev_unwinding_proj n1 n2 e : f n1 = f n2 -> ev_ok n1 e = true ->
  nout n1 e = nout n2 e /\ f (nstep n1 e) = f (nstep n2 e).
Proof.
  intros E H. assert (H2 : ev_ok n2 e = true) by (rewrite <- ev_ok_proj, <- E, ev_ok_proj; exact H).
  destruct (nstep_proj n1 e H) as [A1 B1]. destruct (nstep_proj n2 e H2) as [A2 B2].
  rewrite <- B1, <- B2, <- A1, <- A2, E. auto.
Qed.
End EvProj.

(* a relation kept by every event is kept by every run, and makes the outputs equal *)
Section Seq.
Variable R : node -> node -> Prop.
Hypothesis R_sess : forall n1 n2, R n1 n2 -> n_sess n1 = n_sess n2.
Hypothesis R_ev : forall n1 n2 e, R n1 n2 -> ev_ok n1 e = true ->
  nout n1 e = nout n2 e /\ R (nstep n1 e) (nstep n2 e).

Lemma run_related evs : forall n1 n2, R n1 n2 -> nonadmin_run n1 evs = true ->
  nouts n1 evs = nouts n2 evs /\ R (fold_left nstep evs n1) (fold_left nstep evs n2) /\
  nonadmin_run n2 evs = true.
Proof.
  induction evs as [|e evs IH]; intros n1 n2 H Hr; cbn [nouts fold_left nonadmin_run] in *; auto.
  apply Bool.andb_true_iff in Hr. destruct Hr as [Hok Hr].
  destruct (R_ev n1 n2 e H Hok) as [Ho Hn].
  destruct (IH _ _ Hn Hr) as (A & B & C). repeat split; auto.
  - now rewrite Ho, A.
  - apply Bool.andb_true_iff. split; auto.
    destruct e; cbn [ev_ok] in *; auto. unfold get_sess in *. now rewrite <- (R_sess _ _ H).
Qed.

Lemma step_related n1 n2 c line : R n1 n2 -> s_auth (get_sess n1 c) = false ->
  let '(n1', r1) := step n1 c line in
  let '(n2', r2) := step n2 c line in
  r1 = r2 /\ R n1' n2'.
Proof.
  intros H Ha. destruct (R_ev n1 n2 (ECmd c line) H) as [A B]; [cbn [ev_ok]; now rewrite Ha|].
  cbn [nout nstep] in A, B. destruct (step n1 c line), (step n2 c line). auto.
Qed.
End Seq.

Lemma mask_sess n : n_sess (mask_node n) = n_sess n.
Proof. reflexivity. Qed.
Lemma erase_sess n : n_sess (erase_node n) = n_sess n.
Proof. reflexivity. Qed.

Lemma mask_disconnect n c : disconnect (mask_node n) c = mask_node (disconnect n c).
Proof. apply disconnect_pn; auto using mask_get, mask_set, mask_del, mask_filter, id_snoc. Qed.
Lemma erase_disconnect n c : disconnect (erase_node n) c = erase_node (disconnect n c).
Proof. apply disconnect_pn; auto using erase_get, erase_set, erase_del, erase_filter, id_snoc. Qed.

Lemma low_eq_ev n1 n2 e : low_eq n1 n2 -> ev_ok n1 e = true ->
  nout n1 e = nout n2 e /\ low_eq (nstep n1 e) (nstep n2 e).
Proof.
  intros H Hok. apply low_eq_mask in H.
  destruct (ev_unwinding_proj mask_node mask_sess mask_step
              (fun n => f_equal fst (connect_pn mask_map id n))
              mask_disconnect
              n1 n2 e H Hok) as [A B].
  split; auto. now apply low_eq_mask.
Qed.

Lemma vis_eq_ev n1 n2 e : vis_eq n1 n2 -> ev_ok n1 e = true ->
  nout n1 e = nout n2 e /\ vis_eq (nstep n1 e) (nstep n2 e).
Proof.
  intros H Hok.
  apply (ev_unwinding_proj erase_node erase_sess erase_step
              (fun n => f_equal fst (connect_pn erase_map id n))
              erase_disconnect
              n1 n2 e H Hok).
Qed.

Theorem step_unwinding n1 n2 c line :
  low_eq n1 n2 -> s_auth (get_sess n1 c) = false ->
  let '(n1', r1) := step n1 c line in
  let '(n2', r2) := step n2 c line in
  r1 = r2 /\ low_eq n1' n2'.
Proof. exact (step_related low_eq low_eq_ev n1 n2 c line). Qed.

Theorem step_unwinding_strong n1 n2 c line :
  vis_eq n1 n2 -> s_auth (get_sess n1 c) = false ->
  let '(n1', r1) := step n1 c line in
  let '(n2', r2) := step n2 c line in
  r1 = r2 /\ vis_eq n1' n2'.
Proof. exact (step_related vis_eq vis_eq_ev n1 n2 c line). Qed.

(* the same databases, each with the same "$$" keys *)
Definition nsec (n n' : node) : Prop :=
  forall x, match get_db n x, get_db n' x with
            | Some d, Some d' => dsec d d'
            | None, None => True
            | _, _ => False
            end.
Definition auths (n : node) : list bool := map s_auth (n_sess n).

Lemma auths_put_sess n c s : s_auth s = s_auth (get_sess n c) -> auths (put_sess n c s) = auths n.
Proof. apply (map_list_update s_auth). Qed.

Lemma auths_send n c m : auths (send n c m) = auths n.
Proof. unfold send. now apply auths_put_sess. Qed.

Definition is_auth_rq (rq : request) : bool := match rq with RqAuth _ _ => true | _ => false end.

Definition is_auth_line (line : str) : bool :=
  match parse_request (trim_char nl line) with POk rq => is_auth_rq rq | _ => false end.

Lemma nsec_dbs n n' : (forall x, get_db n' x = get_db n x) -> nsec n n'.
Proof. intros H x. rewrite H. destruct (get_db n x); auto. now intros k _. Qed.

Lemma nsec_trans a b c : nsec a b -> nsec b c -> nsec a c.
Proof.
  intros H1 H2 x. specialize (H1 x). specialize (H2 x).
  destruct (get_db a x), (get_db b x), (get_db c x); try contradiction; auto.
  intros k Hk. rewrite H2, H1; auto.
Qed.

Lemma nsec_put n n' x d d' : get_db n x = Some d -> dsec d d' ->
  (forall y, get_db n' y = if String.eqb y x then Some d' else get_db n y) -> nsec n n'.
Proof.
  intros G H D y. rewrite D. destruct (String.eqb_spec y x) as [->|].
  - now rewrite G.
  - destruct (get_db n y); auto. now intros k _.
Qed.

Lemma step_edits_user n c line : s_auth (get_sess n c) = false ->
  edits (Cap true (is_auth_line line) false) c n (fst (step n c line)).
Proof.
  intros Ha. rewrite step_user by exact Ha. unfold is_auth_line.
  destruct (parse_request (trim_char nl line)) as [rq| |]; try apply ed_refl.
  assert (E : edits (Cap true (is_auth_rq rq) false) c n (fst (if is_rp rq then (n, not_auth) else handle n c rq))).
  { destruct (is_rp rq); [apply ed_refl|]. pose proof (handle_edits c n rq) as H. unfold cap_of in H.
    rewrite Ha in H. revert H. apply edits_weaken. repeat split; auto. }
  destruct (if is_rp rq then (n, not_auth) else handle n c rq) as [n1 r1].
  exact (ed_same_ds E (replicate_request_same _ _ _ _)).
Qed.

Lemma dedit_dsec c d d' : dedit false c d d' -> dsec d d'.
Proof.
  intros [d1 _ S|k|k|]; [now apply S|intros k' _; unfold get_value..]; [reflexivity..|].
  now rewrite unwatch_all_frame.
Qed.

Lemma edits_nsec p c n n' : edits p c n n' -> may_admin p = false -> nsec n n'.
Proof.
  intros H Ha. induction H as [|m m' _ IH E _|m i msg _ IH|m s _ IH _ _|m k d d' _ IH Hg De|m k id st d' F|m k d z _ _ IH Hg].
  - now apply nsec_dbs.
  - exact (nsec_trans _ _ _ IH (nsec_dbs _ _ E)).
  - exact IH.
  - exact IH.
  - rewrite Ha in De. exact (nsec_trans _ _ _ IH (nsec_put _ _ _ _ _ Hg (dedit_dsec _ _ _ De) (fun y => get_db_put _ _ _ _))).
  - congruence.
  - refine (nsec_trans _ _ _ IH (nsec_put _ _ _ _ _ Hg _ (fun y => get_db_put _ _ _ _))). now intros k' _.
Qed.

Lemma edits_auths p c n n' : edits p c n n' -> may_auth p = false -> auths n' = auths n.
Proof.
  intros H Ha. induction H as [|m m' _ IH _ E|m i msg _ IH|m s _ IH _ [A|A]| | |]; auto.
  - unfold auths. now rewrite E.
  - now rewrite auths_send.
  - congruence.
  - now rewrite auths_put_sess.
Qed.

Theorem step_nsec n c line : s_auth (get_sess n c) = false -> nsec n (fst (step n c line)).
Proof. intros Ha. exact (edits_nsec _ c _ _ (step_edits_user n c line Ha) eq_refl). Qed.

Theorem step_secrets_unchanged n c line :
  s_auth (get_sess n c) = false ->
  forall dbn d d' k, get_db n dbn = Some d -> get_db (fst (step n c line)) dbn = Some d' ->
    starts_with k "$$" = true -> get_value d' k = get_value d k.
Proof.
  intros Ha dbn d d' k G G' Hk. pose proof (step_nsec n c line Ha dbn) as H.
  rewrite G, G' in H. now apply H.
Qed.

(* a non-administrator neither creates nor drops a database *)
Theorem step_same_databases n c line dbn :
  s_auth (get_sess n c) = false ->
  (get_db (fst (step n c line)) dbn = None <-> get_db n dbn = None).
Proof.
  intros Ha. pose proof (step_nsec n c line Ha dbn) as H.
  destruct (get_db n dbn), (get_db (fst (step n c line)) dbn); try contradiction; split; congruence.
Qed.

Lemma nstep_nsec n e : ev_ok n e = true -> nsec n (nstep n e).
Proof.
  destruct e as [|c l|c]; cbn [ev_ok nstep]; intros H.
  - now apply nsec_dbs.
  - apply Bool.negb_true_iff in H. now apply step_nsec.
  - exact (edits_nsec _ c _ _ (disconnect_edits c n) eq_refl).
Qed.

Lemma run_nsec evs : forall n, nonadmin_run n evs = true -> nsec n (fold_left nstep evs n).
Proof.
  induction evs as [|e evs IH]; intros n Hr; cbn [fold_left nonadmin_run] in *; [now apply nsec_dbs|].
  apply Bool.andb_true_iff in Hr. destruct Hr as [Hok Hr].
  eapply nsec_trans; [apply nstep_nsec; exact Hok | apply IH; exact Hr].
Qed.

Theorem noninterference n1 n2 evs :
  low_eq n1 n2 -> nonadmin_run n1 evs = true ->
  nouts n1 evs = nouts n2 evs /\
  low_eq (fold_left nstep evs n1) (fold_left nstep evs n2) /\
  (forall dbn d d' k, get_db n1 dbn = Some d -> get_db (fold_left nstep evs n1) dbn = Some d' ->
     starts_with k "$$" = true -> get_value d' k = get_value d k).
Proof.
  intros H Hr. destruct (run_related low_eq low_eq_sess low_eq_ev evs n1 n2 H Hr) as (A & B & _).
  split; [exact A|]. split; [exact B|].
  intros dbn d d' k G G' Hk. pose proof (run_nsec evs n1 Hr dbn) as S. rewrite G, G' in S. now apply S.
Qed.

Theorem noninterference_strong n1 n2 evs :
  vis_eq n1 n2 -> nonadmin_run n1 evs = true ->
  nouts n1 evs = nouts n2 evs /\ vis_eq (fold_left nstep evs n1) (fold_left nstep evs n2).
Proof.
  intros H Hr. destruct (run_related vis_eq vis_eq_sess vis_eq_ev evs n1 n2 H Hr) as (A & B & _). auto.
Qed.

(* The replication queue n_repl is write-only for [step]: what is already on it (e.g. the
   "replicate db $$key ver TEXT" lines that the administrator's own writes put there) does not
   influence anything.  [low_eq_upto q1 q2] relaxes [n_repl n1 = n_repl n2] to "equal after the
   prefixes q1 / q2". *)
Definition addq (q : list str) (n : node) : node := n_set_repl n (q ++ n_repl n).

Definition low_eq_upto (q1 q2 : list str) (n1 n2 : node) : Prop :=
  low_eq (n_set_repl n1 []) (n_set_repl n2 []) /\
  exists s, n_repl n1 = q1 ++ s /\ n_repl n2 = q2 ++ s.

Lemma addq_pn q n : pn (fun m => m) (app q) n = addq q n.
Proof.
  destruct n. unfold pn, addq, n_set_repl. cbn. f_equal.
  rewrite <- (map_id n_dbs) at 2. apply map_ext. intros [k d]. destruct d. reflexivity.
Qed.

Lemma addq_step q n c line : s_auth (get_sess n c) = false ->
  step (addq q n) c line = (addq q (fst (step n c line)), snd (step n c line)).
Proof.
  intros Ha. rewrite <- !addq_pn. apply step_pn; auto.
  intros l x. apply app_assoc.
Qed.

Lemma addq_disconnect q n c : disconnect (addq q n) c = addq q (disconnect n c).
Proof.
  rewrite <- !addq_pn. apply disconnect_pn; auto.
  intros l x. apply app_assoc.
Qed.

Lemma addq_ev q n e : ev_ok n e = true ->
  nstep (addq q n) e = addq q (nstep n e) /\ nout (addq q n) e = nout n e.
Proof.
  apply (nstep_proj (addq q)); auto using addq_step, addq_disconnect.
Qed.

Lemma low_eq_upto_iff q1 q2 n1 n2 :
  low_eq_upto q1 q2 n1 n2 <->
  exists m1 m2, n1 = addq q1 m1 /\ n2 = addq q2 m2 /\ low_eq m1 m2.
Proof.
  split.
  - intros [H [s [E1 E2]]]. exists (n_set_repl n1 s), (n_set_repl n2 s).
    destruct n1, n2. unfold addq, n_set_repl, low_eq in *. cbn in *. subst.
    repeat split; try reflexivity; try apply H.
  - intros (m1 & m2 & -> & -> & H). split.
    + destruct m1, m2. unfold addq, n_set_repl, low_eq in *. cbn in *.
      repeat split; try reflexivity; try apply H.
    + exists (n_repl m1). split; [reflexivity|].
      replace (n_repl m1) with (n_repl m2) by (symmetry; apply H). reflexivity.
Qed.

Lemma low_eq_upto_nil n1 n2 : low_eq_upto [] [] n1 n2 <-> low_eq n1 n2.
Proof.
  rewrite low_eq_upto_iff. split.
  - intros (m1 & m2 & -> & -> & H). destruct m1, m2. exact H.
  - intros H. exists n1, n2. destruct n1, n2. auto.
Qed.

Lemma low_eq_upto_sess q1 q2 n1 n2 : low_eq_upto q1 q2 n1 n2 -> n_sess n1 = n_sess n2.
Proof. intros [H _]. apply (low_eq_sess _ _ H). Qed.

Lemma low_eq_upto_ev q1 q2 n1 n2 e : low_eq_upto q1 q2 n1 n2 -> ev_ok n1 e = true ->
  nout n1 e = nout n2 e /\ low_eq_upto q1 q2 (nstep n1 e) (nstep n2 e).
Proof.
  intros H Hok. apply low_eq_upto_iff in H. destruct H as (m1 & m2 & -> & -> & H).
  assert (Hok1 : ev_ok m1 e = true) by exact Hok.
  destruct (low_eq_ev m1 m2 e H Hok1) as [A B].
  assert (Hok2 : ev_ok m2 e = true).
  { destruct e; auto. cbn [ev_ok] in *. unfold get_sess in *. now rewrite <- (low_eq_sess _ _ H). }
  destruct (addq_ev q1 m1 e Hok1) as [C1 D1]. destruct (addq_ev q2 m2 e Hok2) as [C2 D2].
  rewrite C1, C2, D1, D2. split; auto.
  apply low_eq_upto_iff. eauto.
Qed.

Theorem step_unwinding_upto q1 q2 n1 n2 c line :
  low_eq_upto q1 q2 n1 n2 -> s_auth (get_sess n1 c) = false ->
  let '(n1', r1) := step n1 c line in
  let '(n2', r2) := step n2 c line in
  r1 = r2 /\ low_eq_upto q1 q2 n1' n2'.
Proof. exact (step_related (low_eq_upto q1 q2) (low_eq_upto_ev q1 q2) n1 n2 c line). Qed.

Theorem noninterference_upto q1 q2 n1 n2 evs :
  low_eq_upto q1 q2 n1 n2 -> nonadmin_run n1 evs = true ->
  nouts n1 evs = nouts n2 evs /\
  low_eq_upto q1 q2 (fold_left nstep evs n1) (fold_left nstep evs n2).
Proof.
  intros H Hr.
  destruct (run_related (low_eq_upto q1 q2) (low_eq_upto_sess q1 q2) (low_eq_upto_ev q1 q2) evs n1 n2 H Hr)
    as (A & B & _). auto.
Qed.

Lemma token_unremovable : forall d,
  remove_value d "$$token" = (d, RError "$$token key cannot be removed", []).
Proof. reflexivity. Qed.

Theorem handle_remove_token n c :
  n_dbs (fst (handle n c (RqRemove "$$token"))) = n_dbs n.
Proof.
  unfold handle. apply guard_safe_elim; [intros dbn d _ Hdb _ | now intros n' m [->| ->]].
  rewrite token_unremovable. cbn [sends fold_left fst]. now rewrite put_db_same.
Qed.

Theorem handle_replicate_remove_token n c dbn :
  n_dbs (fst (handle n c (RqReplicateRemove dbn "$$token"))) = n_dbs n.
Proof.
  unfold handle. destruct (negb (s_auth (get_sess n c))); auto.
  destruct (get_db n dbn) as [d|] eqn:E; auto.
  rewrite token_unremovable. cbn [sends fold_left fst]. now rewrite put_db_same.
Qed.

(* every database keeps its $$token (indeed everything) *)
Corollary token_survives_remove n c rq :
  (rq = RqRemove "$$token" \/ exists dbn, rq = RqReplicateRemove dbn "$$token") ->
  forall x, get_db (fst (handle n c rq)) x = get_db n x.
Proof.
  intros [->|[dbn ->]] x; unfold get_db;
    [now rewrite handle_remove_token | now rewrite handle_replicate_remove_token].
Qed.

Corollary token_survives_remove_value n c rq :
  (rq = RqRemove "$$token" \/ exists dbn, rq = RqReplicateRemove dbn "$$token") ->
  forall x d d', get_db n x = Some d -> get_db (fst (handle n c rq)) x = Some d' ->
    get_value d' "$$token" = get_value d "$$token".
Proof.
  intros H x d d' G G'. rewrite (token_survives_remove n c rq H) in G'. congruence.
Qed.

(* the same for the line `remove $$token` itself (any session, any state) *)
Theorem step_remove_token n c : n_dbs (fst (step n c "remove $$token")) = n_dbs n.
Proof.
  rewrite (step_eq n c "remove $$token" (RqRemove "$$token")); [|vm_compute; reflexivity|discriminate].
  pose proof (handle_remove_token n c) as H.
  destruct (handle n c (RqRemove "$$token")) as [n1 r]. cbn [fst] in H.
  now rewrite replicate_request_dbs.
Qed.

(* a simple sufficient condition for [nonadmin_run]: nobody is authenticated at the start and
   no line is an `auth` command *)
Definition all_nonadmin (n : node) : Prop := forall c, s_auth (get_sess n c) = false.

Lemma auth_nth n c : s_auth (get_sess n c) = nth c (auths n) false.
Proof. unfold get_sess, auths. change false with (s_auth empty_sess). now rewrite map_nth. Qed.

Lemma auths_all_nonadmin n n' : auths n' = auths n -> all_nonadmin n -> all_nonadmin n'.
Proof. intros E H c. rewrite auth_nth, E, <- auth_nth. apply H. Qed.

Lemma auths_step n c line : s_auth (get_sess n c) = false -> is_auth_line line = false ->
  auths (fst (step n c line)) = auths n.
Proof. intros Ha Hl. exact (edits_auths _ c _ _ (step_edits_user n c line Ha) Hl). Qed.

Lemma auths_disconnect n c : auths (disconnect n c) = auths n.
Proof. exact (edits_auths _ c _ _ (disconnect_edits c n) eq_refl). Qed.

Definition no_auth_cmd (e : nev) : bool :=
  match e with ECmd _ l => negb (is_auth_line l) | _ => true end.

Lemma all_nonadmin_nstep n e : all_nonadmin n -> no_auth_cmd e = true -> all_nonadmin (nstep n e).
Proof.
  intros H He. destruct e as [|c l|c]; cbn [nstep no_auth_cmd] in *.
  - intros c. rewrite get_sess_connect. apply H.
  - apply Bool.negb_true_iff in He. eapply auths_all_nonadmin; [|exact H].
    apply auths_step; auto.
  - eapply auths_all_nonadmin; [|exact H]. apply auths_disconnect.
Qed.

Lemma all_nonadmin_run evs : forall n, all_nonadmin n -> forallb no_auth_cmd evs = true ->
  nonadmin_run n evs = true.
Proof.
  induction evs as [|e evs IH]; intros n H He; cbn [forallb nonadmin_run] in *; auto.
  apply Bool.andb_true_iff in He. destruct He as [He1 He2].
  apply Bool.andb_true_iff. split.
  - destruct e; cbn [ev_ok]; auto. now rewrite H.
  - apply IH; auto. now apply all_nonadmin_nstep.
Qed.

Corollary noninterference_all_nonadmin n1 n2 evs :
  low_eq n1 n2 -> all_nonadmin n1 -> forallb no_auth_cmd evs = true ->
  nouts n1 evs = nouts n2 evs /\
  low_eq (fold_left nstep evs n1) (fold_left nstep evs n2) /\
  (forall dbn d d' k, get_db n1 dbn = Some d -> get_db (fold_left nstep evs n1) dbn = Some d' ->
     starts_with k "$$" = true -> get_value d' k = get_value d k).
Proof.
  intros H Ha He. apply noninterference; auto. now apply all_nonadmin_run.
Qed.

Module Example.
Definition base : node := init_node "admin" "pwd" "node1" 1 Primary 100.

(* session 0 authenticates as administrator, creates database d1, writes a public
   key and the secret key $$secret; session 1 then selects d1 with the database
   token but never authenticates *)
Definition setup (txt : str) : list nev :=
  [EConnect; ECmd 0 "auth admin pwd"; ECmd 0 "create-db d1 tok"; ECmd 0 "use-db d1 tok";
   ECmd 0 "set public 1"; ECmd 0 ("set $$secret " +++ txt); EConnect; ECmd 1 "use-db d1 tok"].
Definition nodeA : node := fold_left nstep (setup "alpha") base.
Definition nodeB : node := fold_left nstep (setup "bravo") base.

Definition attack : list nev :=
  [ECmd 1 "get $$secret"; ECmd 1 "keys"; ECmd 1 "keys $$*"; ECmd 1 "watch $$secret";
   ECmd 1 "set $$secret x"; ECmd 1 "remove $$secret"; ECmd 1 "increment $$secret";
   ECmd 1 "resolve 5 d1 $$secret 3 hacked"; ECmd 1 "get-safe $$secret"; ECmd 1 "unwatch $$secret";
   ECmd 1 "get public"; ECmd 1 "set public 2"; ECmd 1 "arbiter"; ECmd 1 "rp 7 set $$secret y";
   ECmd 1 "replicate d1 $$secret 5 z"; ECmd 1 "replicate-remove d1 $$secret";
   ECmd 1 "create-user tok2 bob"; ECmd 1 "set-permissions bob rw *";
   ECmd 1 "debug pendding-conflitcts"; ECmd 1 "snapshot false d1"; EDisconnect 1].

(* the two servers really differ, and the administrator sees the difference *)
Example secrets_differ :
  option_map v_val (match get_db nodeA "d1" with Some d => get_value d "$$secret" | None => None end)
    = Some "alpha" /\
  option_map v_val (match get_db nodeB "d1" with Some d => get_value d "$$secret" | None => None end)
    = Some "bravo" /\
  nout nodeA (ECmd 0 "get $$secret") = RValue "$$secret" "alpha" 0 /\
  nout nodeB (ECmd 0 "get $$secret") = RValue "$$secret" "bravo" 0.
Proof. vm_compute. auto. Qed.

(* the administrator's own `set $$secret TEXT` is queued for replication with its
   text, so the two replication queues differ ... *)
Example repl_queues_differ :
  n_repl nodeA = ["rp 104 create-db d1 tok none"; "rp 107 replicate d1 public -1 1";
                  "rp 109 replicate d1 $$secret -1 alpha"] /\
  n_repl nodeB = ["rp 104 create-db d1 tok none"; "rp 107 replicate d1 public -1 1";
                  "rp 109 replicate d1 $$secret -1 bravo"].
Proof. vm_compute. auto. Qed.

(* ... and they are low-equivalent up to these queues, and plainly low-equivalent
   once the replication thread has consumed them *)
Example nodes_low_eq_upto : low_eq_upto (n_repl nodeA) (n_repl nodeB) nodeA nodeB.
Proof.
  split.
  - apply low_eq_mask. vm_compute. reflexivity.
  - exists []. split; vm_compute; reflexivity.
Qed.

Example nodes_low_eq_drained : low_eq (n_set_repl nodeA []) (n_set_repl nodeB []).
Proof. apply low_eq_mask. vm_compute. reflexivity. Qed.

Example attack_is_nonadmin : nonadmin_run nodeA attack = true.
Proof. vm_compute. reflexivity. Qed.

(* direct computation: identical replies, identical sessions (hence identical notifications), and
   the secret as it was *)
Example attack_replies_equal : nouts nodeA attack = nouts nodeB attack.
Proof. vm_compute. reflexivity. Qed.

Example attack_replies :
  firstn 8 (nouts nodeA attack) =
    [RError "To read security keys you must auth as an admin!";
     RValue "keys" ",$connections,public" (-1);
     RValue "keys" "" (-1);
     RError "To read security keys you must auth as an admin!";
     RError "To read security keys you must auth as an admin!";
     RError "To read security keys you must auth as an admin!";
     RError "To read security keys you must auth as an admin!";
     RError "To read security keys you must auth as an admin!"].
Proof. vm_compute. reflexivity. Qed.

Example attack_sessions_equal :
  n_sess (fold_left nstep attack nodeA) = n_sess (fold_left nstep attack nodeB).
Proof. vm_compute. reflexivity. Qed.

Example attack_secret_untouched :
  (match get_db (fold_left nstep attack nodeA) "d1" with Some d => get_value d "$$secret" | None => None end)
  = (match get_db nodeA "d1" with Some d => get_value d "$$secret" | None => None end).
Proof. vm_compute. reflexivity. Qed.

(* the same facts as instances of the theorems *)
Example attack_by_theorem :
  nouts nodeA attack = nouts nodeB attack /\
  low_eq_upto (n_repl nodeA) (n_repl nodeB) (fold_left nstep attack nodeA) (fold_left nstep attack nodeB).
Proof. apply noninterference_upto; [apply nodes_low_eq_upto | apply attack_is_nonadmin]. Qed.

Example attack_by_theorem_drained :
  nouts (n_set_repl nodeA []) attack = nouts (n_set_repl nodeB []) attack /\
  low_eq (fold_left nstep attack (n_set_repl nodeA [])) (fold_left nstep attack (n_set_repl nodeB [])).
Proof.
  assert (R : nonadmin_run (n_set_repl nodeA []) attack = true) by (vm_compute; reflexivity).
  destruct (noninterference (n_set_repl nodeA []) (n_set_repl nodeB []) attack
              nodes_low_eq_drained R) as (A & B & _).
  split; assumption.
Qed.
End Example.
