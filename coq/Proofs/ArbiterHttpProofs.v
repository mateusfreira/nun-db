(* C20 and C13 on one node.
   C20: the HTTP transport (http_ops.rs::process_commands): for a session that watches nothing, every
   statement of the HTTP request set leaves at most one line in its inbox, the replies line up with
   the statements, and the connection counters are given back ([frame], [keeps], [hstep] are the
   views of a write path that this needs; they come from the [effect] summaries of DbProofs; the
   counters are ConnProofs' balance of one session's commands, [bal]).
   C13: databases with an arbiter: a conflicting write is never silent, later writes queue behind it,
   a resolution stores the value and its record, a new arbiter is sent exactly the pending records. *)
From NunDB Require Import Model.Base Model.Pending Model.Parse Model.Node Proofs.AssocLemmas Proofs.StrLemmas Proofs.NodeLemmas Proofs.DbProofs Proofs.Footprint Proofs.WatchProofs
  Proofs.ConnProofs.
Local Open Scope Z_scope.

Definition inbox (n : node) (c : nat) : list str := s_inbox (get_sess n c).

(* the two cases of [get_sess_put_sess] / [get_sess_send] at the session itself *)
Lemma get_sess_put_same n c s : (c < List.length (n_sess n))%nat -> get_sess (put_sess n c s) c = s.
Proof.
  intros H. rewrite get_sess_put_sess, Nat.eqb_refl. now destruct (Nat.ltb_spec c (List.length (n_sess n))); [|lia].
Qed.

Lemma send_sess_same n c m : (c < List.length (n_sess n))%nat ->
  get_sess (send n c m) c = sess_push (get_sess n c) m.
Proof. intros H. unfold send. now apply get_sess_put_same. Qed.

Lemma put_sess_oob n c s : (List.length (n_sess n) <= c)%nat -> put_sess n c s = n.
Proof. intros H. unfold put_sess. rewrite list_update_oob by assumption. now destruct n. Qed.

Lemma send_oob n c m : (List.length (n_sess n) <= c)%nat -> send n c m = n.
Proof. apply put_sess_oob. Qed.

Lemma sends_app n l1 l2 : sends n (l1 ++ l2) = sends (sends n l1) l2.
Proof. unfold sends. apply fold_left_app. Qed.

Lemma sends_inbox n l c : (c < List.length (n_sess n))%nat ->
  inbox (sends n l) c = inbox n c ++ proj c l.
Proof. exact (inbox_sends l n c). Qed.

Lemma get_sess_sess n n' c : n_sess n' = n_sess n -> get_sess n' c = get_sess n c.
Proof. unfold get_sess. now intros ->. Qed.

Lemma watchers_put_value d k v k' : watchers_of (put_value d k v) k' = watchers_of d k'.
Proof. reflexivity. Qed.

Definition nowatch (n : node) (c : nat) : Prop :=
  forall dbn d k, get_db n dbn = Some d -> ~ In c (watchers_of d k).

Definition quiet (n : node) (c : nat) : Prop :=
  s_inbox (get_sess n c) = [] /\
  (forall dbn d k, get_db n dbn = Some d -> ~ In c (watchers_of d k)).

Definition conn_of (n : node) (x : str) : Z :=
  match get_db n x with Some d => d_conn d | None => 0 end.

(* databases only grow; watch tables are kept (a new database watches nothing) *)
Record grows (n n' : node) : Prop := {
  g_watch : forall x d', get_db n' x = Some d' ->
              match get_db n x with Some d => d_watch d' = d_watch d | None => d_watch d' = [] end;
  g_has : forall x, has_db n x = true -> has_db n' x = true;
  g_len : List.length (n_sess n') = List.length (n_sess n) }.

Lemma grows_refl n : grows n n.
Proof. split; auto. intros x d' H. now rewrite H. Qed.

Lemma grows_trans n1 n2 n3 : grows n1 n2 -> grows n2 n3 -> grows n1 n3.
Proof.
  intros [W1 H1 L1] [W2 H2 L2]. split.
  - intros x d3 E3. specialize (W2 x d3 E3).
    destruct (get_db n2 x) as [d2|] eqn:E2.
    + specialize (W1 x d2 E2). destruct (get_db n1 x); congruence.
    + destruct (get_db n1 x) as [d1|] eqn:E1; auto.
      specialize (H1 x). unfold has_db in H1. rewrite E1, E2 in H1. discriminate H1. reflexivity.
  - auto.
  - congruence.
Qed.

Lemma grows_dbs n n' : n_dbs n' = n_dbs n ->
  List.length (n_sess n') = List.length (n_sess n) -> grows n n'.
Proof.
  intros Hd Hs. split.
  - intros x d' H. rewrite (get_db_dbs _ _ _ Hd) in H. now rewrite H.
  - intros x. unfold has_db. now rewrite (get_db_dbs _ _ _ Hd).
  - assumption.
Qed.

Lemma watchers_eq d d' k : d_watch d' = d_watch d -> watchers_of d' k = watchers_of d k.
Proof. unfold watchers_of. now intros ->. Qed.

Lemma nowatch_grows n n' c : nowatch n c -> grows n n' -> nowatch n' c.
Proof.
  intros Hn [W _ _] dbn d' k E. specialize (W dbn d' E).
  destruct (get_db n dbn) as [d|] eqn:E0.
  - rewrite (watchers_eq _ _ _ W). now apply (Hn dbn).
  - unfold watchers_of. rewrite W. cbn. auto.
Qed.

(* [frame]: c's session record, every connection counter and every watch table are unchanged;
   databases only grow.  From here on [frame], [frame_refl], [frame_trans] and [keeps] are this
   file's, not ConnProofs' and GuardProofs'. *)
Record frame (c : nat) (n n' : node) : Prop := {
  f_grows : grows n n';
  f_conn : forall x, conn_of n' x = conn_of n x;
  f_sess : get_sess n' c = get_sess n c }.

Lemma frame_refl c n : frame c n n.
Proof. split; auto using grows_refl. Qed.

Lemma frame_trans c n1 n2 n3 : frame c n1 n2 -> frame c n2 n3 -> frame c n1 n3.
Proof.
  intros [G1 C1 S1] [G2 C2 S2]. split.
  - eapply grows_trans; eauto.
  - intros x. now rewrite C2.
  - congruence.
Qed.

Lemma frame_of_same_ds c n n' : same_ds n n' -> frame c n n'.
Proof.
  intros [Hd Hs]. split.
  - apply grows_dbs; auto. now rewrite Hs.
  - intros x. unfold conn_of. now rewrite (get_db_dbs _ _ _ Hd).
  - now apply get_sess_sess.
Qed.

(* [keeps]: as [frame], but of session [c] only the selection is kept (auth changes s_auth) and
   its inbox may be one line longer *)
Record keeps (c : nat) (n n' : node) : Prop := {
  k_grows : grows n n';
  k_conn : forall x, conn_of n' x = conn_of n x;
  k_db : s_db (get_sess n' c) = s_db (get_sess n c);
  k_inb : (List.length (inbox n' c) <= List.length (inbox n c) + 1)%nat }.

Lemma frame_keeps c n n' : frame c n n' -> keeps c n n'.
Proof. intros [G C S]. split; auto; unfold inbox; rewrite S; auto; lia. Qed.

Lemma keeps_frame_trans c n1 n2 n3 : keeps c n1 n2 -> frame c n2 n3 -> keeps c n1 n3.
Proof.
  intros [G1 C1 S1 I1] [G2 C2 S2]. split.
  - eapply grows_trans; eauto.
  - intros x. now rewrite C2.
  - now rewrite S2.
  - unfold inbox in *. now rewrite S2.
Qed.

Lemma frame_keeps_trans c n1 n2 n3 : frame c n1 n2 -> keeps c n2 n3 -> keeps c n1 n3.
Proof.
  intros [G1 C1 S1] [G2 C2 S2 I2]. split.
  - eapply grows_trans; eauto.
  - intros x. now rewrite C2.
  - now rewrite S2, S1.
  - unfold inbox in *. now rewrite <- S1.
Qed.

Lemma keeps_send c n m : keeps c n (send n c m).
Proof.
  split.
  - apply grows_dbs; auto. apply sess_len_send.
  - intros x. reflexivity.
  - destruct (Nat.lt_ge_cases c (List.length (n_sess n))) as [H|H].
    + rewrite send_sess_same by assumption. reflexivity.
    + rewrite send_oob by assumption. reflexivity.
  - unfold inbox. destruct (Nat.lt_ge_cases c (List.length (n_sess n))) as [H|H].
    + rewrite send_sess_same by assumption. cbn. rewrite app_length. cbn. lia.
    + rewrite send_oob by assumption. lia.
Qed.

(* database [x] (before: [d]) had its watch table kept, its counter set as in [d0], and
   then went through a write path *)
Lemma effect_spec c n n' x d d0 d' K msgs :
  nowatch n c -> get_db n x = Some d -> d_watch d0 = d_watch d ->
  effect n n' x d' msgs -> writes K d0 d' msgs ->
  grows n n' /\ get_sess n' c = get_sess n c /\
  forall y, conn_of n' y = if String.eqb y x then d_conn d0 else conn_of n y.
Proof.
  intros Hn Hdb Hw [D S] (E & _ & M).
  assert (W : d_watch d' = d_watch d) by (rewrite E; exact Hw).
  split; [split|split].
  - intros y dy. rewrite D. destruct (String.eqb_spec y x) as [->|].
    + intros [= <-]. now rewrite Hdb.
    + now intros ->.
  - intros y. unfold has_db. rewrite D. destruct (String.eqb y x); auto.
  - rewrite S. apply sess_len_sends.
  - transitivity (get_sess (sends n msgs) c); [apply get_sess_sess, S|].
    apply get_sess_sends_other. intros [a m] Hin; cbn [fst]; intros ->. destruct (M _ _ Hin) as [k Hk].
    rewrite (watchers_eq _ _ _ Hw) in Hk. now apply (Hn x d k).
  - intros y. unfold conn_of. rewrite D. destruct (String.eqb y x); auto. now rewrite E.
Qed.

Lemma effect_frame c n n' x d d' K msgs :
  nowatch n c -> get_db n x = Some d -> effect n n' x d' msgs -> writes K d d' msgs -> frame c n n'.
Proof.
  intros Hn Hdb E W. destruct (effect_spec c n n' x d d d' K msgs) as (G & S & C); auto.
  split; auto. intros y. rewrite C. destruct (String.eqb_spec y x) as [->|]; auto.
  unfold conn_of. now rewrite Hdb.
Qed.

Lemma tick_frame c n : frame c n (fst (tick n)).
Proof. now apply frame_of_same_ds. Qed.

Lemma send_to_primary_frame c n m : frame c n (send_to_primary n m).
Proof. now apply frame_of_same_ds. Qed.

Lemma frame_nowatch c n n' : nowatch n c -> frame c n n' -> nowatch n' c.
Proof. intros H [G _ _]. eapply nowatch_grows; eauto. Qed.

Lemma keeps_nowatch c n n' : nowatch n c -> keeps c n n' -> nowatch n' c.
Proof. intros H [G _ _]. eapply nowatch_grows; eauto. Qed.

Lemma set_key_value_frame c n dbn k v ver :
  nowatch n c -> frame c n (fst (set_key_value n dbn k v ver)).
Proof.
  intros Hn. destruct (get_db n dbn) as [d|] eqn:Hdb.
  - destruct (set_key_value_effect n dbn k v ver d Hdb) as (d' & msgs & E & W).
    eapply effect_frame; eauto.
  - unfold set_key_value, tick, apply_change. rewrite get_db_set_clock, Hdb. now apply frame_of_same_ds.
Qed.

Lemma client_left_grows c n : nowatch n c ->
  grows n (client_left n c) /\ get_sess (client_left n c) c = get_sess n c.
Proof.
  intros Hn. unfold client_left.
  destruct (s_db (get_sess n c)) as [dbn|] eqn:Es; [|split; [apply grows_refl|reflexivity]].
  destruct (get_db n dbn) as [d|] eqn:Ed; [|split; [apply grows_refl|reflexivity]].
  destruct (count_connection_effect n dbn d (d_conn d - 1) Ed) as (d' & msgs & E & W).
  destruct (effect_spec c n _ dbn d (db_set_conn d (d_conn d - 1)) d' _ msgs Hn Ed eq_refl E W) as (G & S & _).
  now split.
Qed.

Lemma keeps_stop c n n' m : n' = n \/ n' = send n c m -> keeps c n n'.
Proof.
  intros [->| ->].
  - apply frame_keeps, frame_refl.
  - apply keeps_send.
Qed.

(* the requests of C20's bodies: each handler queues at most one line for its own session.
   watch and arbiter are left out: a session that watches is also sent the notifications of
   other sessions' writes, which breaks "one line per statement" *)
Definition in_http_set (rq : request) : bool :=
  match rq with
  | RqAuth _ _ | RqUseDb _ _ _ | RqGet _ | RqGetSafe _ | RqSet _ _ _ | RqRemove _
  | RqIncrement _ _ | RqKeys _ | RqCreateDb _ _ _ => true
  | _ => false
  end.

Lemma add_database_frame c n name d :
  nowatch n c -> d_watch d = [] -> d_conn d = 0 -> frame c n (fst (add_database n name d)).
Proof.
  intros Hn Hw Hc. unfold add_database. destruct (get_db n name) as [d0|] eqn:E.
  { apply frame_refl. }
  set (n1 := n_set_idmap n _). set (n2 := put_db n1 name d).
  assert (F2 : frame c n n2).
  { split; [split|..].
    - intros x dx. unfold n2. rewrite get_db_put. destruct (String.eqb_spec x name) as [->|Hne].
      + intros [= <-]. change (get_db n1 name) with (get_db n name). now rewrite E.
      + change (get_db n1 x) with (get_db n x). intros ->. reflexivity.
    - intros x. unfold has_db, n2. rewrite get_db_put. destruct (String.eqb x name); auto.
    - reflexivity.
    - intros x. unfold conn_of, n2. rewrite get_db_put. destruct (String.eqb_spec x name) as [->|Hne]; auto.
      now rewrite E.
    - reflexivity. }
  unfold tick; cbv beta iota.
  set (n3 := n_set_clock n2 _).
  assert (F3 : frame c n n3).
  { eapply frame_trans; [exact F2|apply (tick_frame c n2)]. }
  destruct (get_db n3 "$admin") as [adm|] eqn:Ea; [|exact F3].
  match goal with |- context [set_value adm ?x] =>
    pose proof (set_value_writes adm x) as W; destruct (set_value adm x) as [[adm' r'] msgs] end.
  cbn [fst snd] in *. eapply frame_trans; [exact F3|].
  eapply (effect_frame c n3 _ "$admin" adm adm'); eauto.
  - eapply frame_nowatch; eauto.
  - now apply effect_put_sends.
Qed.

Lemma handle_keeps c n rq :
  nowatch n c -> in_http_set rq = true -> is_usedb rq = false -> keeps c n (fst (handle n c rq)).
Proof.
  intros Hn Hs Hu. destruct rq; try discriminate; cbn [handle].
  - (* get *)
    apply guard_safe_elim; [intros dbn d _ _ _ | intros n' m; apply keeps_stop].
    destruct (get_key_value_new d key). apply keeps_send.
  - (* get-safe *)
    apply guard_safe_elim; [intros dbn d _ _ _ | intros n' m; apply keeps_stop].
    destruct (get_key_value_new d key). apply keeps_send.
  - (* remove *)
    apply guard_safe_elim; [intros dbn d _ Ed _ | intros n' m; apply keeps_stop].
    pose proof (remove_value_writes d key) as W.
    destruct (remove_value d key) as [[d' r'] msgs]. cbn [fst snd] in *. apply frame_keeps.
    assert (F : frame c n (sends (put_db n dbn d') msgs))
      by (eapply effect_frame; eauto; now apply effect_put_sends).
    destruct r'; auto. destruct (is_primary _); auto.
    eapply frame_trans; [exact F|apply send_to_primary_frame].
  - (* set *)
    apply guard_safe_elim; [intros dbn d _ _ _ | intros n' m; apply keeps_stop].
    pose proof (set_key_value_frame c n dbn key value version Hn) as F.
    destruct (set_key_value n dbn key value version) as [n1 r1]. cbn [fst] in *. apply frame_keeps.
    destruct (is_primary n1); auto. eapply frame_trans; [exact F|apply send_to_primary_frame].
  - (* increment *)
    apply guard_safe_elim; [intros dbn d _ Ed _ | intros n' m; apply keeps_stop].
    apply frame_keeps. destruct (is_primary n); [|apply send_to_primary_frame].
    unfold tick; cbv beta iota.
    pose proof (inc_value_writes d key inc (n_clock n)) as W.
    destruct (inc_value d key inc (n_clock n)) as [[d' r'] msgs]. cbn [fst snd] in *.
    eapply effect_frame; eauto. now apply effect_put_sends.
  - (* auth *)
    cbn [fst].
    match goal with |- context [put_sess n c ?s] => set (s' := s) end.
    set (msg := if s_auth s' then _ else _).
    assert (Hs' : s_db s' = s_db (get_sess n c) /\ s_inbox s' = s_inbox (get_sess n c)).
    { unfold s'. destruct (_ && _); auto. }
    destruct (Nat.lt_ge_cases c (List.length (n_sess n))) as [H|H].
    + pose proof (keeps_send c (put_sess n c s') msg) as [G C S I].
      pose proof (get_sess_put_same n c s' H) as Hg.
      split.
      * eapply grows_trans; [|exact G]. apply grows_dbs; auto. apply put_sess_len.
      * intros x. rewrite C. reflexivity.
      * rewrite S, Hg. tauto.
      * unfold inbox in *. rewrite Hg in I. destruct Hs' as [_ <-]. exact I.
    + rewrite put_sess_oob by assumption. apply keeps_send.
  - (* create-db *)
    destruct (negb (s_auth (get_sess n c))). { apply frame_keeps, frame_refl. }
    destruct (_ || _). 2:{ apply frame_keeps, frame_refl. }
    unfold tick; cbv beta iota.
    match goal with |- context [set_value ?e ?x] =>
      pose proof (set_value_writes e x) as (E0 & _); destruct (set_value e x) as [[d0 r0] m0] end.
    cbn [fst] in E0.
    pose proof (add_database_frame c (n_set_clock n (n_clock n + 1)) name d0) as F.
    destruct (add_database _ name d0) as [n2 r2]. cbn [fst] in F.
    assert (F' : frame c n n2).
    { eapply frame_trans; [apply (tick_frame c n)|]. apply F; auto; now rewrite E0. }
    destruct r2; try (apply frame_keeps; exact F').
    eapply frame_keeps_trans; [exact F'|apply keeps_send].
  - (* keys *)
    apply guard_db_elim; [intros dbn d _ _ | intros m]; apply keeps_send.
Qed.

(* what one statement of the HTTP set does as far as [one_message] needs: databases only grow,
   c's inbox gets at most one line; use-db is an hstep but no [keeps], it moves a counter *)
Record hstep (c : nat) (n n' : node) : Prop := {
  h_grows : grows n n';
  h_inb : (List.length (inbox n' c) <= List.length (inbox n c) + 1)%nat }.

Lemma keeps_hstep c n n' : keeps c n n' -> hstep c n n'.
Proof. intros [G C S I]. now split. Qed.

Lemma hstep_frame_trans c n1 n2 n3 : hstep c n1 n2 -> frame c n2 n3 -> hstep c n1 n3.
Proof.
  intros [G1 I1] [G2 C2 S2]. split.
  - eapply grows_trans; eauto.
  - unfold inbox in *. now rewrite S2.
Qed.

(* what use-db does to the counters is ConnProofs.usedb_bal *)
Lemma handle_use_db_hstep c n token name user :
  nowatch n c -> hstep c n (fst (handle n c (RqUseDb token name user))).
Proof.
  intros Hn. rewrite handle_usedb.
  destruct (get_db n name) as [d|] eqn:Ed; [|apply keeps_hstep, frame_keeps, frame_refl].
  destruct (usedb_valid d token user); [|apply keeps_hstep, frame_keeps, frame_refl]. cbn [fst]. unfold count_in.
  destruct (client_left_grows c n Hn) as (G0 & S0).
  set (n0 := client_left n c) in *. set (n1 := sel_sess n0 c name user).
  assert (G1 : grows n0 n1) by (apply grows_dbs; auto; apply put_sess_len).
  assert (Hh : has_db n0 name = true) by (apply (g_has _ _ G0); unfold has_db; now rewrite Ed).
  change (get_db n1 name) with (get_db n0 name).
  unfold has_db in Hh. destruct (get_db n0 name) as [d1|] eqn:Ed1; try discriminate.
  assert (Hn1 : nowatch n1 c) by (eapply nowatch_grows; [|exact G1]; eapply nowatch_grows; eauto).
  destruct (count_connection_effect n1 name d1 (d_conn d1 + 1) Ed1) as (d' & msgs & E & W).
  destruct (effect_spec c n1 _ name d1 (db_set_conn d1 (d_conn d1 + 1)) d' _ msgs Hn1 Ed1 eq_refl E W)
    as (GB & SB & _).
  split.
  - eapply grows_trans; [exact G0|]. eapply grows_trans; eauto.
  - unfold inbox at 1. rewrite SB.
    destruct (Nat.lt_ge_cases c (List.length (n_sess n0))) as [H|H].
    + unfold n1, sel_sess. rewrite get_sess_put_same by assumption. cbn [s_inbox set_sel]. rewrite S0. unfold inbox. lia.
    + unfold n1, sel_sess. rewrite put_sess_oob by assumption. rewrite S0. unfold inbox. lia.
Qed.

Lemma handle_hstep c n rq :
  nowatch n c -> in_http_set rq = true -> hstep c n (fst (handle n c rq)).
Proof.
  intros Hn Hs. destruct (is_usedb rq) eqn:Hu.
  - destruct rq; try discriminate. now apply handle_use_db_hstep.
  - apply keeps_hstep. now apply handle_keeps.
Qed.

Lemma step_hstep c n line rq :
  nowatch n c -> in_http_set rq = true -> parse_request (trim_char nl line) = POk rq ->
  hstep c n (fst (step n c line)).
Proof.
  intros Hn Hs Hp. rewrite (step_eq _ _ _ _ Hp) by (intros i o ->; discriminate Hs).
  pose proof (handle_hstep c n rq Hn Hs) as H.
  destruct (handle n c rq) as [n1 r1]. cbn [fst] in H.
  eapply hstep_frame_trans; [exact H|].
  apply frame_of_same_ds, replicate_request_same.
Qed.

Theorem one_message n c line rq :
  quiet n c -> in_http_set rq = true -> parse_request (trim_char nl line) = POk rq ->
  let '(n', r) := step n c line in
  (List.length (s_inbox (get_sess n' c)) <= 1)%nat /\
  (forall dbn d k, get_db n' dbn = Some d -> ~ In c (watchers_of d k)).
Proof.
  intros [Hi Hn] Hs Hp. destruct (step_hstep c n line rq Hn Hs Hp) as [G I].
  destruct (step n c line) as [n' r]. cbn [fst] in *. split.
  - unfold inbox in I. rewrite Hi in I. exact I.
  - exact (nowatch_grows _ _ _ Hn G).
Qed.

Definition stmt_ok (cl : str) : Prop :=
  match parse_request (trim_char nl cl) with
  | POk rq => in_http_set rq = true
  | PErr _ => True
  | PPanic => True
  end.

Lemma step_ok_hstep c n line : nowatch n c -> stmt_ok line -> hstep c n (fst (step n c line)).
Proof.
  intros Hn Hok. unfold stmt_ok in Hok.
  destruct (parse_request (trim_char nl line)) as [rq|e|] eqn:Hp.
  - eapply step_hstep; eauto.
  - unfold step. cbn [process]. rewrite Hp. apply keeps_hstep, frame_keeps, frame_refl.
  - unfold step. cbn [process]. rewrite Hp. apply keeps_hstep, frame_keeps, frame_refl.
Qed.

Definition stmt_okb (cl : str) : bool :=
  match parse_request (trim_char nl cl) with
  | POk rq => in_http_set rq
  | _ => true
  end.

Lemma stmt_okb_ok cl : stmt_okb cl = true -> stmt_ok cl.
Proof. unfold stmt_okb, stmt_ok. destruct (parse_request _); auto. Qed.

Lemma body_okb_ok cmds :
  forallb (fun cmd => stmt_okb (trim cmd)) cmds = true ->
  Forall (fun cmd => stmt_ok (trim cmd)) cmds.
Proof.
  intros H. apply Forall_forall. intros cmd Hin.
  apply stmt_okb_ok. rewrite forallb_forall in H. now apply H.
Qed.

Lemma step_parse_error n c line e :
  parse_request (trim_char nl line) = PErr e -> step n c line = (n, RError e).
Proof. exact (NodeLemmas.step_parse_error n c line e). Qed.

Definition entry_of (n1 : node) (c : nat) (r : resp) : str :=
  match r with
  | RError m => m
  | RVersionError _ _ _ _ _ _ => "Invalid version!"
  | _ => match s_inbox (get_sess n1 c) with m :: _ => m | [] => "empty" end
  end.

(* reference: every statement runs from a state in which the inbox of [c] is empty and
   contributes the entry computed from its own result *)
Fixpoint http_ref (n : node) (c : nat) (cmds : list str) : node * option (list str) :=
  match cmds with
  | [] => (n, Some [])
  | cmd :: rest =>
      let clean := trim cmd in
      if String.eqb clean "" then http_ref n c rest
      else
        let '(n1, r) := step (fst (drain n c)) c clean in
        match r with
        | RPanic => (n1, None)
        | _ => match http_ref n1 c rest with
               | (n2, Some es) => (n2, Some (entry_of n1 c r :: es))
               | (n2, None) => (n2, None)
               end
        end
  end.

Definition nonblank (cmds : list str) : nat :=
  List.length (filter (fun cmd => negb (String.eqb (trim cmd) "")) cmds).

Lemma drain_inbox n c : inbox (fst (drain n c)) c = [].
Proof.
  unfold drain, inbox. cbn [fst].
  destruct (Nat.lt_ge_cases c (List.length (n_sess n))) as [H|H].
  - now rewrite get_sess_put_same.
  - unfold get_sess. rewrite nth_overflow; auto. now rewrite put_sess_len.
Qed.

Lemma drain_frame_db n c x : get_db (fst (drain n c)) x = get_db n x.
Proof. reflexivity. Qed.

Lemma drain_nowatch n c : nowatch n c -> nowatch (fst (drain n c)) c.
Proof. intros H dbn d k. rewrite drain_frame_db. apply H. Qed.

Lemma drain_id n c : inbox n c = [] -> fst (drain n c) = n.
Proof.
  unfold drain, inbox. cbn [fst]. intros H.
  replace (mkSess _ _ _ _ []) with (get_sess n c).
  - apply put_sess_get_id.
  - destruct (get_sess n c). cbn in *. now subst.
Qed.

(* one statement that leaves at most one line in c's inbox: taking the first line is draining *)
Lemma http_commands_cons n c cmd rest acc n1 r :
  String.eqb (trim cmd) "" = false -> step n c (trim cmd) = (n1, r) ->
  (List.length (inbox n1 c) <= 1)%nat ->
  http_commands n c (cmd :: rest) acc =
  match r with
  | RPanic => (n1, None)
  | _ => http_commands (fst (drain n1 c)) c rest (acc ++ [entry_of n1 c r])
  end.
Proof.
  intros Eb Es I. cbn [http_commands]. rewrite Eb, Es. unfold entry_of. fold (inbox n1 c).
  destruct r; try reflexivity.
  all: destruct (inbox n1 c) as [|m [|m' more]] eqn:Ei; [now rewrite (drain_id n1 c Ei)|reflexivity|cbn in I; lia].
Qed.

(* http_commands takes the FIRST line of c's inbox after a statement and leaves the rest;
   http_ref drains the inbox before each statement.  They agree because a statement of the set
   leaves at most one line in an emptied inbox ([hstep]), so taking the first is draining. *)
Lemma http_aligned_gen c cmds : forall n acc,
  nowatch n c -> Forall (fun cmd => stmt_ok (trim cmd)) cmds ->
  match http_ref n c cmds with
  | (n2, Some es) =>
      http_commands (fst (drain n c)) c cmds acc = (fst (drain n2 c), Some (acc ++ es)) /\
      List.length es = nonblank cmds
  | (n2, None) => http_commands (fst (drain n c)) c cmds acc = (n2, None)
  end.
Proof.
  induction cmds as [|cmd rest IH]; intros n acc Hn Hall.
  - cbn. rewrite app_nil_r. auto.
  - inversion Hall as [|? ? Hok Hrest]; subst.
    cbn [http_ref]. unfold nonblank. cbn [filter].
    destruct (String.eqb (trim cmd) "") eqn:Eb; cbn [negb].
    { cbn [http_commands]. rewrite Eb. apply IH; auto. }
    pose proof (step_ok_hstep c _ _ (drain_nowatch _ _ Hn) Hok) as [G I].
    destruct (step (fst (drain n c)) c (trim cmd)) as [n1 r] eqn:Es. cbn [fst] in G, I.
    rewrite drain_inbox in I. cbn in I.
    assert (Hn1 : nowatch n1 c) by (eapply nowatch_grows; [apply drain_nowatch; exact Hn|exact G]).
    rewrite (http_commands_cons _ c cmd rest acc n1 r Eb Es I).
    generalize (fun e => IH n1 (acc ++ [e]) Hn1 Hrest).
    destruct (http_ref n1 c rest) as [n2 [es|]]; intros IH'; destruct r; try reflexivity; try apply IH'.
    all: edestruct IH' as [IH1 IH2]; rewrite <- app_assoc in IH1; split; [exact IH1|cbn [List.length]; auto].
Qed.

Theorem http_aligned n c cmds acc :
  quiet n c -> Forall (fun cmd => stmt_ok (trim cmd)) cmds ->
  match http_ref n c cmds with
  | (n2, Some es) =>
      http_commands n c cmds acc = (fst (drain n2 c), Some (acc ++ es)) /\
      List.length es = nonblank cmds
  | (n2, None) => http_commands n c cmds acc = (n2, None)
  end.
Proof.
  intros [Hi Hn] Hall. pose proof (http_aligned_gen c cmds n acc Hn Hall) as H.
  rewrite (drain_id n c Hi) in H. exact H.
Qed.

Corollary http_length n c cmds acc n' out :
  quiet n c -> Forall (fun cmd => stmt_ok (trim cmd)) cmds ->
  http_commands n c cmds acc = (n', Some out) ->
  List.length out = (List.length acc + nonblank cmds)%nat.
Proof.
  intros Hq Hall H. pose proof (http_aligned n c cmds acc Hq Hall) as A.
  destruct (http_ref n c cmds) as [n2 [es|]].
  - destruct A as [A1 A2]. rewrite A1 in H. injection H as _ <-. rewrite app_length. lia.
  - rewrite A in H. discriminate.
Qed.

Lemma http_commands_nowatch c cmds n acc :
  Forall (fun cmd => stmt_ok (trim cmd)) cmds -> nowatch n c -> nowatch (fst (http_commands n c cmds acc)) c.
Proof.
  intros Hall. apply (http_commands_closed_on (fun m => nowatch m c) c); [intros m s H _; exact H|].
  eapply Forall_impl; [|exact Hall]. intros cmd Hok m Hm. exact (nowatch_grows _ _ _ Hm (h_grows _ _ _ (step_ok_hstep c m _ Hm Hok))).
Qed.

Lemma unwatch_all_clears d c k : ~ In c (watchers_of (unwatch_all d c) k).
Proof. rewrite nsubs_pos_in, nsubs_unwatch_all, Nat.eqb_refl. lia. Qed.

Lemma unwatch_all_subset d c k x : In x (watchers_of (unwatch_all d c) k) -> In x (watchers_of d k).
Proof. rewrite !nsubs_pos_in, nsubs_unwatch_all. destruct (Nat.eqb x c); lia. Qed.

Lemma disconnect_nowatch n c : nowatch n c -> nowatch (disconnect n c) c.
Proof.
  intros Hn. rewrite disconnect_eq.
  assert (HnU : nowatch (fst (handle n c RqUnWatchAll)) c).
  { cbn [handle]. apply guard_db_elim; cbn [fst]; [|intros m; exact Hn].
    intros dbn d _ Ed x dx k. rewrite get_db_put. destruct (String.eqb_spec x dbn) as [->|Hne]; [|apply Hn].
    intros [= <-] Hin. apply unwatch_all_subset in Hin. now apply (Hn dbn d k). }
  exact (nowatch_grows _ _ _ HnU (proj1 (client_left_grows c _ HnU))).
Qed.

(* the counters: for every body and every node, ConnProofs.http_request_cnt *)
Theorem http_released n body :
  let c := List.length (n_sess n) in
  (forall dbn d k, get_db n dbn = Some d -> ~ In c (watchers_of d k)) ->
  Forall (fun cmd => stmt_ok (trim cmd)) (split_char ";" body) ->
  let n' := fst (http_request n body) in
  (forall dbn d k, get_db n' dbn = Some d -> ~ In c (watchers_of d k)) /\
  (forall x d, get_db n x = Some d -> exists d', get_db n' x = Some d' /\ d_conn d' = d_conn d) /\
  (forall x, conn_of n' x = conn_of n x).
Proof.
  intros c Hn Hall n'. destruct (http_request_cnt n body) as [M C]. fold n' in M, C.
  split; [|split; [|exact C]].
  - unfold n', http_request, connect. fold c.
    pose proof (http_commands_nowatch c _ (n_set_sess n (n_sess n ++ [empty_sess])) [] Hall Hn) as H1.
    destruct (http_commands _ c _ []) as [n1 out]. now apply disconnect_nowatch.
  - intros x d Ed. specialize (C x). specialize (M x). unfold cnt in C. rewrite Ed in C, M.
    destruct (get_db n' x) as [d'|]; [eauto|]. now destruct M.
Qed.

Lemma conflict_key_neq ch : conflict_key ch <> c_key ch.
Proof.
  intros H. apply (f_equal String.length) in H. unfold conflict_key in H.
  rewrite !str_length_app in H. cbn in H. lia.
Qed.

Lemma conflict_key_neq_k k opp : "$conflicts_" +++ k +++ "_" +++ N_to_str opp <> k.
Proof. exact (conflict_key_neq (mkCh k "" 0 opp false)). Qed.

Lemma set_value_other_eq d ch d' r msgs k :
  set_value d ch = (d', r, msgs) -> k <> c_key ch -> get_value d' k = get_value d k.
Proof. intros E Hk. rewrite <- (set_value_other d ch k Hk). now rewrite E. Qed.

(* the record key can take a plain (version -1) write *)
Definition rec_writable (d : db) (k : str) : Prop :=
  match get_value d k with
  | None => True
  | Some r => v_ver r <> -2 /\ v_ver r < i32_max
  end.

Lemma plain_write_stored d k txt opp : rec_writable d k ->
  exists rec, get_value (fst (fst (set_value d (mkCh k txt (-1) opp false)))) k = Some rec /\ v_val rec = txt.
Proof.
  intros Hw. rewrite (set_value_plain d k txt opp Hw). cbn [fst]. rewrite gv_put_same.
  eexists. split; [reflexivity|]. now destruct (get_value d k).
Qed.

Lemma sends_delivers n l a m :
  In (a, m) l -> (a < List.length (n_sess n))%nat -> In m (inbox (sends n l) a).
Proof.
  intros Hin Ha. rewrite sends_inbox by assumption. apply in_or_app. right.
  unfold proj. apply in_map_iff. exists (a, m). split; auto. apply filter_In. split; auto.
  cbn. apply Nat.eqb_refl.
Qed.

Lemma sends_inbox_mono n l a m :
  (a < List.length (n_sess n))%nat -> In m (inbox n a) -> In m (inbox (sends n l) a).
Proof. intros Ha Hin. rewrite sends_inbox by assumption. apply in_or_app. now left. Qed.

(* what the conflict notice quotes: the stored value and its version, or - when the key is
   already in conflict - the LAST pending record key and a version past the queue *)
Definition conflict_info (old : value) (ov ver : Z) (pend : list str) : str * Z :=
  if Z.eqb ov (-2) then
    match pend with
    | [] => (v_val old, ov)
    | _ => (last pend "", ver + Z.of_nat (List.length pend))
    end
  else (v_val old, ov).

Definition mark_conflict (d : db) (key : str) (old : value) : db :=
  put_value d key (mkV (v_val old) (-2) (v_opp old) (upd_state old) (v_vaddr old) (v_kaddr old)).

Definition conflict_notice (dbn : str) (d : db) (ch : change) (old : value) : str :=
  let '(prev, cver) := conflict_info old (v_ver old) (c_ver ch)
                         (list_conflicts_keys (mark_conflict d (c_key ch) old) (c_key ch)) in
  "resolve " +++ N_to_str (c_opp ch) +++ " " +++ dbn +++ " " +++ Z_to_str cver +++ " " +++
  c_key ch +++ " " +++ prev +++ " " +++ c_val ch.

Lemma apply_change_info (old : value) (ov ver : Z) (pend : list str) :
  (if Z.eqb ov (-2)
   then match rev pend with
        | lst :: _ => Some (lst, ver + Z.of_nat (List.length pend))
        | [] => Some (v_val old, ov)
        end
   else Some (v_val old, ov)) = Some (conflict_info old ov ver pend).
Proof.
  unfold conflict_info. destruct (Z.eqb ov (-2)); auto.
  pose proof (ListLemmas.rev_last_hd pend "") as H. destruct (rev pend) as [|x r].
  - now subst.
  - destruct H as [H1 H2]. destruct pend; [contradiction|]. now rewrite H2.
Qed.

Lemma conflict_notice_starts dbn d ch old : starts_with (conflict_notice dbn d ch old) "resolve " = true.
Proof. unfold conflict_notice. destruct (conflict_info _ _ _ _). reflexivity. Qed.

(* the SArbiter branch of apply_change with a registered arbiter, as one equation: the key is marked,
   the arbiters are told, the notice is stored under a fresh op id as the record of the conflict, and
   that write is replicated *)
Lemma apply_change_arbiter n dbn d ch old :
  get_db n dbn = Some d -> d_strat d = SArbiter -> has_arbiter d = true ->
  set_value d ch = (d, RVersionError (c_key ch) (v_ver old) (c_ver ch) old ch (upd_state old), []) ->
  let rmsg := conflict_notice dbn d ch old in
  let d2 := mark_conflict d (c_key ch) old in
  let n1 := sends (put_db n dbn d2) (arbiter_msgs d2 rmsg) in
  let ch2 := mkCh (conflict_key ch) rmsg (-1) (n_clock n1) false in
  let s3 := set_value d2 ch2 in
  apply_change n dbn ch =
  (replicate_change (sends (put_db (n_set_clock n1 (n_clock n1 + 1)%N) dbn (fst (fst s3))) (snd s3)) dbn ch2,
   RError ("$$conflitct unresolved " +++ conflict_key ch)).
Proof.
  intros Ed Hst Ha Hsv. cbv zeta. unfold apply_change. rewrite Ed, Hsv, Hst, Ha. cbn [negb].
  fold (mark_conflict d (c_key ch) old).
  rewrite (apply_change_info old (v_ver old) (c_ver ch) (list_conflicts_keys (mark_conflict d (c_key ch) old) (c_key ch))).
  unfold conflict_notice.
  destruct (conflict_info old (v_ver old) (c_ver ch) (list_conflicts_keys (mark_conflict d (c_key ch) old) (c_key ch))) as [prev cver].
  unfold tick; cbv beta iota.
  match goal with |- context [set_value ?a ?x] => destruct (set_value a x) as [[d3 r3] msgs3] end. reflexivity.
Qed.

Theorem arbiter_never_silent n dbn d ch d0 key ov ver old st msgs0 :
  get_db n dbn = Some d -> d_strat d = SArbiter ->
  set_value d ch = (d0, RVersionError key ov ver old ch st, msgs0) ->
  (has_arbiter d = false /\
   apply_change n dbn ch = (n, RError "An conflitct happend and there is no arbiter client not connected"))
  \/
  (has_arbiter d = true /\
   exists n' d', apply_change n dbn ch = (n', RError ("$$conflitct unresolved " +++ conflict_key ch)) /\
     get_db n' dbn = Some d' /\
     (exists kv, get_value d' (c_key ch) = Some kv /\ v_val kv = v_val old /\ v_ver kv = -2) /\
     let rmsg := conflict_notice dbn d ch old in
     starts_with rmsg "resolve " = true /\
     (rec_writable d (conflict_key ch) ->
        exists rec, get_value d' (conflict_key ch) = Some rec /\ v_val rec = rmsg) /\
     (forall a, In a (watchers_of d "$conflicts") -> (a < List.length (n_sess n))%nat ->
        In rmsg (s_inbox (get_sess n' a)))).
Proof.
  intros Ed Hst Hsv.
  destruct (set_value_refused _ _ _ _ _ Hsv) as (-> & -> & o & Eo & [= -> -> -> <- ->]); [discriminate|].
  destruct (has_arbiter d) eqn:Ha; [right|left; split; auto; unfold apply_change; now rewrite Ed, Hsv, Hst, Ha].
  split; auto. rewrite (apply_change_arbiter n dbn d ch old Ed Hst Ha Hsv). cbv zeta.
  set (rmsg := conflict_notice dbn d ch old). set (d2 := mark_conflict d (c_key ch) old).
  set (n1 := sends (put_db n dbn d2) (arbiter_msgs d2 rmsg)).
  set (ch2 := mkCh (conflict_key ch) rmsg (-1) (n_clock n1) false).
  destruct (set_value d2 ch2) as [[d3 r3] msgs3] eqn:ES3. cbn [fst snd].
  set (n3 := sends (put_db _ dbn d3) msgs3).
  exists (replicate_change n3 dbn ch2), d3.
  split; [reflexivity|]. split; [|split; [|split; [|split]]].
  - rewrite (get_db_dbs n3) by apply n_dbs_replicate_change.
    unfold n3. rewrite get_db_sends. apply get_db_put_same.
  - exists (mkV (v_val old) (-2) (v_opp old) (upd_state old) (v_vaddr old) (v_kaddr old)).
    split; auto. rewrite (set_value_other_eq _ _ _ _ _ _ ES3).
    + unfold d2, mark_conflict. apply gv_put_same.
    + cbn. intros E. symmetry in E. revert E. apply conflict_key_neq.
  - apply conflict_notice_starts.
  - intros Hw.
    assert (Hw2 : rec_writable d2 (conflict_key ch)).
    { unfold rec_writable, d2, mark_conflict. rewrite gv_put_other; auto. apply conflict_key_neq. }
    pose proof (plain_write_stored d2 (conflict_key ch) rmsg (n_clock n1) Hw2) as E1.
    fold ch2 in E1. now rewrite ES3 in E1.
  - intros a Hin Halen.
    assert (In rmsg (inbox n1 a)).
    { unfold n1. apply sends_delivers; auto. unfold arbiter_msgs. apply in_map_iff. exists a. auto. }
    change (In rmsg (inbox (replicate_change n3 dbn ch2) a)).
    replace (inbox (replicate_change n3 dbn ch2) a) with (inbox n3 a).
    2:{ unfold inbox. now rewrite get_sess_replicate_change. }
    unfold n3. apply sends_inbox_mono; auto.
    change (a < List.length (n_sess n1))%nat. unfold n1. now rewrite sess_len_sends.
Qed.

Lemma conflict_info_spec old ov ver pend prev cver :
  conflict_info old ov ver pend = (prev, cver) ->
  (ov <> -2 -> prev = v_val old /\ cver = ov) /\
  (ov = -2 -> pend <> [] -> prev = last pend "" /\ cver = ver + Z.of_nat (List.length pend)) /\
  (ov = -2 -> pend = [] -> prev = v_val old /\ cver = ov).
Proof.
  unfold conflict_info. destruct (Z.eqb_spec ov (-2)) as [->|Hne].
  - destruct pend as [|p pend]; intros [= <- <-]; repeat split; auto; try congruence; try lia.
  - intros [= <- <-]. repeat split; auto; lia.
Qed.

Theorem conflict_notice_text dbn d ch old :
  exists prev cver,
    conflict_notice dbn d ch old =
      "resolve " +++ N_to_str (c_opp ch) +++ " " +++ dbn +++ " " +++ Z_to_str cver +++ " " +++
      c_key ch +++ " " +++ prev +++ " " +++ c_val ch /\
    let pend := list_conflicts_keys (mark_conflict d (c_key ch) old) (c_key ch) in
    (v_ver old <> -2 -> prev = v_val old /\ cver = v_ver old) /\
    (v_ver old = -2 -> pend <> [] ->
       prev = last pend "" /\ cver = c_ver ch + Z.of_nat (List.length pend)) /\
    (v_ver old = -2 -> pend = [] -> prev = v_val old /\ cver = v_ver old).
Proof.
  unfold conflict_notice.
  destruct (conflict_info _ _ _ _) as [prev cver] eqn:E. exists prev, cver. split; auto.
  exact (conflict_info_spec _ _ _ _ _ _ E).
Qed.

(* a write to a key in conflict is never applied *)
Theorem later_writes_queue d k old ch :
  get_value d k = Some old -> v_ver old = -2 -> c_ver ch <> -2 -> c_resolve ch = false ->
  c_key ch = k ->
  set_value d ch = (d, RVersionError k (-2) (c_ver ch) old ch (upd_state old), []).
Proof.
  intros Eo Hv Hc Hr <-. unfold set_value. rewrite Eo.
  unfold next_version, in_conflict. rewrite Hr, Hv.
  destruct (Z.eqb_spec (c_ver ch) (-2)) as [|_]; [contradiction|]. reflexivity.
Qed.

Lemma set_value_resolve d k v ver opp old :
  get_value d k = Some old -> v_ver old = -2 -> -1 <= ver < i32_max ->
  set_value d (mkCh k v ver opp true) =
    (put_value d k (mkV v (ver + 1) opp (upd_state old) (v_vaddr old) (v_kaddr old)),
     RSet k v, notify_msgs d k v (ver + 1)).
Proof.
  intros Eo Hv Hr. unfold set_value. cbn [c_key c_ver c_val c_opp c_resolve]. rewrite Eo.
  unfold next_version, in_conflict, sat_succ. cbn [c_ver c_resolve]. rewrite Hv.
  destruct (Z.eqb_spec ver (-2)) as [|_]; [lia|]. change (-2 =? -2) with true. cbv iota.
  destruct (Z.ltb_spec ver i32_max) as [_|]; [|lia].
  destruct (Z.leb_spec (ver + 1) (-2)) as [|_]; [lia|]. reflexivity.
Qed.

Lemma set_value_resolve_pending d k v opp old :
  get_value d k = Some old ->
  set_value d (mkCh k v (-2) opp true) =
    (put_value d k (mkV v (-2) opp (upd_state old) (v_vaddr old) (v_kaddr old)),
     RSet k v, notify_msgs d k v (-2)).
Proof.
  intros Eo. unfold set_value. cbn [c_key c_ver c_val c_opp c_resolve]. rewrite Eo.
  unfold next_version. cbn [c_ver]. change (-2 =? -2) with true. cbn [negb]. rewrite andb_false_r.
  reflexivity.
Qed.

Definition resolve_reg (n : node) (k v : str) (opp : N) : change :=
  mkCh (conflict_key (mkCh k v 0 opp true)) ("resolved " +++ v) (-1) (n_clock n) false.

(* DbProofs.resolve_conflict_eq with [reg_of] / [res_ch] spelled as [resolve_reg] / the test *)
Lemma resolve_conflict_unfold n dbn d k v ver opp :
  get_db n dbn = Some d ->
  let ch := mkCh k v ver opp true in
  let reg := resolve_reg n k v opp in
  let d1 := fst (fst (set_value d reg)) in
  let ch' := if has_pending_conflict d1 k then mkCh k v (-2) opp true else ch in
  exists n', resolve_conflict n dbn ch = (n', snd (fst (set_value d1 ch'))) /\
             get_db n' dbn = Some (fst (fst (set_value d1 ch'))).
Proof.
  intros Ed ch reg d1 ch'. rewrite (resolve_conflict_eq n dbn d ch Ed). cbv zeta.
  change (reg_of ch (n_clock n)) with reg. fold d1. change (res_ch (has_pending_conflict d1 (c_key ch)) ch) with ch'.
  eexists. split; [reflexivity|]. rewrite get_db_sends. apply get_db_put_same.
Qed.

Lemma resolve_reg_spec n d k v opp :
  let ck := conflict_key (mkCh k v 0 opp true) in
  let d1 := fst (fst (set_value d (resolve_reg n k v opp))) in
  (forall k', k' <> ck -> get_value d1 k' = get_value d k') /\
  (rec_writable d ck -> exists rec, get_value d1 ck = Some rec /\ v_val rec = "resolved " +++ v).
Proof.
  intros ck d1. split.
  - intros k' Hk'. now apply set_value_other.
  - exact (plain_write_stored d ck ("resolved " +++ v) (n_clock n)).
Qed.

Theorem resolve_last n dbn d k v ver opp old :
  get_db n dbn = Some d -> get_value d k = Some old -> v_ver old = -2 -> -1 <= ver < i32_max ->
  let ch := mkCh k v ver opp true in
  let d1 := fst (fst (set_value d (resolve_reg n k v opp))) in   (* record marked resolved *)
  has_pending_conflict d1 k = false ->
  exists n' d2, resolve_conflict n dbn ch = (n', RSet k v) /\ get_db n' dbn = Some d2 /\
    (exists kv, get_value d2 k = Some kv /\ v_val kv = v /\ v_ver kv = ver + 1 /\ v_ver kv <> -2) /\
    (rec_writable d (conflict_key ch) ->
       exists rec, get_value d2 (conflict_key ch) = Some rec /\ v_val rec = "resolved " +++ v).
Proof.
  intros Ed Eo Hv Hr ch d1 Hp.
  destruct (resolve_conflict_unfold n dbn d k v ver opp Ed) as (n' & E1 & E2).
  destruct (resolve_reg_spec n d k v opp) as [O1 R1]. fold d1 in E1, E2, O1, R1. rewrite Hp in E1, E2.
  assert (Eo1 : get_value d1 k = Some old)
    by (rewrite O1; auto; intros E; symmetry in E; revert E; apply (conflict_key_neq ch)).
  rewrite (set_value_resolve d1 k v ver opp old Eo1 Hv Hr) in E1, E2. cbn [fst snd] in E1, E2.
  exists n'. eexists. split; [exact E1|]. split; [exact E2|]. split.
  - eexists. rewrite gv_put_same. cbn. repeat split; auto. cbn. lia.
  - intros Hw. rewrite gv_put_other by (apply (conflict_key_neq ch)). exact (R1 Hw).
Qed.

Theorem resolve_pending n dbn d k v ver opp old :
  get_db n dbn = Some d -> get_value d k = Some old ->
  let ch := mkCh k v ver opp true in
  let d1 := fst (fst (set_value d (resolve_reg n k v opp))) in
  has_pending_conflict d1 k = true ->
  exists n' d2, resolve_conflict n dbn ch = (n', RSet k v) /\ get_db n' dbn = Some d2 /\
    (exists kv, get_value d2 k = Some kv /\ v_val kv = v /\ v_ver kv = -2) /\
    (rec_writable d (conflict_key ch) ->
       exists rec, get_value d2 (conflict_key ch) = Some rec /\ v_val rec = "resolved " +++ v).
Proof.
  intros Ed Eo ch d1 Hp.
  destruct (resolve_conflict_unfold n dbn d k v ver opp Ed) as (n' & E1 & E2).
  destruct (resolve_reg_spec n d k v opp) as [O1 R1]. fold d1 in E1, E2, O1, R1. rewrite Hp in E1, E2.
  assert (Eo1 : get_value d1 k = Some old)
    by (rewrite O1; auto; intros E; symmetry in E; revert E; apply (conflict_key_neq ch)).
  rewrite (set_value_resolve_pending d1 k v opp old Eo1) in E1, E2. cbn [fst snd] in E1, E2.
  exists n'. eexists. split; [exact E1|]. split; [exact E2|]. split.
  - eexists. rewrite gv_put_same. cbn. repeat split; auto.
  - intros Hw. rewrite gv_put_other by (apply (conflict_key_neq ch)). exact (R1 Hw).
Qed.

Lemma list_keys_nodup d pat sys : NoDup (map fst (d_map d)) -> NoDup (list_keys d pat sys).
Proof.
  intros H. unfold list_keys.
  apply nodup_sort_strs. now apply nodup_filter_keys.
Qed.

Lemma list_keys_in d pat sys k : In k (list_keys d pat sys) -> pattern_match k pat = true.
Proof.
  unfold list_keys. rewrite in_sort_strs. intros H. apply in_map_iff in H.
  destruct H as [[k' v] [<- H]]. apply filter_In in H. destruct H as [_ H]. cbn in H.
  apply andb_prop in H. tauto.
Qed.

Lemma conflicts_keys_shape d k : In k (list_conflicts_keys d "") ->
  starts_with k "$conflicts_" = true.
Proof. apply (list_conflicts_keys_in d ""). Qed.

Lemma list_conflicts_keys_nodup d key : NoDup (map fst (d_map d)) -> NoDup (list_conflicts_keys d key).
Proof.
  intros H. unfold list_conflicts_keys.
  apply nodup_sort_strs. now apply nodup_filter_keys.
Qed.

Lemma conflicts_key_not_token k : starts_with k "$conflicts_" = true -> k <> "$$token".
Proof. intros H ->. discriminate H. Qed.

Lemma conflicts_key_not_conflicts k : starts_with k "$conflicts_" = true -> k <> "$conflicts".
Proof. intros H ->. discriminate H. Qed.

(* texts of the records still pending, in key order *)
Definition pending_texts (d : db) (L : list str) : list str :=
  flat_map (fun k => match get_value d k with
                     | Some v => if starts_with (v_val v) "resolved" then [] else [v_val v]
                     | None => []
                     end) L.

Lemma pending_texts_ext d1 d L :
  (forall k, In k L -> get_value d1 k = get_value d k) -> pending_texts d1 L = pending_texts d L.
Proof.
  induction L as [|k L IH]; intros H; cbn; auto.
  rewrite (H k) by now left. f_equal. apply IH. intros k' Hk'. apply H. now right.
Qed.

(* every arbiter notice of [dd] reaches [c] exactly once: why [c] must not be registered yet
   (cf. [arbiter_registered_twice]) *)
Definition arb_once (dd : db) (c : nat) : Prop := forall m, proj c (arbiter_msgs dd m) = [m].

Lemma arb_once_watch dd dd' c : d_watch dd' = d_watch dd -> arb_once dd c -> arb_once dd' c.
Proof.
  intros Hw H m. unfold arbiter_msgs. rewrite (watchers_eq _ _ _ Hw). apply H.
Qed.

Lemma proj_snoc c (W : list nat) m :
  ~ In c W -> proj c (map (fun s => (s, m)) (W ++ [c])) = [m].
Proof.
  unfold proj. induction W as [|a W IH]; cbn; intros H.
  - now rewrite Nat.eqb_refl.
  - destruct (Nat.eqb_spec a c) as [->|Hne]; [tauto|]. apply IH. tauto.
Qed.

(* absent or a tombstone *)
Definition gone (o : option value) : Prop :=
  match o with None => True | Some v' => v_st v' = VDeleted end.

Lemma remove_value_gone d key :
  key <> "$$token" ->
  exists d', remove_value d key = (d', ROk, map (fun s => (s, "removed " +++ key +++ nlS)) (watchers_of d key)) /\
    d_watch d' = d_watch d /\
    (forall k', k' <> key -> get_value d' k' = get_value d k') /\
    gone (get_value d' key).
Proof.
  intros Hk. eexists. split; [apply (remove_value_eq d key Hk)|].
  destruct (remove_value_writes d key) as (E & O & _).
  split; [now rewrite E|]. split; [intros k' Hk'; apply O; congruence|].
  pose proof (remove_value_state d key Hk) as S. destruct (get_value d key) as [v|] eqn:G.
  - destruct (vstate_eqb (v_st v) VNew); [now rewrite S | destruct S as (t & -> & _ & Ht); exact Ht].
  - now rewrite S, G.
Qed.

Lemma reg_step_spec c dbn n dd k :
  get_db n dbn = Some dd -> (c < List.length (n_sess n))%nat -> k <> "$$token" ->
  ~ In c (watchers_of dd k) -> arb_once dd c ->
  exists dd1, get_db (reg_step dbn n k) dbn = Some dd1 /\ d_watch dd1 = d_watch dd /\
    List.length (n_sess (reg_step dbn n k)) = List.length (n_sess n) /\
    (forall k', k' <> k -> get_value dd1 k' = get_value dd k') /\
    (match get_value dd k with
     | None => get_value dd1 k = None
     | Some v => if starts_with (v_val v) "resolved" then gone (get_value dd1 k)
                 else get_value dd1 k = Some v
     end) /\
    inbox (reg_step dbn n k) c = inbox n c ++ pending_texts dd [k].
Proof.
  intros Ed Hc Hk Hw Ha. unfold reg_step, pending_texts. rewrite Ed. cbn [flat_map]. rewrite app_nil_r.
  destruct (get_value dd k) as [v|] eqn:Ev.
  2:{ exists dd. rewrite app_nil_r. repeat split; auto. }
  destruct (starts_with (v_val v) "resolved") eqn:Er.
  - destruct (remove_value_gone dd k Hk) as (dd1 & E1 & W1 & O1 & G1). rewrite E1.
    exists dd1. rewrite app_nil_r. repeat split; auto.
    + rewrite get_db_sends. apply get_db_put_same.
    + now rewrite sess_len_sends.
    + unfold inbox. f_equal. rewrite get_sess_sends_other; [reflexivity|].
      intros [a m] Hin; cbn [fst]; intros ->. apply in_map_iff in Hin. destruct Hin as [s [E Hs]]. inversion E; subst. auto.
  - exists dd. repeat split; auto.
    + now rewrite get_db_sends.
    + now rewrite sess_len_sends.
    + rewrite sends_inbox by assumption. now rewrite Ha.
Qed.

Lemma reg_fold c dbn L : forall n dd,
  get_db n dbn = Some dd -> (c < List.length (n_sess n))%nat -> NoDup L ->
  (forall k, In k L -> k <> "$$token" /\ ~ In c (watchers_of dd k)) -> arb_once dd c ->
  exists dd', get_db (fold_left (reg_step dbn) L n) dbn = Some dd' /\ d_watch dd' = d_watch dd /\
    (forall k, ~ In k L -> get_value dd' k = get_value dd k) /\
    (forall k, In k L ->
       match get_value dd k with
       | None => get_value dd' k = None
       | Some v => if starts_with (v_val v) "resolved" then gone (get_value dd' k)
                   else get_value dd' k = Some v
       end) /\
    inbox (fold_left (reg_step dbn) L n) c = inbox n c ++ pending_texts dd L.
Proof.
  induction L as [|k L IH]; intros n dd Ed Hc Hnd HL Ha.
  - exists dd. cbn. rewrite app_nil_r. repeat split; auto. intros k [].
  - inversion Hnd as [|? ? Hk HndL]; subst.
    destruct (HL k (or_introl eq_refl)) as [Hk1 Hk2].
    destruct (reg_step_spec c dbn n dd k Ed Hc Hk1 Hk2 Ha) as (dd1 & E1 & W1 & L1 & O1 & K1 & I1).
    cbn [fold_left].
    destruct (IH (reg_step dbn n k) dd1 E1) as (dd' & E2 & W2 & O2 & K2 & I2); auto.
    + now rewrite L1.
    + intros k' Hk'. destruct (HL k' (or_intror Hk')) as [H1 H2]. split; auto.
      now rewrite (watchers_eq _ _ _ W1).
    + eapply arb_once_watch; eauto.
    + exists dd'. split; [exact E2|]. split; [congruence|]. split; [|split].
      * intros k' Hk'. rewrite O2 by (intros H; apply Hk'; now right).
        apply O1. intros ->. apply Hk'. now left.
      * intros k' [<-|Hk'].
        -- rewrite (O2 k Hk). exact K1.
        -- specialize (K2 k' Hk'). rewrite (O1 k') in K2; auto. intros ->. contradiction.
      * rewrite I2, I1, <- app_assoc. f_equal.
        replace (pending_texts dd (k :: L)) with (pending_texts dd [k] ++ pending_texts dd L)
          by (unfold pending_texts; cbn [flat_map]; now rewrite app_nil_r).
        f_equal. apply pending_texts_ext. intros k' Hk'. apply O1. intros ->. contradiction.
Qed.

Theorem register_arbiter_resends n dbn d c :
  get_db n dbn = Some d -> NoDup (map fst (d_map d)) -> (c < List.length (n_sess n))%nat ->
  ~ In c (watchers_of d "$conflicts") ->
  (forall k, In k (list_conflicts_keys d "") -> ~ In c (watchers_of d k)) ->
  let n' := register_arbiter n dbn c in
  let L := list_conflicts_keys d "" in
  exists d', get_db n' dbn = Some d' /\
    In c (watchers_of d' "$conflicts") /\
    (* resolved records are removed *)
    (forall k v, In k L -> get_value d k = Some v -> starts_with (v_val v) "resolved" = true ->
       match get_value d' k with None => True | Some v' => v_st v' = VDeleted end) /\
    (* pending records are kept *)
    (forall k v, In k L -> get_value d k = Some v -> starts_with (v_val v) "resolved" = false ->
       get_value d' k = Some v) /\
    (forall k, ~ In k L -> get_value d' k = get_value d k) /\
    (* exactly the pending records' texts are sent to the new arbiter, in key order *)
    s_inbox (get_sess n' c) = s_inbox (get_sess n c) ++ pending_texts d L.
Proof.
  intros Ed Hnd Hc Hw Hk n' L. unfold n'. rewrite register_arbiter_eq, Ed. cbv zeta.
  set (d1 := watch_key d "$conflicts" c).
  change (list_conflicts_keys d1 "") with L.
  assert (W1 : forall k, k <> "$conflicts" -> watchers_of d1 k = watchers_of d k).
  { intros k Hne. unfold d1. rewrite watchers_watch_key. destruct (String.eqb_spec "$conflicts" k); [congruence|reflexivity]. }
  assert (W2 : watchers_of d1 "$conflicts" = watchers_of d "$conflicts" ++ [c]).
  { unfold d1. now rewrite watchers_watch_key, String.eqb_refl. }
  destruct (reg_fold c dbn L (put_db n dbn d1) d1) as (dd' & E & Wd & O & K & I).
  - apply get_db_put_same.
  - exact Hc.
  - apply list_conflicts_keys_nodup, Hnd.
  - intros k Hin. pose proof (conflicts_keys_shape d k Hin) as Hs. split.
    + now apply conflicts_key_not_token.
    + rewrite W1 by now apply conflicts_key_not_conflicts. now apply Hk.
  - intros m. unfold arbiter_msgs. rewrite W2. now apply proj_snoc.
  - exists dd'. split; [exact E|]. split; [|split; [|split; [|split]]].
    + rewrite (watchers_eq _ _ _ Wd), W2. apply in_or_app. right. now left.
    + intros k v Hin Ev Hr. specialize (K k Hin). change (get_value d1 k) with (get_value d k) in K.
      rewrite Ev, Hr in K. exact K.
    + intros k v Hin Ev Hr. specialize (K k Hin). change (get_value d1 k) with (get_value d k) in K.
      rewrite Ev, Hr in K. exact K.
    + intros k Hin. apply (O k Hin).
    + exact I.
Qed.

Definition ex_node : node := init_node "admin" "pwd" "addr" 7 Primary 100.

Definition ex_body : str :=
  "auth admin pwd; create-db d1 t; use-db d1 t; set k v; get k; ;bogus; set-safe k 0 w; remove k; increment i 2; keys *; get-safe i".

(* one HTTP request: hypotheses of the theorems hold, replies line up, counters are given back *)
Example http_example :
  Forall (fun cmd => stmt_ok (trim cmd)) (split_char ";" ex_body) /\
  nowatch ex_node (List.length (n_sess ex_node)) /\
  snd (http_request ex_node ex_body) =
    Some ["valid auth" +++ nlS; "create-db success" +++ nlS; "empty"; "empty"; "value v" +++ nlS;
          "unknown command: bogus"; "empty"; "empty"; "empty";
          "keys ,$$token,$connections,i" +++ nlS; "value-version 1 2" +++ nlS] /\
  nonblank (split_char ";" ex_body) = 11%nat /\
  map (conn_of (fst (http_request ex_node ex_body))) ["$admin"; "d1"] = [0; 0].
Proof.
  split; [apply body_okb_ok; vm_compute; reflexivity|].
  split.
  - intros dbn d k H. apply str_get_in in H.
    assert (Hd : d_watch d = []).
    { vm_compute in H. destruct H as [H|[]]. inversion H. reflexivity. }
    unfold watchers_of. rewrite Hd. cbn. auto.
  - vm_compute. repeat split; reflexivity.
Qed.

(* arbiter_never_silent needs [rec_writable]: if the record key exists and is itself in
   conflict, the notice is sent but the record is NOT stored *)
Definition bad_db : db :=
  mkDb [("k", mkV "old" 5 1 VOk 0 0); ("$conflicts_k_7", mkV "junk" (-2) 2 VOk 0 0)]
       [("$conflicts", [0%nat])] 0 1 SArbiter.
Definition bad_node : node :=
  mkNode [("d", bad_db)] [empty_sess] Primary 50 "u" "p" "a" 1 [] [] [] [] [] [].
Definition bad_ch : change := mkCh "k" "new" 3 7 false.

Example record_not_stored_when_not_writable :
  snd (fst (set_value bad_db bad_ch)) =
    RVersionError "k" 5 3 (mkV "old" 5 1 VOk 0 0) bad_ch VUpdated /\
  has_arbiter bad_db = true /\
  let '(n', r) := apply_change bad_node "d" bad_ch in
  r = RError "$$conflitct unresolved $conflicts_k_7" /\
  option_map (fun d => option_map v_val (get_value d "$conflicts_k_7")) (get_db n' "d")
    = Some (Some "junk") /\
  s_inbox (get_sess n' 0) = ["resolve 7 d 5 k old new"].
Proof. vm_compute. repeat split; reflexivity. Qed.

Definition run_lines (n : node) (c : nat) (ls : list str) : node * list resp :=
  fold_left (fun '(n, rs) l => let '(n', r) := step n c l in (n', rs ++ [r])) ls (n, []).

Definition sc1 : node * list resp :=
  run_lines (fst (connect ex_node)) 0
    ["auth admin pwd"; "create-db d3 tok arbiter"; "use-db d3 tok"; "arbiter";
     "set k a"; "set k b"; "set-safe k 0 c"; "set-safe k 0 d"].
Definition sc2 : node * list resp := run_lines (fst sc1) 0 ["resolve 110 d3 k 1 X"].
Definition sc3 : node * list resp := run_lines (fst sc2) 0 ["resolve 113 d3 k 1 Y"].
Definition sc4 : node * list resp :=
  run_lines (fst (connect (fst sc3))) 1 ["use-db d3 tok"; "arbiter"].

Definition key_state (n : node) (dbn k : str) : option (str * Z) :=
  match get_db n dbn with
  | Some d => option_map (fun v => (v_val v, v_ver v)) (get_value d k)
  | None => None
  end.
Definition pending_of (n : node) (dbn k : str) : option bool :=
  option_map (fun d => has_pending_conflict d k) (get_db n dbn).

Example arbiter_scenario :
  (* two conflicting writes are refused with a notice each, the second queued behind the first *)
  snd sc1 = [ROk; ROk; ROk; ROk; ROk; ROk;
             RError "$$conflitct unresolved $conflicts_k_110";
             RError "$$conflitct unresolved $conflicts_k_113"] /\
  s_inbox (get_sess (fst sc1) 0) =
    ["valid auth" +++ nlS; "create-db success" +++ nlS;
     "resolve 110 d3 1 k b c"; "resolve 113 d3 1 k $conflicts_k_110 d"] /\
  key_state (fst sc1) "d3" "k" = Some ("b", -2) /\
  pending_of (fst sc1) "d3" "k" = Some true /\
  (* first resolution: value taken, key still in conflict *)
  key_state (fst sc2) "d3" "k" = Some ("X", -2) /\
  key_state (fst sc2) "d3" "$conflicts_k_110" = Some ("resolved X", 1) /\
  pending_of (fst sc2) "d3" "k" = Some true /\
  (* last resolution: value taken, key writable again, nothing pending *)
  key_state (fst sc3) "d3" "k" = Some ("Y", 2) /\
  key_state (fst sc3) "d3" "$conflicts_k_113" = Some ("resolved Y", 1) /\
  pending_of (fst sc3) "d3" "k" = Some false /\
  (* a newly registered arbiter receives nothing; resolved records are dropped *)
  snd sc4 = [ROk; ROk] /\
  s_inbox (get_sess (fst sc4) 1) = [] /\
  key_state (fst sc4) "d3" "$conflicts_k_110" = None /\
  key_state (fst sc4) "d3" "$conflicts_k_113" = None /\
  option_map (fun d => watchers_of d "$conflicts") (get_db (fst sc4) "d3") = Some [0%nat; 1%nat].
Proof. vm_compute. repeat split; reflexivity. Qed.

(* the hypothesis "[c] is not yet an arbiter" of [register_arbiter_resends] matters: a session
   that registers again receives every pending notice once per registration *)
Example arbiter_registered_twice :
  s_inbox (get_sess (fst (run_lines (fst sc1) 0 ["arbiter"])) 0) =
    s_inbox (get_sess (fst sc1) 0) ++
    ["resolve 110 d3 1 k b c"; "resolve 110 d3 1 k b c";
     "resolve 113 d3 1 k $conflicts_k_110 d"; "resolve 113 d3 1 k $conflicts_k_110 d"].
Proof. vm_compute. reflexivity. Qed.

Lemma handle_resolve_admin n c opp dbn k v ver d :
  s_auth (get_sess n c) = true -> is_primary n = true -> get_db n dbn = Some d ->
  handle n c (RqResolve opp dbn k v ver) =
    (fst (resolve_conflict n dbn (mkCh k v ver opp true)), ROk).
Proof.
  intros Ha Hp Ed. cbn [handle]. rewrite Ha, Hp. unfold guard_db_name. rewrite Ed. reflexivity.
Qed.

Lemma handle_resolve_admin_no_db n c opp dbn k v ver :
  s_auth (get_sess n c) = true -> get_db n dbn = None ->
  handle n c (RqResolve opp dbn k v ver) = (send n c no_db_msg, RError no_db_msg).
Proof.
  intros Ha Ed. cbn [handle]. rewrite Ha. unfold guard_db_name. rewrite Ed. reflexivity.
Qed.

