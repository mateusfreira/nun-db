(* NewerReplicaProofs.v -- property C19, last clause: on a database with the "newer"
   strategy the most recently issued change always wins (op ids grow with issue order),
   so the same writes applied in the primary's order leave every replica with the same
   content, whatever the replicas' own clocks are. *)
From NunDB Require Import Model.Base Model.Pending Model.Parse Model.Node Model.Oplog Model.Cluster
  Proofs.AssocLemmas Proofs.StrLemmas Proofs.NodeLemmas Proofs.DbProofs Proofs.ClusterProofs
  Proofs.ArbiterHttpProofs Proofs.ConvergeProofs Proofs.ArbiterClusterProofs.
Local Open Scope Z_scope.


Definition wr := (str * str * Z)%type.                       (* key, value, version argument *)

(* the clock invariant: every op id recorded in the database was issued before "now" *)
Definition opps_below (n : node) (d : db) : Prop :=
  forall k v, get_value d k = Some v -> (v_opp v < n_clock n)%N.

Fixpoint run_writes (n : node) (dbn : str) (ws : list wr) : node * list resp :=
  match ws with
  | [] => (n, [])
  | (k, v, ver) :: rest =>
      let '(n1, r) := set_key_value n dbn k v ver in
      let '(n2, rs) := run_writes n1 dbn rest in
      (n2, r :: rs)
  end.


(* the effect of set_key_value on a newer database whose op ids are all below the
   clock: [id] is the op id drawn for the change, [id + 1] the one drawn for the
   resolution.  The "keep the old value" branch of apply_change does not occur. *)
Definition newer_db_step (d : db) (key value : str) (ver : Z) (id : N) : db * resp :=
  match get_value d key with
  | None => (put_value d key (mkV value (sat_succ ver) id VNew 0 0), RSet key value)
  | Some old =>
      let ch := mkCh key value ver id false in
      if Z.leb (next_version ch old) (v_ver old) && negb (Z.eqb ver (-2)) then
        let ch2 := mkCh key value (v_ver old) (id + 1)%N true in
        if Z.leb (next_version ch2 old) (v_ver old) && negb (Z.eqb (v_ver old) (-2)) then
          (d, RVersionError key (v_ver old) (v_ver old) old ch2 (upd_state old))
        else
          (put_value d key (mkV value (next_version ch2 old) (id + 1)%N (upd_state old) (v_vaddr old) (v_kaddr old)),
           RSet key value)
      else
        (put_value d key (mkV value (next_version ch old) id (upd_state old) (v_vaddr old) (v_kaddr old)),
         RSet key value)
  end.

Lemma d_strat_put d k v : d_strat (put_value d k v) = d_strat d.
Proof. reflexivity. Qed.

(* the change that takes effect in [newer_db_step]: the client's or, when that one is refused by its
   version, the resolving retry under the next op id *)
Definition newer_ch (d : db) (key value : str) (ver : Z) (id : N) : change :=
  let ch := mkCh key value ver id false in
  match get_value d key with
  | Some old => if ver_refused ch old then mkCh key value (v_ver old) (id + 1)%N true else ch
  | None => ch
  end.

Lemma newer_db_step_eq d key value ver id :
  newer_db_step d key value ver id = fst (set_value d (newer_ch d key value ver id)).
Proof.
  unfold newer_db_step, newer_ch, ver_refused.
  destruct (get_value d key) as [old|] eqn:Hg; cbv zeta; [destruct (_ && _) eqn:T|];
    unfold set_value; cbn [c_key c_val c_ver c_opp]; rewrite Hg.
  - clear T. destruct (_ && _); reflexivity.
  - rewrite T. reflexivity.
  - reflexivity.
Qed.

Lemma newer_ch_key d key value ver id : c_key (newer_ch d key value ver id) = key.
Proof. unfold newer_ch. destruct (get_value d key); [destruct (ver_refused _ _)|]; reflexivity. Qed.

Lemma newer_ch_opp d key value ver id :
  c_opp (newer_ch d key value ver id) = id \/ c_opp (newer_ch d key value ver id) = (id + 1)%N.
Proof. unfold newer_ch. destruct (get_value d key); [destruct (ver_refused _ _)|]; auto. Qed.

Lemma newer_ch_same d1 d2 key value ver id1 id2 : dbrel d1 d2 ->
  ch_same (newer_ch d1 key value ver id1) (newer_ch d2 key value ver id2).
Proof.
  intros H. specialize (H key). unfold newer_ch.
  destruct (get_value d1 key) as [a|], (get_value d2 key) as [b|]; try tauto; [|unfold ch_same; cbn; auto].
  assert (Hc : ch_same (mkCh key value ver id1 false) (mkCh key value ver id2 false)) by (unfold ch_same; cbn; auto).
  unfold ver_refused. rewrite (next_version_rel _ _ a b Hc H).
  destruct H as (_ & -> & _). cbn [c_ver]. destruct (_ && _); unfold ch_same; cbn; auto.
Qed.

Lemma newer_db_step_other d key value ver id k' : k' <> key ->
  get_value (fst (newer_db_step d key value ver id)) k' = get_value d k'.
Proof. intros Hne. rewrite newer_db_step_eq. apply db_set_other. now rewrite newer_ch_key. Qed.

Lemma newer_db_step_opp d key value ver id nw :
  get_value (fst (newer_db_step d key value ver id)) key = Some nw ->
  get_value d key = Some nw \/ v_opp nw = id \/ v_opp nw = (id + 1)%N.
Proof.
  rewrite newer_db_step_eq. pose proof (db_set_opp d (newer_ch d key value ver id) nw) as H.
  rewrite newer_ch_key in H. intros Hn.
  destruct (H Hn) as [Ho| ->]; [now left|right; apply newer_ch_opp].
Qed.

Lemma newer_db_step_rel d1 d2 key value ver id1 id2 : dbrel d1 d2 ->
  dbrel (fst (newer_db_step d1 key value ver id1)) (fst (newer_db_step d2 key value ver id2)) /\
  resp_rel (snd (newer_db_step d1 key value ver id1)) (snd (newer_db_step d2 key value ver id2)).
Proof.
  intros H. rewrite !newer_db_step_eq. apply set_value_rel; [exact H|now apply newer_ch_same].
Qed.


Lemma opps_below_ltb n d key old : opps_below n d -> get_value d key = Some old ->
  N.ltb (v_opp old) (n_clock n) = true.
Proof. intros H Hg. apply N.ltb_lt. eapply H; eauto. Qed.

(* the SNewer branch of apply_change: a change refused by its version, against an entry with an older
   op id, is retried as a resolution carrying the stored version, under the next op id *)
Lemma apply_change_newer_retry n dbn d ch old :
  get_db n dbn = Some d -> d_strat d = SNewer ->
  get_value d (c_key ch) = Some old -> ver_refused ch old = true -> N.ltb (v_opp old) (c_opp ch) = true ->
  let ch2 := mkCh (c_key ch) (c_val ch) (v_ver old) (n_clock n) true in
  apply_change n dbn ch =
  (sends (put_db (n_set_clock n (n_clock n + 1)%N) dbn (db_set d ch2)) (snd (set_value d ch2)),
   snd (fst (set_value d ch2))).
Proof.
  intros Hd Hs Hg Hr Hl. cbv zeta. unfold apply_change.
  rewrite Hd, (set_value_ver_refused d ch old Hg Hr), Hs. cbv beta iota zeta. rewrite Hl.
  unfold tick, db_set. destruct (set_value d _) as [[d2 r2] m2]. reflexivity.
Qed.

Theorem set_key_value_newer n dbn d key value ver :
  get_db n dbn = Some d -> d_strat d = SNewer -> opps_below n d ->
  let chu := newer_ch d key value ver (n_clock n) in
  set_key_value n dbn key value ver =
  (sends (put_db (n_set_clock n (c_opp chu + 1)%N) dbn (db_set d chu)) (snd (set_value d chu)),
   snd (fst (set_value d chu))).
Proof.
  intros Hdb Hs Hob. cbv zeta. unfold set_key_value, tick, newer_ch.
  set (ch := mkCh key value ver (n_clock n) false).
  destruct (get_value d key) as [old|] eqn:Hg.
  - destruct (ver_refused ch old) eqn:T.
    + apply (apply_change_newer_retry (n_set_clock n (n_clock n + 1)%N) dbn d ch old Hdb Hs Hg T).
      apply (opps_below_ltb n d key old Hob Hg).
    + apply (apply_change_ok (n_set_clock n (n_clock n + 1)%N) dbn d ch Hdb).
      rewrite (set_value_present d ch old Hg). unfold ver_refused in T. now rewrite T.
  - apply (apply_change_ok (n_set_clock n (n_clock n + 1)%N) dbn d ch Hdb).
    unfold set_value. cbn [c_key ch]. now rewrite Hg.
Qed.


Theorem newer_opps_below_inv n dbn d key value ver n' r :
  get_db n dbn = Some d -> d_strat d = SNewer -> opps_below n d ->
  set_key_value n dbn key value ver = (n', r) ->
  exists d', get_db n' dbn = Some d' /\ d_strat d' = SNewer /\ opps_below n' d' /\
             (n_clock n < n_clock n')%N /\
             (d', r) = newer_db_step d key value ver (n_clock n).
Proof.
  intros Hdb Hs Hob Hskv. rewrite (set_key_value_newer n dbn d key value ver Hdb Hs Hob) in Hskv. cbv zeta in Hskv.
  pose proof (newer_ch_opp d key value ver (n_clock n)) as Hopp.
  pose proof (newer_ch_key d key value ver (n_clock n)) as Hkey.
  set (chu := newer_ch d key value ver (n_clock n)) in *.
  destruct (put_db_sends_frame (n_set_clock n (c_opp chu + 1)%N) dbn (db_set d chu) (snd (set_value d chu)))
    as (_ & _ & C & G).
  cbn [n_clock n_set_clock] in C. injection Hskv as <- <-.
  exists (db_set d chu).
  split; [exact G|]. split; [now rewrite (proj1 (db_set_strat d chu))|].
  split; [|split; [lia|]].
  - intros k v Hk. rewrite C. destruct (String.eqb_spec k key) as [->|Hne].
    + rewrite <- Hkey in Hk. destruct (db_set_opp d chu v Hk) as [Ho| ->]; [|lia].
      rewrite Hkey in Ho. specialize (Hob _ _ Ho). lia.
    + rewrite db_set_other in Hk by (now rewrite Hkey). specialize (Hob _ _ Hk). lia.
  - rewrite newer_db_step_eq. fold chu. unfold db_set. now destruct (set_value d chu) as [[d' r] m].
Qed.

Theorem newer_opps_below_run ws : forall n dbn d,
  get_db n dbn = Some d -> d_strat d = SNewer -> opps_below n d ->
  exists d', get_db (fst (run_writes n dbn ws)) dbn = Some d' /\ d_strat d' = SNewer /\
             opps_below (fst (run_writes n dbn ws)) d' /\
             (n_clock n <= n_clock (fst (run_writes n dbn ws)))%N.
Proof.
  induction ws as [|[[k v] ver] rest IH]; intros n dbn d Hdb Hs Hob.
  - exists d. cbn [run_writes fst]. repeat split; auto. lia.
  - cbn [run_writes]. destruct (set_key_value n dbn k v ver) as [n1 r] eqn:E.
    destruct (newer_opps_below_inv _ _ _ _ _ _ _ _ Hdb Hs Hob E) as (d1 & G1 & S1 & O1 & C1 & _).
    destruct (IH n1 dbn d1 G1 S1 O1) as (d' & G & S & O & C).
    destruct (run_writes n1 dbn rest) as [n2 rs]. cbn [fst] in *.
    exists d'. repeat split; auto. lia.
Qed.

Lemma run_writes_app dbn a : forall n b,
  run_writes n dbn (a ++ b) =
  (fst (run_writes (fst (run_writes n dbn a)) dbn b),
   snd (run_writes n dbn a) ++ snd (run_writes (fst (run_writes n dbn a)) dbn b)).
Proof.
  induction a as [|[[k v] ver] rest IH]; intros n b.
  - cbn [app run_writes fst snd]. now destruct (run_writes n dbn b).
  - cbn [app run_writes]. destruct (set_key_value n dbn k v ver) as [n1 r].
    rewrite IH. destruct (run_writes n1 dbn rest) as [n2 rs]. cbn [fst snd]. reflexivity.
Qed.


Lemma sat_succ_le z : sat_succ z <= z + 1.
Proof. exact (NodeLemmas.sat_succ_le z). Qed.

Lemma newer_db_step_wins d key value ver id :
  ver <> -2 ->
  (forall old, get_value d key = Some old -> v_ver old <> -2 /\ v_ver old < i32_max) ->
  snd (newer_db_step d key value ver id) = RSet key value /\
  exists nw, get_value (fst (newer_db_step d key value ver id)) key = Some nw /\
             v_val nw = value /\ v_st nw <> VDeleted /\
             (v_opp nw = id \/ v_opp nw = (id + 1)%N) /\
             (forall old, get_value d key = Some old ->
                v_ver old < v_ver nw /\ v_vaddr nw = v_vaddr old /\ v_kaddr nw = v_kaddr old /\
                v_st nw = upd_state old) /\
             (get_value d key = None -> nw = mkV value (sat_succ ver) id VNew 0 0).
Proof.
  intros Hv Hold. unfold newer_db_step.
  destruct (get_value d key) as [old|] eqn:Hg.
  - destruct (Hold _ eq_refl) as [Ho Hm]. cbv zeta.
    destruct (Z.eqb_spec ver (-2)) as [|_]; [contradiction|]. cbn [negb]. rewrite andb_true_r.
    destruct (Z.leb_spec (next_version (mkCh key value ver id false) old) (v_ver old)) as [Hle|Hgt].
    + (* the first attempt is refused as too old; the retry is a resolution stamped with the stored
         version, and a resolution takes the next version, [v_ver old + 1] (the two bounds on the stored
         version are for this), so it is never refused *)
      rewrite next_version_resolve by auto.
      replace (Z.leb (v_ver old + 1) (v_ver old)) with false by (symmetry; apply Z.leb_gt; lia).
      cbn [andb fst snd]. split; [reflexivity|]. eexists. rewrite gv_put_same. split; [reflexivity|].
      cbn [v_val v_st v_opp v_ver v_vaddr v_kaddr].
      split; [reflexivity|]. split; [apply upd_state_live|]. split; [auto|]. split; [|discriminate].
      intros o [= <-]. repeat split; auto. lia.
    + cbn [fst snd]. split; [reflexivity|]. eexists. rewrite gv_put_same. split; [reflexivity|].
      cbn [v_val v_st v_opp v_ver v_vaddr v_kaddr].
      split; [reflexivity|]. split; [apply upd_state_live|]. split; [auto|]. split; [|discriminate].
      intros o [= <-]. repeat split; auto.
  - cbn [fst snd]. split; [reflexivity|]. eexists. rewrite gv_put_same. split; [reflexivity|].
    cbn [v_val v_st v_opp v_ver]. split; [reflexivity|]. split; [discriminate|]. split; [auto|].
    split; [discriminate|]. reflexivity.
Qed.

(* with op ids below the clock, a versioned write on a newer database is never
   refused and never loses: the keep-old branch is not taken.  The stored entry is never a
   tombstone afterwards (a tombstone that is overwritten becomes VUpdated), so [live] is the
   written value in every case. *)
Theorem newer_incoming_wins n dbn d key value ver n' r :
  get_db n dbn = Some d -> d_strat d = SNewer -> opps_below n d ->
  ver <> -2 ->
  (forall old, get_value d key = Some old -> v_ver old <> -2 /\ v_ver old < i32_max) ->
  set_key_value n dbn key value ver = (n', r) ->
  r = RSet key value /\
  exists d' nw,
    get_db n' dbn = Some d' /\
    live d' key = Some value /\
    get_value d' key = Some nw /\ v_val nw = value /\ v_st nw <> VDeleted /\
    (n_clock n <= v_opp nw < n_clock n')%N /\
    opps_below n' d' /\ d_strat d' = SNewer /\
    (forall old, get_value d key = Some old -> v_ver old < v_ver nw) /\
    (get_value d key = None -> v_ver nw = sat_succ ver /\ v_st nw = VNew) /\
    (forall k', k' <> key -> get_value d' k' = get_value d k').
Proof.
  intros Hdb Hs Hob Hv Hold Hskv.
  destruct (newer_opps_below_inv _ _ _ _ _ _ _ _ Hdb Hs Hob Hskv) as (d' & G & S & O & C & E).
  destruct (newer_db_step_wins d key value ver (n_clock n) Hv Hold) as (R & nw & Hn & Hval & Hst & Hopp & Hver & Hnone).
  rewrite <- E in R, Hn. cbn [fst snd] in R, Hn.
  split; [exact R|]. exists d', nw.
  split; [exact G|]. split.
  { unfold live. rewrite Hn. destruct (vstate_eqb_spec (v_st nw) VDeleted); [contradiction|]. now rewrite Hval. }
  split; [exact Hn|]. split; [exact Hval|]. split; [exact Hst|]. split.
  { split; [destruct Hopp as [-> | ->]; lia|]. exact (O _ _ Hn). }
  split; [exact O|]. split; [exact S|]. split.
  { intros old Ho. apply (Hver old Ho). }
  split.
  { intros Hno. rewrite (Hnone Hno). cbn. auto. }
  intros k' Hne. replace d' with (fst (newer_db_step d key value ver (n_clock n))) by now rewrite <- E.
  now apply newer_db_step_other.
Qed.

Corollary newer_incoming_wins_ge n dbn d key value ver n' r :
  get_db n dbn = Some d -> d_strat d = SNewer -> opps_below n d ->
  -1 <= ver ->
  (forall old, get_value d key = Some old -> v_ver old <> -2 /\ v_ver old < i32_max) ->
  set_key_value n dbn key value ver = (n', r) ->
  r = RSet key value /\
  exists d', get_db n' dbn = Some d' /\ live d' key = Some value /\
             opps_below n' d' /\ d_strat d' = SNewer.
Proof.
  intros Hdb Hs Hob Hv Hold Hskv.
  destruct (newer_incoming_wins n dbn d key value ver n' r Hdb Hs Hob) as (R & d' & nw & H); auto; [lia|].
  split; [exact R|]. exists d'. intuition.
Qed.

(* the keep-old branch IS taken when the clock invariant fails (so opps_below is needed) *)
Example newer_keep_old_without_invariant :
  get_db cx_node "d" = Some cx_db /\ d_strat cx_db = SNewer /\
  ~ opps_below cx_node cx_db /\
  snd (set_key_value cx_node "d" "k" "x" 3) = RSet "k" "<Empty>".
Proof.
  split; [vm_compute; reflexivity|]. split; [reflexivity|]. split; [|vm_compute; reflexivity].
  intros H. specialize (H "k" _ eq_refl). vm_compute in H. discriminate.
Qed.


Lemma resp_rel_RSet k v r2 : resp_rel (RSet k v) r2 -> r2 = RSet k v.
Proof. destruct r2; cbn; try tauto. intros [-> ->]. reflexivity. Qed.

Lemma forall2_rset l1 : forall l2, Forall (fun r => exists k v, r = RSet k v) l1 ->
  Forall2 resp_rel l1 l2 -> l1 = l2.
Proof.
  induction l1 as [|a l IH]; intros l2 Hf H; inversion H; subst; [reflexivity|].
  inversion Hf as [|? ? (k & v & ->) Hl]; subst.
  f_equal; [symmetry; now apply resp_rel_RSet|]. now apply IH.
Qed.

Theorem newer_write_agrees n1 n2 dbn d1 d2 key value ver :
  get_db n1 dbn = Some d1 -> get_db n2 dbn = Some d2 ->
  d_strat d1 = SNewer -> d_strat d2 = SNewer -> dbrel d1 d2 ->
  opps_below n1 d1 -> opps_below n2 d2 ->
  resp_rel (snd (set_key_value n1 dbn key value ver)) (snd (set_key_value n2 dbn key value ver)) /\
  exists d1' d2',
    get_db (fst (set_key_value n1 dbn key value ver)) dbn = Some d1' /\
    get_db (fst (set_key_value n2 dbn key value ver)) dbn = Some d2' /\
    dbrel d1' d2' /\ d_strat d1' = SNewer /\ d_strat d2' = SNewer /\
    opps_below (fst (set_key_value n1 dbn key value ver)) d1' /\
    opps_below (fst (set_key_value n2 dbn key value ver)) d2'.
Proof.
  intros G1 G2 S1 S2 Hrel O1 O2.
  destruct (set_key_value n1 dbn key value ver) as [m1 r1] eqn:E1.
  destruct (set_key_value n2 dbn key value ver) as [m2 r2] eqn:E2.
  destruct (newer_opps_below_inv _ _ _ _ _ _ _ _ G1 S1 O1 E1) as (d1' & G1' & S1' & O1' & _ & Q1).
  destruct (newer_opps_below_inv _ _ _ _ _ _ _ _ G2 S2 O2 E2) as (d2' & G2' & S2' & O2' & _ & Q2).
  destruct (newer_db_step_rel d1 d2 key value ver (n_clock n1) (n_clock n2) Hrel) as [Hd Hr].
  rewrite <- Q1, <- Q2 in Hd, Hr. cbn [fst snd] in *.
  split; [exact Hr|]. exists d1', d2'. repeat split; auto.
Qed.

Theorem newer_replicas_agree ws : forall n1 n2 dbn d1 d2,
  get_db n1 dbn = Some d1 -> get_db n2 dbn = Some d2 ->
  d_strat d1 = SNewer -> d_strat d2 = SNewer -> dbrel d1 d2 ->
  opps_below n1 d1 -> opps_below n2 d2 ->
  Forall2 resp_rel (snd (run_writes n1 dbn ws)) (snd (run_writes n2 dbn ws)) /\
  exists d1' d2',
    get_db (fst (run_writes n1 dbn ws)) dbn = Some d1' /\
    get_db (fst (run_writes n2 dbn ws)) dbn = Some d2' /\
    dbrel d1' d2' /\ d_strat d1' = SNewer /\ d_strat d2' = SNewer /\
    opps_below (fst (run_writes n1 dbn ws)) d1' /\
    opps_below (fst (run_writes n2 dbn ws)) d2'.
Proof.
  induction ws as [|[[k v] ver] rest IH]; intros n1 n2 dbn d1 d2 G1 G2 S1 S2 Hrel O1 O2.
  - cbn [run_writes fst snd]. split; [constructor|]. exists d1, d2. repeat split; auto.
  - cbn [run_writes].
    destruct (newer_write_agrees n1 n2 dbn d1 d2 k v ver G1 G2 S1 S2 Hrel O1 O2)
      as (Hr & e1 & e2 & G1' & G2' & Hrel' & S1' & S2' & O1' & O2').
    destruct (set_key_value n1 dbn k v ver) as [m1 r1].
    destruct (set_key_value n2 dbn k v ver) as [m2 r2]. cbn [fst snd] in *.
    destruct (IH m1 m2 dbn e1 e2 G1' G2' S1' S2' Hrel' O1' O2') as (Hrs & f1 & f2 & H).
    destruct (run_writes m1 dbn rest) as [p1 rs1]. destruct (run_writes m2 dbn rest) as [p2 rs2].
    cbn [fst snd] in *. split; [constructor; auto|]. exists f1, f2. exact H.
Qed.

Corollary newer_replicas_same_content ws n1 n2 dbn d1 d2 :
  get_db n1 dbn = Some d1 -> get_db n2 dbn = Some d2 ->
  d_strat d1 = SNewer -> d_strat d2 = SNewer -> dbrel d1 d2 ->
  opps_below n1 d1 -> opps_below n2 d2 ->
  exists d1' d2',
    get_db (fst (run_writes n1 dbn ws)) dbn = Some d1' /\
    get_db (fst (run_writes n2 dbn ws)) dbn = Some d2' /\
    forall k, live d1' k = live d2' k /\ get_key_value_new d1' k = get_key_value_new d2' k.
Proof.
  intros G1 G2 S1 S2 Hrel O1 O2.
  destruct (newer_replicas_agree ws n1 n2 dbn d1 d2 G1 G2 S1 S2 Hrel O1 O2) as (_ & e1 & e2 & H1 & H2 & H3 & _).
  exists e1, e2. repeat split; auto using dbrel_live, dbrel_get.
Qed.

(* accepted writes are answered identically (RSet carries only key and value) *)
Corollary newer_replicas_replies ws n1 n2 dbn d1 d2 :
  get_db n1 dbn = Some d1 -> get_db n2 dbn = Some d2 ->
  d_strat d1 = SNewer -> d_strat d2 = SNewer -> dbrel d1 d2 ->
  opps_below n1 d1 -> opps_below n2 d2 ->
  Forall2 (fun r1 r2 => resp_rel r1 r2 /\ forall k v, r1 = RSet k v -> r2 = r1)
          (snd (run_writes n1 dbn ws)) (snd (run_writes n2 dbn ws)).
Proof.
  intros G1 G2 S1 S2 Hrel O1 O2.
  destruct (newer_replicas_agree ws n1 n2 dbn d1 d2 G1 G2 S1 S2 Hrel O1 O2) as (H & _).
  induction H; constructor; auto. split; auto. intros k v ->. now apply resp_rel_RSet.
Qed.


(* side conditions phrased on the state before the last write *)
Theorem newer_last_write_wins n dbn d ws k v ver :
  get_db n dbn = Some d -> d_strat d = SNewer -> opps_below n d ->
  ver <> -2 ->
  (forall dm old, get_db (fst (run_writes n dbn ws)) dbn = Some dm -> get_value dm k = Some old ->
                  v_ver old <> -2 /\ v_ver old < i32_max) ->
  let res := run_writes n dbn (ws ++ [(k, v, ver)]) in
  last (snd res) ROk = RSet k v /\
  exists d' nw, get_db (fst res) dbn = Some d' /\ live d' k = Some v /\
                get_value d' k = Some nw /\ v_val nw = v /\
                opps_below (fst res) d' /\ d_strat d' = SNewer.
Proof.
  intros Hdb Hs Hob Hv Hold. cbv zeta. rewrite run_writes_app. cbn [fst snd].
  destruct (newer_opps_below_run ws n dbn d Hdb Hs Hob) as (dm & Gm & Sm & Om & _).
  set (nm := fst (run_writes n dbn ws)) in *.
  cbn [run_writes]. destruct (set_key_value nm dbn k v ver) as [n' r] eqn:E. cbn [fst snd].
  destruct (newer_incoming_wins nm dbn dm k v ver n' r Gm Sm Om Hv (fun old => Hold dm old Gm) E)
    as (-> & d' & nw & G & L & Hn & Hval & _ & _ & O & S & _).
  split; [apply last_last|]. exists d', nw. repeat split; auto.
Qed.

(* a sufficient condition on the initial state and the writes: stored versions and
   version arguments lie in [-1, B) and B + length ws <= i32_max *)
Definition vers_in (d : db) (B : Z) : Prop :=
  forall k v, get_value d k = Some v -> -1 <= v_ver v < B.

Definition wr_ver (w : wr) : Z := snd w.

Lemma vers_in_rel d1 d2 B : dbrel d1 d2 -> vers_in d1 B -> vers_in d2 B.
Proof.
  intros H Hv k b Hb. specialize (H k). rewrite Hb in H.
  destruct (get_value d1 k) as [a|] eqn:Ha; [|contradiction].
  destruct H as (_ & Hve & _). rewrite <- Hve. eapply Hv; eauto.
Qed.

Lemma newer_db_step_vers d key value ver id B :
  vers_in d B -> -1 <= ver < B -> B <= i32_max ->
  vers_in (fst (newer_db_step d key value ver id)) (B + 1) /\
  snd (newer_db_step d key value ver id) = RSet key value.
Proof.
  intros Hin Hv HB.
  assert (Hold : forall old, get_value d key = Some old -> v_ver old <> -2 /\ v_ver old < i32_max).
  { intros old Ho. specialize (Hin _ _ Ho). lia. }
  assert (Hv2 : ver <> -2) by lia.
  destruct (newer_db_step_wins d key value ver id Hv2 Hold) as (R & _).
  split; [|exact R]. clear R. intros k. rewrite newer_db_step_eq.
  assert (S : forall z, -1 <= z < B -> -1 <= sat_succ z < B + 1) by (intros z Hz; rewrite sat_succ_lt; lia).
  apply (set_value_range (fun z => -1 <= z < B) (fun z => -1 <= z < B) (fun z => -1 <= z < B + 1)); auto; try lia.
  - unfold newer_ch. destruct (get_value d key) as [old|] eqn:Hg; [destruct (ver_refused _ _)|]; cbn [c_ver]; eauto.
  - exact (Hin k).
Qed.

Theorem newer_run_bounded ws : forall n dbn d B,
  get_db n dbn = Some d -> d_strat d = SNewer -> opps_below n d ->
  vers_in d B -> Forall (fun w => -1 <= wr_ver w < B) ws -> B + Z.of_nat (length ws) <= i32_max ->
  snd (run_writes n dbn ws) = map (fun w => RSet (fst (fst w)) (snd (fst w))) ws /\
  exists d', get_db (fst (run_writes n dbn ws)) dbn = Some d' /\ d_strat d' = SNewer /\
             opps_below (fst (run_writes n dbn ws)) d' /\ vers_in d' (B + Z.of_nat (length ws)).
Proof.
  induction ws as [|[[k v] ver] rest IH]; intros n dbn d B Hdb Hs Hob Hin Hws HB.
  - cbn [run_writes fst snd map length Z.of_nat]. split; [reflexivity|]. exists d.
    split; [exact Hdb|]. split; [exact Hs|]. split; [exact Hob|].
    intros k v Hk. specialize (Hin _ _ Hk). lia.
  - inversion Hws as [|w l Hw Hrest]; subst. unfold wr_ver in Hw. cbn [snd] in Hw.
    cbn [length] in HB. rewrite Nat2Z.inj_succ in HB.
    cbn [run_writes]. destruct (set_key_value n dbn k v ver) as [n1 r] eqn:E.
    destruct (newer_opps_below_inv _ _ _ _ _ _ _ _ Hdb Hs Hob E) as (d1 & G1 & S1 & O1 & _ & Q).
    destruct (newer_db_step_vers d k v ver (n_clock n) B Hin Hw) as [Hin1 R]; [lia|].
    rewrite <- Q in Hin1, R. cbn [fst snd] in Hin1, R. subst r.
    assert (Hrest' : Forall (fun w => -1 <= wr_ver w < B + 1) rest).
    { eapply Forall_impl; [|exact Hrest]. cbv beta. intros; lia. }
    destruct (IH n1 dbn d1 (B + 1) G1 S1 O1 Hin1 Hrest') as (Hrs & d' & G & S & O & V); [lia|].
    destruct (run_writes n1 dbn rest) as [n2 rs]. cbn [fst snd] in *.
    split; [cbn [map fst snd]; now rewrite Hrs|].
    exists d'. split; [exact G|]. split; [exact S|]. split; [exact O|].
    cbn [length]. rewrite Nat2Z.inj_succ. intros k' x Hk. specialize (V _ _ Hk). lia.
Qed.

Theorem newer_last_write_wins_bounded n dbn d ws k v ver B :
  get_db n dbn = Some d -> d_strat d = SNewer -> opps_below n d ->
  vers_in d B -> Forall (fun w => -1 <= wr_ver w < B) ws -> B + Z.of_nat (length ws) <= i32_max ->
  ver <> -2 ->
  let res := run_writes n dbn (ws ++ [(k, v, ver)]) in
  last (snd res) ROk = RSet k v /\
  exists d', get_db (fst res) dbn = Some d' /\ live d' k = Some v.
Proof.
  intros Hdb Hs Hob Hin Hws HB Hv.
  destruct (newer_run_bounded ws n dbn d B Hdb Hs Hob Hin Hws HB) as (_ & dm & Gm & _ & _ & Vm).
  destruct (newer_last_write_wins n dbn d ws k v ver Hdb Hs Hob Hv) as (L & d' & nw & G & Hl & _).
  - intros dm' old Gm' Ho. rewrite Gm in Gm'. injection Gm' as <-.
    specialize (Vm _ _ Ho). lia.
  - cbv zeta. split; [exact L|]. exists d'. auto.
Qed.

(* [newer_last_write_wins_bounded] on every replica: the bound transfers along [dbrel] *)
Corollary newer_last_write_wins_replicas n1 n2 dbn d1 d2 ws k v ver B :
  get_db n1 dbn = Some d1 -> get_db n2 dbn = Some d2 ->
  d_strat d1 = SNewer -> d_strat d2 = SNewer -> dbrel d1 d2 ->
  opps_below n1 d1 -> opps_below n2 d2 ->
  vers_in d1 B -> Forall (fun w => -1 <= wr_ver w < B) ws -> B + Z.of_nat (length ws) <= i32_max ->
  ver <> -2 ->
  exists d1' d2',
    get_db (fst (run_writes n1 dbn (ws ++ [(k, v, ver)]))) dbn = Some d1' /\
    get_db (fst (run_writes n2 dbn (ws ++ [(k, v, ver)]))) dbn = Some d2' /\
    live d1' k = Some v /\ live d2' k = Some v /\ dbrel d1' d2' /\
    snd (run_writes n1 dbn (ws ++ [(k, v, ver)])) = snd (run_writes n2 dbn (ws ++ [(k, v, ver)])).
Proof.
  intros G1 G2 S1 S2 Hrel O1 O2 Hin Hws HB Hv.
  pose proof (vers_in_rel d1 d2 B Hrel Hin) as Hin2.
  destruct (newer_last_write_wins_bounded n1 dbn d1 ws k v ver B G1 S1 O1 Hin Hws HB Hv) as (_ & e1 & E1 & L1).
  destruct (newer_last_write_wins_bounded n2 dbn d2 ws k v ver B G2 S2 O2 Hin2 Hws HB Hv) as (_ & e2 & E2 & L2).
  destruct (newer_replicas_agree (ws ++ [(k, v, ver)]) n1 n2 dbn d1 d2 G1 G2 S1 S2 Hrel O1 O2)
    as (Hr & f1 & f2 & F1 & F2 & Hrel' & _).
  cbv zeta in *. rewrite E1 in F1. rewrite E2 in F2. injection F1 as <-. injection F2 as <-.
  exists e1, e2. repeat split; auto.
  (* replies: equal because all are RSet on n1 up to the last, which is RSet too *)
  clear - Hr G1 S1 O1 Hin Hws HB Hv.
  destruct (newer_run_bounded ws n1 dbn d1 B G1 S1 O1 Hin Hws HB) as (Hrs & dm & Gm & Sm & Om & Vm).
  revert Hr. rewrite !run_writes_app. cbn [fst snd]. rewrite Hrs.
  set (m1 := fst (run_writes n1 dbn ws)) in *.
  cbn [run_writes]. destruct (set_key_value m1 dbn k v ver) as [n' r] eqn:E. cbn [snd].
  assert (Hold : forall old, get_value dm k = Some old -> v_ver old <> -2 /\ v_ver old < i32_max).
  { intros old Ho. specialize (Vm _ _ Ho). lia. }
  destruct (newer_incoming_wins m1 dbn dm k v ver n' r Gm Sm Om Hv Hold E) as (-> & _).
  apply forall2_rset. apply Forall_app. split.
  - apply Forall_forall. intros r Hr. apply in_map_iff in Hr as (w & <- & _). eauto.
  - constructor; eauto.
Qed.


Lemma opps_below_mono n n' d : opps_below n d -> (n_clock n <= n_clock n')%N -> opps_below n' d.
Proof. intros H Hc k v Hk. specialize (H k v Hk). lia. Qed.

Lemma step_set_dbs p c line dbn key value ver d :
  guard_safe p c key PWrite = GGo dbn d ->
  parse_request (trim_char nl line) = POk (RqSet key value ver) ->
  forall x, get_db (fst (step p c line)) x = get_db (fst (set_key_value p dbn key value ver)) x.
Proof.
  intros Hg Hp x. rewrite (step_exec p c line _ Hp) by discriminate. unfold exec.
  rewrite handle_set_eq, Hg.
  destruct (set_key_value p dbn key value ver) as [n1 r]. cbn [fst].
  rewrite get_db_replicate_request. destruct (is_primary n1); reflexivity.
Qed.

Lemma step_set_clock p c line dbn key value ver d :
  guard_safe p c key PWrite = GGo dbn d ->
  parse_request (trim_char nl line) = POk (RqSet key value ver) ->
  (n_clock (fst (set_key_value p dbn key value ver)) <= n_clock (fst (step p c line)))%N.
Proof.
  intros Hg Hp. rewrite (step_exec p c line _ Hp) by discriminate. unfold exec.
  rewrite handle_set_eq, Hg.
  destruct (set_key_value p dbn key value ver) as [n1 r]. cbn [fst].
  eapply N.le_trans; [|apply replicate_request_clock].
  destruct (is_primary n1); cbn; lia.
Qed.

Lemma step_replicate_set s cs dbn key value ver d :
  s_auth (get_sess s cs) = true -> get_db s dbn = Some d ->
  no_sp dbn -> no_sp key -> no_nl key -> no_nl value -> no_semi_end value -> is_i32 ver ->
  (forall x, get_db (fst (step s cs (replicate_msg dbn key value ver))) x =
             get_db (fst (set_key_value s dbn key value ver)) x) /\
  (n_clock (fst (set_key_value s dbn key value ver)) <=
   n_clock (fst (step s cs (replicate_msg dbn key value ver))))%N.
Proof.
  intros Ha Hdb H1 H2 H3 H4 H5 H6.
  rewrite (step_exec s cs _ _ (replicate_text_parses dbn key value ver H1 H2 H3 H4 H5 H6)) by discriminate.
  unfold exec. rewrite handle_replicate_set_eq, Ha, Hdb. cbn [negb].
  destruct (set_key_value s dbn key value ver) as [n1 r]. cbn [fst]. split.
  - intros x. apply get_db_replicate_request.
  - apply replicate_request_clock.
Qed.

(* text level on both sides: the primary executes the client's line (any text that
   parses to [set]/[set-safe] key value ver), the secondary executes the replication
   line [replicate_msg dbn key value ver] on its authenticated replication session *)
Theorem newer_primary_to_secondary p c s cs line dbn key value ver d1 d2 :
  s_db (get_sess p c) = Some dbn -> get_db p dbn = Some d1 ->
  has_permission p c key d1 PWrite = true ->
  (starts_with key "$$" = true -> s_auth (get_sess p c) = true) ->
  parse_request (trim_char nl line) = POk (RqSet key value ver) ->
  s_auth (get_sess s cs) = true -> get_db s dbn = Some d2 ->
  d_strat d1 = SNewer -> d_strat d2 = SNewer -> dbrel d1 d2 ->
  opps_below p d1 -> opps_below s d2 ->
  (* token hypotheses of replicate_roundtrip *)
  no_sp dbn -> no_sp key -> no_nl key -> no_nl value -> no_semi_end value -> is_i32 ver ->
  let p' := fst (step p c line) in
  let s' := fst (step s cs (replicate_msg dbn key value ver)) in
  exists d1' d2',
    get_db p' dbn = Some d1' /\ get_db s' dbn = Some d2' /\ dbrel d1' d2' /\
    d_strat d1' = SNewer /\ d_strat d2' = SNewer /\
    opps_below p' d1' /\ opps_below s' d2' /\
    (forall k, live d1' k = live d2' k).
Proof.
  intros Hsel G1 Hperm Hsec Hparse Ha G2 S1 S2 Hrel O1 O2 T1 T2 T3 T4 T5 T6. cbv zeta.
  pose proof (guard_safe_intro p c key PWrite dbn d1 Hsel G1 Hperm Hsec) as Hg.
  destruct (newer_write_agrees p s dbn d1 d2 key value ver G1 G2 S1 S2 Hrel O1 O2)
    as (_ & e1 & e2 & E1 & E2 & Hrel' & S1' & S2' & O1' & O2').
  destruct (step_replicate_set s cs dbn key value ver d2 Ha G2 T1 T2 T3 T4 T5 T6) as [Hs Hsc].
  exists e1, e2.
  split; [rewrite (step_set_dbs p c line dbn key value ver d1 Hg Hparse); exact E1|].
  split; [rewrite Hs; exact E2|].
  split; [exact Hrel'|]. split; [exact S1'|]. split; [exact S2'|].
  split; [eapply opps_below_mono; [exact O1'|]; eapply step_set_clock; eauto|].
  split; [eapply opps_below_mono; [exact O2'|exact Hsc]|].
  intros k. now apply dbrel_live.
Qed.

(* the line the secondary executes is the one the primary queued for replication: an
   accepted client write puts exactly [rp <id> replicate_msg dbn key value ver] on the
   primary's replication queue and answers ROk *)
Theorem newer_primary_queues p c line dbn key value ver d1 :
  s_db (get_sess p c) = Some dbn -> get_db p dbn = Some d1 ->
  has_permission p c key d1 PWrite = true ->
  (starts_with key "$$" = true -> s_auth (get_sess p c) = true) ->
  parse_request (trim_char nl line) = POk (RqSet key value ver) ->
  d_strat d1 = SNewer -> opps_below p d1 ->
  ver <> -2 ->
  (forall old, get_value d1 key = Some old -> v_ver old <> -2 /\ v_ver old < i32_max) ->
  exists id, (n_clock p < id)%N /\
    step p c line = (fst (step p c line), ROk) /\
    n_repl (fst (step p c line)) = n_repl p ++ [rp_line id (replicate_msg dbn key value ver)].
Proof.
  intros Hsel G1 Hperm Hsec Hparse S1 O1 Hv Hold.
  pose proof (guard_safe_intro p c key PWrite dbn d1 Hsel G1 Hperm Hsec) as Hg.
  rewrite (step_exec p c line _ Hparse) by discriminate. unfold exec.
  rewrite handle_set_eq, Hg, Hsel.
  assert (Hrepl : n_repl (fst (set_key_value p dbn key value ver)) = n_repl p).
  { rewrite (set_key_value_newer p dbn d1 key value ver G1 S1 O1). cbn [fst]. now rewrite n_repl_sends. }
  destruct (set_key_value p dbn key value ver) as [n1 r] eqn:E. cbn [fst] in Hrepl.
  destruct (newer_incoming_wins p dbn d1 key value ver n1 r G1 S1 O1 Hv Hold E)
    as (-> & d' & nw & G' & _ & _ & _ & _ & Hc & _).
  set (n2 := if is_primary n1 then n1 else send_to_primary n1 (replicate_msg dbn key value ver)).
  assert (Hdb2 : get_db n2 dbn = Some d') by (subst n2; destruct (is_primary n1); exact G').
  assert (Hc2 : n_clock n2 = n_clock n1) by (subst n2; destruct (is_primary n1); reflexivity).
  assert (Hr2 : n_repl n2 = n_repl n1) by (subst n2; destruct (is_primary n1); reflexivity).
  unfold replicate_request. unfold has_db. rewrite Hdb2. cbn [negb or_empty fst snd].
  exists (n_clock n2). split; [lia|]. split; [reflexivity|].
  rewrite n_repl_replicate_web. now rewrite Hr2, Hrepl.
Qed.


Definition opps_belowb (n : node) (d : db) : bool :=
  forallb (fun kv => N.ltb (v_opp (snd kv)) (n_clock n)) (d_map d).

Lemma opps_belowb_ok n d : opps_belowb n d = true -> opps_below n d.
Proof.
  unfold opps_belowb. rewrite forallb_forall. intros H k v Hk.
  apply str_get_in in Hk. apply H in Hk. now apply N.ltb_lt in Hk.
Qed.

Definition vers_inb (d : db) (B : Z) : bool :=
  forallb (fun kv => Z.leb (-1) (v_ver (snd kv)) && Z.ltb (v_ver (snd kv)) B) (d_map d).

Lemma vers_inb_ok d B : vers_inb d B = true -> vers_in d B.
Proof.
  unfold vers_inb. rewrite forallb_forall. intros H k v Hk.
  apply str_get_in in Hk. apply H in Hk. cbn [snd] in Hk.
  apply andb_true_iff in Hk as [H1 H2]. apply Z.leb_le in H1. apply Z.ltb_lt in H2. lia.
Qed.

(* a node built through the protocol: admin logs in, creates the newer database "foo",
   selects it and stores key "k" at version 3 (set-safe with version 2) *)
Definition ex_node (clock0 : N) : node :=
  let '(n1, c) := connect (init_node "u" "p" "a" 1 Primary clock0) in
  fold_left (fun n l => fst (step n c l))
            ["auth u p"; "create-db foo tok newer"; "use-db foo tok"; "set-safe k 2 a"] n1.

Definition ex_db (clock0 : N) : db :=
  match get_db (ex_node clock0) "foo" with Some d => d | None => empty_db 0 SNone end.

Definition ex_writes : list wr := [("k", "x", 1); ("k", "y", 3); ("k", "z", 7)].

(* two replicas with clocks 0 and 1000: all hypotheses of newer_replicas_agree hold, the
   key is stored at version 3, the three writes (versions 1, 3: stale; 7: fresh) are all
   answered RSet, and the final value is the last one written, on both *)
Example newer_replicas_example :
  let n1 := ex_node 0 in let n2 := ex_node 1000 in
  let d1 := ex_db 0 in let d2 := ex_db 1000 in
  get_db n1 "foo" = Some d1 /\ get_db n2 "foo" = Some d2 /\
  d_strat d1 = SNewer /\ d_strat d2 = SNewer /\ dbrel d1 d2 /\
  opps_below n1 d1 /\ opps_below n2 d2 /\ d1 <> d2 /\
  (exists v, get_value d1 "k" = Some v /\ v_ver v = 3 /\ v_val v = "a") /\
  snd (run_writes n1 "foo" ex_writes) = [RSet "k" "x"; RSet "k" "y"; RSet "k" "z"] /\
  snd (run_writes n2 "foo" ex_writes) = [RSet "k" "x"; RSet "k" "y"; RSet "k" "z"] /\
  exists e1 e2,
    get_db (fst (run_writes n1 "foo" ex_writes)) "foo" = Some e1 /\
    get_db (fst (run_writes n2 "foo" ex_writes)) "foo" = Some e2 /\
    live e1 "k" = Some "z" /\ live e2 "k" = Some "z" /\ dbrel e1 e2 /\
    get_key_value_new e1 "k" = ("z", 8) /\ get_key_value_new e2 "k" = ("z", 8).
Proof.
  cbv zeta.
  split; [vm_compute; reflexivity|]. split; [vm_compute; reflexivity|].
  split; [vm_compute; reflexivity|]. split; [vm_compute; reflexivity|].
  split; [apply dbrel_of_forall2; vm_compute; repeat constructor; auto|].
  split; [apply opps_belowb_ok; vm_compute; reflexivity|].
  split; [apply opps_belowb_ok; vm_compute; reflexivity|].
  split; [vm_compute; discriminate|].
  split; [eexists; split; [vm_compute; reflexivity|]; split; reflexivity|].
  split; [vm_compute; reflexivity|]. split; [vm_compute; reflexivity|].
  eexists; eexists.
  split; [vm_compute; reflexivity|]. split; [vm_compute; reflexivity|].
  split; [vm_compute; reflexivity|]. split; [vm_compute; reflexivity|].
  split; [apply dbrel_of_forall2; vm_compute; repeat constructor; auto|].
  split; vm_compute; reflexivity.
Qed.

(* the same conclusion obtained from the theorems (their hypotheses are satisfiable); the bound 8 is above
   the stored version 3 and the version arguments 1, 3, 7 *)
Example newer_replicas_example_by_theorem :
  exists e1 e2,
    get_db (fst (run_writes (ex_node 0) "foo" ex_writes)) "foo" = Some e1 /\
    get_db (fst (run_writes (ex_node 1000) "foo" ex_writes)) "foo" = Some e2 /\
    dbrel e1 e2 /\ live e1 "k" = Some "z" /\ live e2 "k" = Some "z".
Proof.
  destruct newer_replicas_example as (G1 & G2 & S1 & S2 & Hrel & O1 & O2 & _).
  destruct (newer_last_write_wins_replicas (ex_node 0) (ex_node 1000) "foo" (ex_db 0) (ex_db 1000)
              [("k", "x", 1); ("k", "y", 3)] "k" "z" 7 8 G1 G2 S1 S2 Hrel O1 O2)
    as (e1 & e2 & E1 & E2 & L1 & L2 & Hrel' & _).
  - apply (vers_inb_ok (ex_db 0) 8). vm_compute. reflexivity.
  - repeat constructor; unfold wr_ver; cbn; lia.
  - vm_compute. discriminate.
  - lia.
  - exists e1, e2. auto.
Qed.

(* replies are related but in general NOT equal: a write refused by version saturation is
   answered with a RVersionError that carries the replica's own op ids *)
Definition sat_db : db := mkDb [("k", mkV "a" i32_max 1 VOk 0 0)] [] 0 1 SNewer.
Definition sat_node (clock0 : N) : node := put_db (init_node "u" "p" "a" 1 Primary clock0) "d" sat_db.

Example newer_refused_replies_differ :
  opps_below (sat_node 0) sat_db /\ opps_below (sat_node 1000) sat_db /\
  snd (set_key_value (sat_node 0) "d" "k" "x" (-1)) <> snd (set_key_value (sat_node 1000) "d" "k" "x" (-1)) /\
  resp_rel (snd (set_key_value (sat_node 0) "d" "k" "x" (-1))) (snd (set_key_value (sat_node 1000) "d" "k" "x" (-1))) /\
  get_db (fst (set_key_value (sat_node 0) "d" "k" "x" (-1))) "d" = Some sat_db.
Proof.
  split; [apply opps_belowb_ok; vm_compute; reflexivity|].
  split; [apply opps_belowb_ok; vm_compute; reflexivity|].
  split; [vm_compute; discriminate|].
  split; [|vm_compute; reflexivity].
  vm_compute. repeat split; auto; intros; discriminate.
Qed.

(* the hypotheses of the handler theorem are satisfiable: client session 0 of the first
   replica sends a stale [set-safe], the second replica executes the replication line *)
Example newer_primary_to_secondary_example :
  exists d1' d2',
    get_db (fst (step (ex_node 0) 0 "set-safe k 1 x")) "foo" = Some d1' /\
    get_db (fst (step (ex_node 1000) 0 (replicate_msg "foo" "k" "x" 1))) "foo" = Some d2' /\
    dbrel d1' d2' /\ live d1' "k" = Some "x" /\ live d2' "k" = Some "x".
Proof.
  destruct newer_replicas_example as (G1 & G2 & S1 & S2 & Hrel & O1 & O2 & _).
  destruct (newer_primary_to_secondary (ex_node 0) 0%nat (ex_node 1000) 0%nat "set-safe k 1 x"
              "foo" "k" "x" 1 (ex_db 0) (ex_db 1000))
    as (d1' & d2' & E1 & E2 & Hrel' & _ & _ & _ & _ & Hl);
    [ | exact G1 | | | | | exact G2 | exact S1 | exact S2 | exact Hrel | exact O1 | exact O2
      | | | | | | unfold is_i32; lia | ].
  (* the side conditions only: on the main goal [discriminate] would make the tactic
     engine evaluate [step] in E1 *)
  1-10: first [vm_compute; reflexivity | vm_compute; discriminate].
  exists d1', d2'. split; [exact E1|]. split; [exact E2|]. split; [exact Hrel'|].
  assert (L : live d1' "k" = Some "x").
  { revert E1. vm_compute. intros [= <-]. reflexivity. }
  split; [exact L|]. now rewrite <- Hl.
Qed.

Check newer_incoming_wins.
Print Assumptions newer_incoming_wins.
Check newer_opps_below_inv.
Print Assumptions newer_opps_below_inv.
Check newer_opps_below_run.
Print Assumptions newer_opps_below_run.
Check newer_replicas_agree.
Print Assumptions newer_replicas_agree.
Check newer_replicas_replies.
Print Assumptions newer_replicas_replies.
Check newer_last_write_wins.
Print Assumptions newer_last_write_wins.
Check newer_last_write_wins_bounded.
Print Assumptions newer_last_write_wins_bounded.
Check newer_last_write_wins_replicas.
Print Assumptions newer_last_write_wins_replicas.
Check newer_primary_to_secondary.
Print Assumptions newer_primary_to_secondary.
Check newer_primary_queues.
Print Assumptions newer_primary_queues.
Check newer_replicas_example.
Print Assumptions newer_replicas_example.
