(* C19 under lock-level interleavings: a REFUTATION WITNESS (known finding).

   Property C19: on a database with the `newer` conflict strategy "a write whose version is
   stale is resolved in favour of the most recently issued change".  With two concurrent
   clients this is false of the model (Model/Sched.v) -- and of the real code, which agrees
   with the model on all 252 interleavings of the program below.

   The cause ([resolving_write_unchecked]): a `set-safe` that meets a version
   conflict and finds the stored op id OLDER than its own does not write inside the critical
   section in which it compared the op ids: it gives the map lock up, draws a FRESH op id and
   parks again in front of map.write with a "resolving" change; that second critical section
   writes without looking at op ids at all.  Whatever was stored between the two sections is
   overwritten (manifestation 1, [newer_resolution_overwrites]), and the value it stores is
   stamped with the fresh op id, which makes a change that was issued LATER -- but had not
   reached its first write yet -- look stale (manifestation 2, [newer_resolution_restamps]).

   Program: database "d1" (strategy newer), key "a" at version 1;
            thread 0 = session 1 runs  set-safe a 0 x1   ("A"),
            thread 1 = session 2 runs  set-safe a 0 y1   ("B").
   Releases of one set-safe:  1 cmd -> map.read (permission lookup) | 2 guard, Change::new (op id
   drawn: the change is ISSUED) -> map.write | 3 first write | [4 resolving write] | 5 notify.  *)
From NunDB Require Import Model.Base Model.Pending Model.Parse Model.Node Model.Sched
  Proofs.AssocLemmas Proofs.NodeLemmas Proofs.DbProofs Proofs.SchedProofs.
Local Open Scope Z_scope.

(* Releasing a thread parked at map.write with a RESOLVING change stores the change's value
   under the change's op id, whatever op id the stored entry carries: there is no hypothesis
   on [v_opp] of the stored entry, nor on the strategy of the database.  (Side conditions as
   in [resolving_set_succeeds]: the stored entry is not marked in conflict (-2) and its version
   is below i32::MAX.)  This is [SchedProofs.newer_resolving_release] read through [fst] / [snd],
   with the frame on the other keys. *)
Lemma resolving_write_unchecked n t dbn key value ver opp orig d :
  t_pc t = PcSetWrite dbn key value ver opp true orig ->
  get_db n dbn = Some d ->
  (forall old, get_value d key = Some old -> v_ver old <> -2 /\ v_ver old < i32_max) ->
  exists d1 nw,
    get_db (fst (release n t)) dbn = Some d1 /\
    get_value d1 key = Some nw /\ v_val nw = value /\ v_opp nw = opp /\
    (forall k, k <> key -> get_value d1 k = get_value d k) /\
    (exists nv, t_pc (snd (release n t)) = PcNotify dbn key value nv (RqSet key value orig)) /\
    t_replies (snd (release n t)) = t_replies t.
Proof.
  intros Hpc Hdb Hold.
  destruct (newer_resolving_release n t dbn key value ver opp orig d Hpc Hdb Hold)
    as (d1 & nw & nv & E & Hd1 & Hg & Hv & Ho & Hnv).
  exists d1, nw. rewrite E. cbn [fst snd]. rewrite get_db_put_same.
  repeat split; auto.
  - intros k Hk. subst d1. cbn [db_apply'].
    apply (set_value_other d (mkCh key value ver opp true) k). exact Hk.
  - exists nv. reflexivity.
Qed.

(* in particular: a stored entry that is strictly NEWER than the resolving change (by op id)
   is overwritten all the same *)
Corollary resolving_write_overwrites_newer n t dbn key value ver opp orig d old :
  t_pc t = PcSetWrite dbn key value ver opp true orig ->
  get_db n dbn = Some d ->
  get_value d key = Some old -> v_ver old <> -2 -> v_ver old < i32_max ->
  (opp < v_opp old)%N ->
  exists d1 nw,
    get_db (fst (release n t)) dbn = Some d1 /\
    get_value d1 key = Some nw /\ v_val nw = value /\ (v_opp nw < v_opp old)%N.
Proof.
  intros Hpc Hdb Hg H2 Hm Hlt.
  destruct (resolving_write_unchecked n t dbn key value ver opp orig d Hpc Hdb)
    as (d1 & nw & A & B & C & D & _).
  - intros o. rewrite Hg. intros [= <-]. auto.
  - exists d1, nw. rewrite D. auto.
Qed.

Definition nr_steps (n : node) (c : nat) (ls : list str) : node :=
  fold_left (fun n l => fst (step n c l)) ls n.

Definition nr_node : node :=
  let '(n, c0) := connect (init_node "nun" "pwd" "a" 1 Primary 0) in
  let '(n, c1) := connect n in
  let '(n, c2) := connect n in
  let n := nr_steps n c0 ["auth nun pwd"; "create-db d1 tok1 newer"; "use-db d1 tok1";
                          "set a i0"; "set a i1"] in
  let n := nr_steps n c1 ["use-db d1 tok1"] in
  nr_steps n c2 ["use-db d1 tok1"].

Definition nr_ts (k : str) : list thr :=
  [new_thread 1 ["set-safe " +++ k +++ " 0 x1"] [];
   new_thread 2 ["set-safe " +++ k +++ " 0 y1"] []].

Definition nr_look (n : node) (k : str) : option value :=
  match get_db n "d1" with Some d => get_value d k | None => None end.
Definition nr_val (n : node) (k : str) : option str := option_map v_val (nr_look n k).

(* the value thread [i] of [nr_ts] writes *)
Definition nr_value_of (i : nat) : str := match i with O => "x1" | _ => "y1" end.

Definition pc_opp (p : pc) : option N :=
  match p with PcSetWrite _ _ _ _ opp _ _ => Some opp | _ => None end.
Definition pc_resolving (p : pc) : bool :=
  match p with PcSetWrite _ _ _ _ _ r _ => r | _ => false end.

Example nr_node_ok :
  option_map d_strat (get_db nr_node "d1") = Some SNewer /\
  nr_look nr_node "a" = Some (mkV "i1" 1 8 VNew 0 0) /\
  nr_look nr_node "b" = None /\
  map (fun c => s_db (get_sess nr_node c)) [1; 2]%nat = [Some "d1"; Some "d1"] /\
  Forall sched_thr (nr_ts "a") /\ Forall sched_thr (nr_ts "b").
Proof.
  split; [vm_compute; reflexivity|]. split; [vm_compute; reflexivity|].
  split; [vm_compute; reflexivity|]. split; [vm_compute; reflexivity|].
  split; (constructor; [|constructor; [|constructor]]);
    (apply sched_thr_dec_sound; [vm_compute; reflexivity | exact I]).
Qed.

Definition sched_overwrite : list nat := [0;0;0;1;1;1;1;0;0;1]%nat.
Definition sched_restamp : list nat := [0;0;1;1;0;0;0;1;1;1]%nat.

(* A: lookup, issue (op id 12), first write: conflict with the stored i1 (op id 8 < 12): A decides
   it wins and parks again.  B: lookup, issue (op id 14 > 12), first write: conflict, wins, parks;
   resolving write: y1 stored.  A: resolving write: x1 stored OVER y1.  Both notify.
   The change issued FIRST is what the database ends with. *)
Example newer_resolution_overwrites :
  (* after A's three and B's two first releases: A parked with its resolving change, B just issued *)
  let mid := run_schedule nr_node (nr_ts "a") (firstn 5 sched_overwrite) in
  (* ... two more releases of B: y1 is in the map, A still parked in front of map.write *)
  let mid2 := run_schedule nr_node (nr_ts "a") (firstn 7 sched_overwrite) in
  let fin := run_schedule nr_node (nr_ts "a") sched_overwrite in
  (* the op ids drawn at issue (A's was 12: see its first-write pc one release earlier) *)
  map t_pc (snd (run_schedule nr_node (nr_ts "a") (firstn 2 sched_overwrite))) =
    [PcSetWrite "d1" "a" "x1" 0 12 false 0; PcCmd] /\
  map t_pc (snd mid) =
    [PcSetWrite "d1" "a" "x1" 1 13 true 0; PcSetWrite "d1" "a" "y1" 0 14 false 0] /\
  (12 < 14)%N /\
  nr_val (fst mid) "a" = Some "i1" /\
  (* B's value is stored while A is parked at its second map.write *)
  nr_look (fst mid2) "a" = Some (mkV "y1" 2 15 VNew 0 0) /\
  map (fun t => pc_resolving (t_pc t)) (snd mid2) = [true; false] /\
  (* the end: both done, both answered Ok, x1 stored *)
  map t_pc (snd fin) = [PcDone; PcDone] /\
  map t_replies (snd fin) = [[ROk]; [ROk]] /\
  nr_look (fst fin) "a" = Some (mkV "x1" 3 13 VNew 0 0) /\
  map t_trace (snd fin) =
    [["cmd"; "map.read"; "map.write"; "map.write"; "watchers.read"];
     ["cmd"; "map.read"; "map.write"; "map.write"; "watchers.read"]] /\
  (* and nothing is left to run *)
  run_par nr_node (nr_ts "a") sched_overwrite = fin.
Proof. vm_compute. repeat split. Qed.

(* Both issue (A: 12, B: 13).  A runs its first write (conflict, 8 < 12, parks with the fresh op id
   14) and its resolving write: x1 stored with op id 14 > 13.  B's first write now finds the stored
   op id larger than its own, keeps x1 and answers: B never reaches a second map.write. *)
Example newer_resolution_restamps :
  let mid := run_schedule nr_node (nr_ts "a") (firstn 4 sched_restamp) in
  let mid2 := run_schedule nr_node (nr_ts "a") (firstn 7 sched_restamp) in
  let mid3 := run_schedule nr_node (nr_ts "a") (firstn 8 sched_restamp) in
  let fin := run_schedule nr_node (nr_ts "a") sched_restamp in
  (* both issued: A before B *)
  map t_pc (snd mid) =
    [PcSetWrite "d1" "a" "x1" 0 12 false 0; PcSetWrite "d1" "a" "y1" 0 13 false 0] /\
  (12 < 13)%N /\
  (* A is through: x1 stored under a fresh op id, larger than the one B was issued *)
  map t_pc (snd mid2) = [PcDone; PcSetWrite "d1" "a" "y1" 0 13 false 0] /\
  nr_look (fst mid2) "a" = Some (mkV "x1" 2 14 VNew 0 0) /\
  (13 < 14)%N /\
  (* B's first write is its last release: the old value is kept, B is answered at once *)
  map t_pc (snd mid3) = [PcDone; PcDone] /\
  fin = mid3 /\
  map t_replies (snd fin) = [[ROk]; [ROk]] /\
  nr_look (fst fin) "a" = Some (mkV "x1" 2 14 VNew 0 0) /\
  map t_trace (snd fin) =
    [["cmd"; "map.read"; "map.write"; "map.write"; "watchers.read"];
     ["cmd"; "map.read"; "map.write"]] /\
  run_par nr_node (nr_ts "a") sched_restamp = fin.
Proof. vm_compute. repeat split. Qed.

(* the reply of the keep-old branch before the replication tail turns it into Ok: it names the
   value that was kept *)
Example newer_restamp_reply_names_kept_value :
  let mid2 := run_schedule nr_node (nr_ts "a") (firstn 7 sched_restamp) in
  exists t d old,
    nth_error (snd mid2) 1 = Some t /\ get_db (fst mid2) "d1" = Some d /\
    get_value d "a" = Some old /\ v_val old = "x1" /\
    N.ltb (v_opp old) 13 = false /\
    release (fst mid2) t =
      complete (fst mid2) t (RqSet "a" "y1" 0) (Some "d1") (RSet "a" (v_val old)).
Proof.
  cbn zeta.
  destruct (run_schedule nr_node (nr_ts "a") (firstn 7 sched_restamp)) as [n ts] eqn:E.
  vm_compute in E. injection E as <- <-.
  eexists _, _, _.
  split; [vm_compute; reflexivity|]. split; [vm_compute; reflexivity|].
  split; [vm_compute; reflexivity|]. split; [vm_compute; reflexivity|].
  split; vm_compute; reflexivity.
Qed.

(* all interleavings of [a] releases of thread 0 and [b] releases of thread 1 *)
Fixpoint interleavings_aux (fuel a b : nat) : list (list nat) :=
  match fuel with
  | O => [[]]
  | S f =>
      match a, b with
      | O, O => [[]]
      | S a', O => map (cons 0%nat) (interleavings_aux f a' O)
      | O, S b' => map (cons 1%nat) (interleavings_aux f O b')
      | S a', S b' => map (cons 0%nat) (interleavings_aux f a' b) ++
                      map (cons 1%nat) (interleavings_aux f a b')
      end
  end.
Definition interleavings (a b : nat) : list (list nat) := interleavings_aux (a + b) a b.

(* 5 is the most releases one set-safe takes (the resolving write is the optional fourth); a release of
   a finished thread does nothing (Sched.release_nth), so runs that need fewer are included: the 252 =
   C(10,5) lists, and the 84 / 168 below, count schedules, not distinct executions. *)
Definition all_schedules : list (list nat) := interleavings 5 5.

Example all_schedules_ok :
  List.length all_schedules = 252%nat /\
  forallb (fun s => Nat.eqb (count_occ Nat.eq_dec s 0%nat) 5 && Nat.eqb (count_occ Nat.eq_dec s 1%nat) 5)
          all_schedules = true /\
  In sched_overwrite all_schedules /\ In sched_restamp all_schedules /\
  NoDup all_schedules.
Proof.
  split; [vm_compute; reflexivity|]. split; [vm_compute; reflexivity|].
  set (eqb := fun s s' : list nat => if list_eq_dec Nat.eq_dec s s' then true else false).
  assert (eqb_spec : forall a b, reflect (a = b) (eqb a b))
    by (intros a b; unfold eqb; destruct (list_eq_dec Nat.eq_dec a b); constructor; assumption).
  split; [apply (ListLemmas.existsb_eqb_In eqb eqb_spec); vm_compute; reflexivity|].
  split; [apply (ListLemmas.existsb_eqb_In eqb eqb_spec); vm_compute; reflexivity|].
  apply (ListLemmas.nodupb_NoDup eqb eqb_spec). vm_compute. reflexivity.
Qed.

(* the op ids the threads were ISSUED: what each thread holds the first time it is seen parked at
   map.write with a non-resolving change (the release that ran Change::new) *)
Definition note_issue (ts : list thr) (ids : list (option N)) : list (option N) :=
  map (fun p => match snd p with
                | Some id => Some id
                | None => match t_pc (fst p) with
                          | PcSetWrite _ _ _ _ opp false _ => Some opp
                          | _ => None
                          end
                end) (combine ts ids).

Definition issue_step (acc : node * list thr * list (option N)) (i : nat) :=
  let '(n0, ts0, ids) := acc in
  let '(n1, ts1) := release_nth n0 ts0 i in
  (n1, ts1, note_issue ts1 ids).

(* run_schedule with a ghost: the issue op ids *)
Definition run_issue (n : node) (ts : list thr) (sched : list nat) : node * list thr * list (option N) :=
  fold_left issue_step sched (n, ts, map (fun _ => None) ts).

Lemma run_issue_schedule_gen s : forall n ts ids,
  fst (fold_left issue_step s (n, ts, ids)) = run_schedule n ts s.
Proof.
  unfold run_schedule. induction s as [|i r IH]; intros n ts ids; cbn [fold_left]; [reflexivity|].
  unfold issue_step at 2. cbn [fst snd]. destruct (release_nth n ts i) as [n1 ts1]. apply IH.
Qed.

Lemma run_issue_schedule n ts s : fst (run_issue n ts s) = run_schedule n ts s.
Proof. apply run_issue_schedule_gen. Qed.

(* position of the second release of thread [i] in a schedule (its issue release) *)
Fixpoint second_pos (i : nat) (seen : nat) (pos : nat) (s : list nat) : option nat :=
  match s with
  | [] => None
  | j :: r => if Nat.eqb i j
              then match seen with O => second_pos i 1 (S pos) r | _ => Some pos end
              else second_pos i seen (S pos) r
  end.

Definition later_second (s : list nat) : option nat :=
  match second_pos 0 0 0 s, second_pos 1 0 0 s with
  | Some p0, Some p1 => Some (if Nat.ltb p0 p1 then 1 else 0)%nat
  | _, _ => None
  end.

Definition issued_last (ids : list (option N)) : option nat :=
  match ids with
  | [Some a; Some b] => Some (if N.ltb a b then 1%nat else 0%nat)
  | _ => None
  end.
Definition issued_first (ids : list (option N)) : option nat :=
  option_map (fun i => (1 - i)%nat) (issued_last ids).

Definition val_is (n : node) (k v : str) : bool :=
  match nr_val n k with Some x => String.eqb x v | None => false end.

(* for the two schedules above the change issued last (B's) wins on a new key *)
Example newer_new_key_consistent :
  let f1 := run_schedule nr_node (nr_ts "b") sched_overwrite in
  let f2 := run_schedule nr_node (nr_ts "b") sched_restamp in
  nr_look nr_node "b" = None /\
  map t_pc (snd f1) = [PcDone; PcDone] /\ map t_replies (snd f1) = [[ROk]; [ROk]] /\
  nr_val (fst f1) "b" = Some "y1" /\
  snd (run_issue nr_node (nr_ts "b") sched_overwrite) = [Some 12%N; Some 13%N] /\
  map t_pc (snd f2) = [PcDone; PcDone] /\ map t_replies (snd f2) = [[ROk]; [ROk]] /\
  nr_val (fst f2) "b" = Some "y1" /\
  snd (run_issue nr_node (nr_ts "b") sched_restamp) = [Some 12%N; Some 13%N].
Proof. vm_compute. repeat split. Qed.

(* what holds of one schedule on key [k]: both threads finish, both are answered Ok, both were
   issued an op id, the op ids order the threads as their second releases do; the value stored at
   the end is that of the thread issued last if [issued_lastQ], of the other thread if not *)
Definition sched_outcome (k : str) (s : list nat) (issued_lastQ : bool) : Prop :=
  let '(n, ts, ids) := run_issue nr_node (nr_ts k) s in
  map t_pc ts = [PcDone; PcDone] /\ map t_replies ts = [[ROk]; [ROk]] /\
  exists i, issued_last ids = Some i /\ later_second s = Some i /\
            nr_val n k = Some (nr_value_of (if issued_lastQ then i else (1 - i)%nat)).

Definition nr_run : Type := node * list thr * list (option N).

(* [sched_outcome] decided on the result of a run *)
Definition outcomeb (k : str) (s : list nat) (issued_lastQ : bool) (r : nr_run) : bool :=
  let '(n, ts, ids) := r in
  match ts with
  | [t1; t2] =>
      match t_pc t1, t_pc t2, t_replies t1, t_replies t2, issued_last ids, later_second s with
      | PcDone, PcDone, [ROk], [ROk], Some i, Some j =>
          Nat.eqb i j && val_is n k (nr_value_of (if issued_lastQ then i else (1 - i)%nat))
      | _, _, _, _, _, _ => false
      end
  | _ => false
  end.

Lemma outcomeb_sound k s q :
  outcomeb k s q (run_issue nr_node (nr_ts k) s) = true -> sched_outcome k s q.
Proof.
  unfold sched_outcome, outcomeb. destruct (run_issue nr_node (nr_ts k) s) as [[n ts] ids].
  destruct ts as [|t1 [|t2 [|]]]; try discriminate.
  destruct (t_pc t1) eqn:P1; try discriminate. destruct (t_pc t2) eqn:P2; try discriminate.
  destruct (t_replies t1) as [|[] []] eqn:R1; try discriminate.
  destruct (t_replies t2) as [|[] []] eqn:R2; try discriminate.
  destruct (issued_last ids) as [i|]; [|discriminate].
  destruct (later_second s) as [j|]; [|discriminate].
  intros H. apply andb_true_iff in H as [Hij Hv]. apply Nat.eqb_eq in Hij as <-.
  cbn [map]. rewrite P1, P2, R1, R2. split; [reflexivity|]. split; [reflexivity|].
  exists i. split; [reflexivity|]. split; [reflexivity|].
  unfold val_is in Hv. destruct (nr_val n k) as [x|]; [|discriminate].
  now apply String.eqb_eq in Hv as ->.
Qed.

(* is the value of the thread that [who] picks by the op ids the one stored at the end of the run;
   [first_issued_stored k s] is [storedb k issued_first (run_issue nr_node (nr_ts k) s)] by
   conversion, and so for [last_issued_stored]: [newer_existing_key_count] relies on it *)
Definition storedb (k : str) (who : list (option N) -> option nat) (r : nr_run) : bool :=
  let '(n, _, ids) := r in
  match who ids with Some i => val_is n k (nr_value_of i) | None => false end.

Definition first_issued_stored (k : str) (s : list nat) : bool :=
  let '(n, ts, ids) := run_issue nr_node (nr_ts k) s in
  match issued_first ids with Some i => val_is n k (nr_value_of i) | None => false end.
Definition last_issued_stored (k : str) (s : list nat) : bool :=
  let '(n, ts, ids) := run_issue nr_node (nr_ts k) s in
  match issued_last ids with Some i => val_is n k (nr_value_of i) | None => false end.

(* All 252 runs on key [k], each looked at once: was the change issued first stored, was the one
   issued last, and [outcomeb] with the flag that [q] reads off the run.  The start node is
   handed over as an argument, so that its evaluation is shared by the runs. *)
Definition verdicts (k : str) (q : nr_run -> bool) : list (bool * bool * bool) :=
  (fun n0 => map (fun s => let r := run_issue n0 (nr_ts k) s in
                           (storedb k issued_first r, storedb k issued_last r, outcomeb k s (q r) r))
                 all_schedules) nr_node.

Lemma verdicts_sound k q : forallb snd (verdicts k q) = true ->
  forall s, In s all_schedules -> sched_outcome k s (q (run_issue nr_node (nr_ts k) s)).
Proof.
  intros H s Hs. apply outcomeb_sound. unfold verdicts in H. rewrite forallb_forall in H.
  exact (H _ (in_map _ _ s Hs)).
Qed.

(* key "b" (absent): every run ends as [sched_outcome] says with the change issued last stored,
   none with the one issued first.  The table of 252 verdicts is evaluated once and put in place of
   the expression, so that each conjunct reads it off. *)
Lemma verdicts_new_key :
  let T := verdicts "b" (fun _ => true) in
  forallb snd T = true /\ List.length (filter (fun v => fst (fst v)) T) = 0%nat.
Proof.
  cbn zeta.
  let T := eval vm_compute in (verdicts "b" (fun _ => true)) in
  replace (verdicts "b" (fun _ => true)) with T by (vm_compute; reflexivity).
  split; vm_compute; reflexivity.
Qed.

(* the flag that goes with a run on key "a": the change issued last is stored unless the one
   issued first is *)
Definition last_unless_first (r : nr_run) : bool := negb (storedb "a" issued_first r).

(* key "a" (present, version 1): 84 schedules end with the change issued first stored (the two
   manifestations of the head comment; [sched_overwrite] and [sched_restamp] are among them), the
   other 168 with the one issued last *)
Lemma verdicts_existing_key :
  let T := verdicts "a" last_unless_first in
  forallb snd T = true /\
  List.length (filter (fun v => fst (fst v)) T) = 84%nat /\
  List.length (filter (fun v => snd (fst v)) T) = 168%nat.
Proof.
  cbn zeta.
  let T := eval vm_compute in (verdicts "a" last_unless_first) in
  replace (verdicts "a" last_unless_first) with T by (vm_compute; reflexivity).
  repeat split; vm_compute; reflexivity.
Qed.

(* This program (two threads, one set-safe each, key "b" absent), all 252 interleavings of
   5 + 5 releases.  Both threads finish, both are answered Ok, and the final value is that of the
   thread that was issued its change LAST (by op id; equivalently the thread whose second
   release comes last). *)
Theorem newer_new_key_all_schedules :
  List.length all_schedules = 252%nat /\
  forall s, In s all_schedules -> sched_outcome "b" s true.
Proof.
  split; [exact (proj1 all_schedules_ok)|].
  exact (verdicts_sound "b" (fun _ => true) (proj1 verdicts_new_key)).
Qed.

(* This program on key "a" (present, version 1), all 252 interleavings of 5 + 5 releases:
   on 84 of them the change that was issued FIRST is the one stored at the end, on the other
   168 it is the one issued last.  (Same numbers as the real code under the same schedules.) *)
Theorem newer_existing_key_count :
  List.length (filter (first_issued_stored "a") all_schedules) = 84%nat /\
  List.length (filter (last_issued_stored "a") all_schedules) = 168%nat /\
  In sched_overwrite (filter (first_issued_stored "a") all_schedules) /\
  In sched_restamp (filter (first_issued_stored "a") all_schedules) /\
  List.length (filter (first_issued_stored "b") all_schedules) = 0%nat.
Proof.
  destruct verdicts_existing_key as (_ & Hf & Hl). destruct verdicts_new_key as (_ & Hb).
  unfold verdicts in Hf, Hl, Hb. rewrite ListLemmas.filter_map_length in Hf, Hl, Hb.
  split; [exact Hf|]. split; [exact Hl|].
  pose proof all_schedules_ok as (_ & _ & H1 & H2 & _).
  split; [apply (proj2 (filter_In (first_issued_stored "a") sched_overwrite all_schedules)); split; [exact H1 | vm_compute; reflexivity]|].
  split; [apply (proj2 (filter_In (first_issued_stored "a") sched_restamp all_schedules)); split; [exact H2 | vm_compute; reflexivity]|].
  exact Hb.
Qed.

(* every schedule on "a" also ends with both threads done and answered Ok, and one of the two
   values stored; which one is decided as counted above *)
Theorem newer_existing_key_all_schedules :
  forall s, In s all_schedules ->
    sched_outcome "a" s (negb (first_issued_stored "a" s)).
Proof. exact (verdicts_sound "a" last_unless_first (proj1 verdicts_existing_key)). Qed.

Check resolving_write_unchecked.
Check resolving_write_overwrites_newer.
Check newer_resolution_overwrites.
Check newer_resolution_restamps.
Check newer_restamp_reply_names_kept_value.
Check newer_new_key_consistent.
Check newer_new_key_all_schedules.
Check newer_existing_key_count.
Check newer_existing_key_all_schedules.
Print Assumptions resolving_write_unchecked.
Print Assumptions resolving_write_overwrites_newer.
Print Assumptions newer_resolution_overwrites.
Print Assumptions newer_resolution_restamps.
Print Assumptions newer_new_key_consistent.
Print Assumptions newer_new_key_all_schedules.
Print Assumptions newer_existing_key_count.
Print Assumptions newer_existing_key_all_schedules.
