(* SnapshotReplProofs.v -- property C04 (live replication converges), the `snapshot` command.

   A primary that handles `snapshot <reclaim> <names>` registers the NAMED databases (or, when no
   name is given, the database the session selected) in its pending-snapshot list [n_snap] and
   queues the line `rp <id> replicate-snapshot <names joined by |> <true|false>` for the
   secondaries; a secondary that receives the line registers exactly the same pairs.
   The defect class excluded: the primary snapshots the named databases while telling the
   secondaries to snapshot the selected one. *)
From NunDB Require Import Proofs.AssocLemmas Proofs.StrLemmas Proofs.NodeLemmas Proofs.ArbiterClusterProofs
  Model.Base Model.Pending Model.Parse Model.Node Model.Oplog Model.Cluster
  Proofs.PendingProofs Proofs.DbProofs Proofs.ClusterProofs Proofs.ConnProofs
  Proofs.ConvergeProofs.


(* the request text [replicate_request] hands to [replicate_web] *)
Definition snap_req (names : list str) (reclaim : bool) : str :=
  "replicate-snapshot " +++ join "|" names +++ " " +++ (if reclaim then "true" else "false").

(* a name that survives [join "|"] and the parser's split: each of the three conditions is needed
   ([roundtrip_needs_no_bar], [roundtrip_needs_no_sp]), and such names can be created ([ex_pb]) *)
Definition snap_tok (s : str) : Prop := no_sp s /\ no_nl s /\ nochar "|" s = true.

Lemma simple_tok_snap_tok s : simple_tok s -> nochar "|" s = true -> snap_tok s.
Proof. intros H Hb. split; [now apply tok_no_sp|]. split; [now apply tok_no_nl|exact Hb]. Qed.

Lemma snap_toks_sp names : Forall snap_tok names -> no_sp (join "|" names).
Proof.
  intros H. apply nochar_join; [reflexivity|]. eapply Forall_impl; [|exact H]. intros s Hs. apply Hs.
Qed.
Lemma snap_toks_nl names : Forall snap_tok names -> no_nl (join "|" names).
Proof.
  intros H. apply nochar_join; [reflexivity|]. eapply Forall_impl; [|exact H]. intros s Hs. apply Hs.
Qed.
Lemma snap_toks_bar names : Forall snap_tok names -> Forall (fun s => nochar "|" s = true) names.
Proof. intros H. eapply Forall_impl; [|exact H]. intros s Hs. apply Hs. Qed.

Lemma parse_cmd_replicate_snapshot args : parse_cmd "replicate-snapshot" args = Some (
    match hd_opt args with
    | None => PErr "replicate-snapshot must contain a db name"
    | Some dbn =>
        let reclaim := match hd_opt (tl args) with Some r => String.eqb (strip_nl r) "true" | None => false end in
        POk (RqReplicateSnapshot reclaim (split_char "|" (strip_nl dbn)))
    end).
Proof. reflexivity. Qed.

Lemma flag_semi (b : bool) : no_semi_end (if b then "true" else "false").
Proof. destruct b; intros H; discriminate H. Qed.

Lemma snap_req_semi names reclaim : no_semi_end (snap_req names reclaim).
Proof.
  unfold snap_req. rewrite <- app_assoc_s. apply no_semi_end_sep, flag_semi.
Qed.

Lemma snap_req_ne names reclaim : snap_req names reclaim <> "".
Proof. discriminate. Qed.

Theorem snapshot_line_roundtrip (names : list str) (reclaim : bool) :
  names <> [] -> Forall snap_tok names ->
  parse_request ("replicate-snapshot " +++ join "|" names +++ " " +++ (if reclaim then "true" else "false"))
  = POk (RqReplicateSnapshot reclaim names).
Proof.
  intros Hne Ht.
  change ("replicate-snapshot " +++ join "|" names +++ " " +++ (if reclaim then "true" else "false"))
    with ("replicate-snapshot" +++ " " +++ join "|" names +++ " " +++ (if reclaim then "true" else "false")).
  rewrite parse_request_3; try reflexivity; try discriminate; try (now apply snap_toks_sp).
  2:{ repeat (rewrite <- app_assoc_s); rewrite app_assoc_s. apply no_semi_end_sep, flag_semi. }
  rewrite parse_cmd_replicate_snapshot. cbn [hd_opt tl]. cbv zeta.
  rewrite (strip_nl_noop (join "|" names)) by (now apply snap_toks_nl).
  rewrite split_char_join by (auto using snap_toks_bar).
  destruct reclaim; reflexivity.
Qed.

Lemma no_nl_snap_req names reclaim : Forall snap_tok names -> no_nl (snap_req names reclaim).
Proof. intros H. apply snap_toks_nl in H. unfold snap_req. destruct reclaim; auto with nonl. Qed.

Lemma snap_req_trim names reclaim : Forall snap_tok names ->
  trim_char nl (snap_req names reclaim) = snap_req names reclaim.
Proof. intros H. now apply trim_nl_id, no_nl_snap_req. Qed.


(* the databases a `snapshot` request addresses: the named ones, else the selected one *)
Definition snap_targets (sel : option str) (names : list str) : list str :=
  match names with [] => [or_empty sel] | _ => names end.

(* the session's selection, if any, names an existing database (an invariant of every run:
   ConnProofs.sel_exists) *)
Definition sel_ok (n : node) (c : nat) : Prop :=
  match s_db (get_sess n c) with Some nm => has_db n nm = true | None => True end.

Lemma sel_exists_sel_ok n c : sel_exists n -> sel_ok n c.
Proof.
  intros H. unfold sel_ok. destruct (s_db (get_sess n c)) as [nm|] eqn:E; [|exact I].
  specialize (H c nm E). unfold has_db. destruct (get_db n nm); congruence.
Qed.

Definition all_dbs (n : node) (names : list str) : Prop := Forall (fun nm => has_db n nm = true) names.

(* the list of missing names that Node.handle computes in its RqSnapshot branch *)
Lemma missing_nil n names : all_dbs n names ->
  filter (fun nm => match get_db n nm with Some _ => false | None => true end) names = [].
Proof.
  intros H. induction H as [|x l Hx Hl IH]; [reflexivity|].
  cbn [filter]. unfold has_db in Hx. destruct (get_db n x); [exact IH|discriminate].
Qed.

Lemma missing_in n names nm : In nm names -> has_db n nm = false ->
  In nm (filter (fun nm => match get_db n nm with Some _ => false | None => true end) names).
Proof.
  intros Hin Hd. apply filter_In. split; [exact Hin|]. unfold has_db in Hd.
  destruct (get_db n nm); [discriminate|reflexivity].
Qed.

Lemma n_set_snap_id n : n_set_snap n (n_snap n) = n.
Proof. destruct n; reflexivity. Qed.

Lemma n_set_snap_twice n a b : n_set_snap (n_set_snap n a) b = n_set_snap n b.
Proof. reflexivity. Qed.

(* the handler of `replicate-snapshot`: one step per name *)
Definition rsnap_step (rc : bool) (acc : node * resp) (nm : str) : node * resp :=
  let '(n0, r0) := acc in
  match get_db n0 nm with
  | Some _ => (n_set_snap n0 (n_snap n0 ++ [(nm, rc)]), r0)
  | None => (n0, RError ("Error trying to snapshot database: Database " +++ nm +++ " not found"))
  end.

Lemma handle_replicate_snapshot_eq n c rc names :
  handle n c (RqReplicateSnapshot rc names) =
  if negb (s_auth (get_sess n c)) then (n, not_auth) else fold_left (rsnap_step rc) names (n, ROk).
Proof. reflexivity. Qed.

(* only [n_snap] changes, by the pairs of the names that exist; all of them when all exist *)
Lemma rsnap_fold rc names : forall n r0,
  exists added r, fold_left (rsnap_step rc) names (n, r0) = (n_set_snap n (n_snap n ++ added), r) /\
    (all_dbs n names -> added = map (fun nm => (nm, rc)) names /\ r = r0).
Proof.
  induction names as [|x l IH]; intros n r0; cbn [fold_left].
  - exists [], r0. rewrite app_nil_r, n_set_snap_id. auto.
  - unfold rsnap_step at 2. destruct (get_db n x) eqn:E.
    + destruct (IH (n_set_snap n (n_snap n ++ [(x, rc)])) r0) as (added & r & -> & H).
      exists ((x, rc) :: added), r. rewrite n_set_snap_twice. cbn [n_snap n_set_snap]. rewrite <- app_assoc.
      split; [reflexivity|]. intros Hall. inversion Hall as [|? ? _ Hl]; subst.
      destruct (H Hl) as [-> ->]. auto.
    + destruct (IH n (RError ("Error trying to snapshot database: Database " +++ x +++ " not found")))
        as (added & r & -> & _).
      exists added, r. split; [reflexivity|]. intros Hall. inversion Hall as [|? ? Hx _]; subst.
      unfold has_db in Hx. rewrite E in Hx. discriminate Hx.
Qed.

Lemma rsnap_fold_all rc names n r0 : all_dbs n names ->
  fold_left (rsnap_step rc) names (n, r0) = (n_set_snap n (n_snap n ++ map (fun nm => (nm, rc)) names), r0).
Proof. intros H. destruct (rsnap_fold rc names n r0) as (added & r & -> & E). now destruct (E H) as [-> ->]. Qed.

Lemma handle_snapshot p c reclaim names :
  s_auth (get_sess p c) = true ->
  let names' := snap_targets (s_db (get_sess p c)) names in
  (names = [] -> s_db (get_sess p c) <> None) -> all_dbs p names' ->
  handle p c (RqSnapshot reclaim names) = (n_set_snap p (n_snap p ++ map (fun nm => (nm, reclaim)) names'), ROk).
Proof.
  intros Ha names' Hsel Hall. unfold handle. rewrite Ha. cbn [negb].
  destruct names as [|x l].
  - subst names'. cbn [snap_targets] in Hall.
    destruct (s_db (get_sess p c)) as [dbn|]; [|exfalso; now apply Hsel].
    cbn [or_empty] in *. inversion Hall as [|? ? Hx _]; subst. unfold has_db in Hx.
    destruct (get_db p dbn); [reflexivity|discriminate].
  - subst names'. cbn [snap_targets] in *. rewrite missing_nil by exact Hall. reflexivity.
Qed.

Lemma rr_snapshot n reclaim names sd :
  match sd with Some nm => has_db n nm = true | None => True end ->
  replicate_request n (RqSnapshot reclaim names) sd ROk
  = (replicate_web n (snap_req (snap_targets sd names) reclaim), ROk).
Proof.
  intros H. apply rr_wired; [reflexivity| |exact H]. destruct names; reflexivity.
Qed.

Lemma rr_repl_snapshot n reclaim names sd :
  match sd with Some nm => has_db n nm = true | None => True end ->
  replicate_request n (RqReplicateSnapshot reclaim names) sd ROk
  = (replicate_web n (snap_req names reclaim), ROk).
Proof. intros H. now apply rr_wired. Qed.

Lemma rr_rp_ok n req id sd :
  match sd with Some nm => has_db n nm = true | None => True end ->
  replicate_request n (RqReplicateRequest req id) sd ROk = (n, ROk).
Proof.
  intros H. unfold replicate_request. destruct sd as [nm|]; [rewrite H|]; reflexivity.
Qed.

(* the primary after `snapshot`: the addressed databases registered, the line for the secondaries queued *)
Definition primary_after (p : node) (c : nat) (reclaim : bool) (names : list str) : node :=
  let names' := snap_targets (s_db (get_sess p c)) names in
  replicate_web (n_set_snap p (n_snap p ++ map (fun nm => (nm, reclaim)) names')) (snap_req names' reclaim).

Lemma snapshot_primary_step p c line reclaim names :
  s_auth (get_sess p c) = true ->
  parse_request (trim_char nl line) = POk (RqSnapshot reclaim names) ->
  sel_ok p c ->
  (names = [] -> s_db (get_sess p c) <> None) ->
  all_dbs p (snap_targets (s_db (get_sess p c)) names) ->
  step p c line = (primary_after p c reclaim names, ROk).
Proof.
  intros Ha Hp Hsel Hn Hall. rewrite (step_eq _ _ _ _ Hp) by discriminate.
  rewrite handle_snapshot by assumption.
  rewrite rr_snapshot; [reflexivity|exact Hsel].
Qed.

(* what the primary's step does.  [is_primary p] is not needed: [replicate_request] queues the
   line whatever the role and whatever the member table holds ([replicate_web] only stamps it with
   the clock and appends it to [n_repl]; the replication thread decides who receives it). *)
Theorem snapshot_primary_registers p c line reclaim names :
  s_auth (get_sess p c) = true ->
  parse_request (trim_char nl line) = POk (RqSnapshot reclaim names) ->
  sel_ok p c ->
  (names = [] -> s_db (get_sess p c) <> None) ->
  let names' := snap_targets (s_db (get_sess p c)) names in
  all_dbs p names' ->
  let res := step p c line in
  snd res = ROk /\
  n_snap (fst res) = n_snap p ++ map (fun nm => (nm, reclaim)) names' /\
  n_dbs (fst res) = n_dbs p /\
  n_repl (fst res) = n_repl p ++ [rp_line (n_clock p) (snap_req names' reclaim)] /\
  n_clock (fst res) = (n_clock p + 1)%N /\
  n_sess (fst res) = n_sess p /\ n_role (fst res) = n_role p /\ n_members (fst res) = n_members p /\
  n_pending (fst res) = n_pending p /\ n_sup (fst res) = n_sup p /\ n_idmap (fst res) = n_idmap p.
Proof.
  intros Ha Hp Hsel Hn names' Hall res. subst res.
  rewrite (snapshot_primary_step p c line reclaim names) by assumption.
  cbn [fst snd]. unfold primary_after. fold names'. repeat split; reflexivity.
Qed.

Definition ack_line (s : node) (id : N) : str := "ack " +++ N_to_str id +++ " " +++ n_addr s +++ " " +++ nlS.

(* the secondary after the queued line: acknowledged on the link, the names registered, the line queued in
   its turn *)
Definition secondary_after (s : node) (cs : nat) (id : N) (reclaim : bool) (names : list str) : node :=
  let s0 := send s cs (ack_line s id) in
  replicate_web (n_set_snap s0 (n_snap s ++ map (fun nm => (nm, reclaim)) names)) (snap_req names reclaim).

Lemma has_db_send n c m x : has_db (send n c m) x = has_db n x.
Proof. reflexivity. Qed.

Lemma snapshot_secondary_step s cs id reclaim names :
  s_auth (get_sess s cs) = true -> sel_ok s cs ->
  (id < 2 ^ 64)%N -> names <> [] -> Forall snap_tok names -> all_dbs s names ->
  step s cs (rp_line id (snap_req names reclaim)) = (secondary_after s cs id reclaim names, ROk).
Proof.
  intros Ha Hsel Hid Hne Ht Hall.
  assert (Hp : parse_request (trim_char nl (snap_req names reclaim)) = POk (RqReplicateSnapshot reclaim names))
    by (rewrite snap_req_trim by exact Ht; now apply snapshot_line_roundtrip).
  rewrite (step_rp s cs id _ (RqReplicateSnapshot reclaim names) Hid (snap_req_ne names reclaim)) by
    (auto using snap_req_semi, no_nl_snap_req; discriminate).
  fold (ack_line s id). set (s0 := send s cs (ack_line s id)). rewrite (step_eq _ _ _ _ Hp) by discriminate.
  assert (Hs0 : get_sess s0 cs = sess_push (get_sess s cs) (ack_line s id)).
  { apply get_sess_send_same. now apply auth_in_range. }
  rewrite handle_replicate_snapshot_eq, Hs0. cbn [s_auth s_db sess_push]. rewrite Ha. cbn [negb].
  rewrite rsnap_fold_all by exact Hall.
  unfold sel_ok in Hsel. rewrite rr_repl_snapshot, rr_rp_ok by exact Hsel. reflexivity.
Qed.

Theorem snapshot_secondary_registers s cs id reclaim names :
  s_auth (get_sess s cs) = true -> sel_ok s cs ->
  (id < 2 ^ 64)%N -> names <> [] -> Forall snap_tok names -> all_dbs s names ->
  let res := step s cs (rp_line id (snap_req names reclaim)) in
  snd res = ROk /\
  n_snap (fst res) = n_snap s ++ map (fun nm => (nm, reclaim)) names /\
  n_dbs (fst res) = n_dbs s /\
  n_repl (fst res) = n_repl s ++ [rp_line (n_clock s) (snap_req names reclaim)] /\
  n_clock (fst res) = (n_clock s + 1)%N /\
  s_inbox (get_sess (fst res) cs) = s_inbox (get_sess s cs) ++ [ack_line s id] /\
  n_role (fst res) = n_role s /\ n_members (fst res) = n_members s /\
  n_pending (fst res) = n_pending s /\ n_sup (fst res) = n_sup s /\ n_idmap (fst res) = n_idmap s.
Proof.
  intros Ha Hsel Hid Hne Ht Hall res. subst res.
  rewrite snapshot_secondary_step by assumption.
  cbn [fst snd]. unfold secondary_after. repeat split; try reflexivity.
  rewrite get_sess_replicate_web.
  change (get_sess (n_set_snap (send s cs (ack_line s id)) (n_snap s ++ map (fun nm => (nm, reclaim)) names)) cs)
    with (get_sess (send s cs (ack_line s id)) cs).
  rewrite get_sess_send_same by (now apply auth_in_range). reflexivity.
Qed.

(* the same for the bare request text, the line inside the envelope *)
Theorem snapshot_secondary_registers_plain s cs reclaim names :
  s_auth (get_sess s cs) = true -> sel_ok s cs ->
  names <> [] -> Forall snap_tok names -> all_dbs s names ->
  let res := step s cs (snap_req names reclaim) in
  snd res = ROk /\
  n_snap (fst res) = n_snap s ++ map (fun nm => (nm, reclaim)) names /\
  n_dbs (fst res) = n_dbs s /\ n_sess (fst res) = n_sess s.
Proof.
  intros Ha Hsel Hne Ht Hall res. subst res.
  rewrite (step_eq _ _ _ (RqReplicateSnapshot reclaim names))
    by (try discriminate; rewrite snap_req_trim by exact Ht; now apply snapshot_line_roundtrip).
  rewrite handle_replicate_snapshot_eq, Ha. cbn [negb].
  rewrite rsnap_fold_all by exact Hall.
  unfold sel_ok in Hsel. rewrite rr_repl_snapshot by exact Hsel.
  cbn [fst snd]. repeat split; reflexivity.
Qed.


(* the pairs added on the primary and on a secondary that receives the queued line are the same
   list, whatever database the primary's session had selected *)
Theorem snapshot_replicas_agree p c line reclaim names s cs :
  s_auth (get_sess p c) = true ->
  parse_request (trim_char nl line) = POk (RqSnapshot reclaim names) ->
  sel_ok p c ->
  (names = [] -> s_db (get_sess p c) <> None) ->
  let names' := snap_targets (s_db (get_sess p c)) names in
  all_dbs p names' -> Forall snap_tok names' -> (n_clock p < 2 ^ 64)%N ->
  s_auth (get_sess s cs) = true -> sel_ok s cs -> all_dbs s names' ->
  let p' := fst (step p c line) in
  exists qline added,
    n_repl p' = n_repl p ++ [qline] /\
    n_snap p' = n_snap p ++ added /\
    n_snap (fst (step s cs qline)) = n_snap s ++ added /\
    added = map (fun nm => (nm, reclaim)) names' /\
    qline = rp_line (n_clock p) (snap_req names' reclaim) /\
    snd (step p c line) = ROk /\ snd (step s cs qline) = ROk /\
    n_dbs p' = n_dbs p /\ n_dbs (fst (step s cs qline)) = n_dbs s.
Proof.
  intros Ha Hp Hsel Hn names' Hall Ht Hclk Has Hsels Halls p'.
  destruct (snapshot_primary_registers p c line reclaim names Ha Hp Hsel Hn Hall)
    as (Hr & Hsnap & Hdbs & Hrepl & _).
  assert (Hne : names' <> []).
  { subst names'. destruct names; cbn [snap_targets]; discriminate. }
  destruct (snapshot_secondary_registers s cs (n_clock p) reclaim names' Has Hsels Hclk Hne Ht Halls)
    as (Hr2 & Hsnap2 & Hdbs2 & _).
  exists (rp_line (n_clock p) (snap_req names' reclaim)), (map (fun nm => (nm, reclaim)) names').
  repeat split; assumption.
Qed.

(* whatever was added on the primary (any list [added] with n_snap p' = n_snap p ++ added): when names
   are given the selected database is among the added pairs only if it was named *)
Corollary snapshot_named_not_selected p c line reclaim names dbn added b :
  s_auth (get_sess p c) = true ->
  parse_request (trim_char nl line) = POk (RqSnapshot reclaim names) ->
  sel_ok p c -> names <> [] -> all_dbs p names ->
  s_db (get_sess p c) = Some dbn ->
  n_snap (fst (step p c line)) = n_snap p ++ added ->
  In (dbn, b) added -> In dbn names.
Proof.
  intros Ha Hp Hsel Hne Hall Hdb Hsnap Hin.
  assert (Hn : names = [] -> s_db (get_sess p c) <> None) by (intros E; congruence).
  assert (Ht : snap_targets (s_db (get_sess p c)) names = names) by (destruct names; [congruence|reflexivity]).
  destruct (snapshot_primary_registers p c line reclaim names Ha Hp Hsel Hn) as (_ & Hs & _).
  { now rewrite Ht. }
  rewrite Ht, Hsnap in Hs. apply app_inv_head in Hs. subst added.
  apply in_map_iff in Hin as (nm & E & Hnm). now injection E as -> _.
Qed.

(* the same on the secondary's side: fed with the line the primary queued, it registers only named
   databases *)
Corollary snapshot_named_not_selected_secondary p c line reclaim names dbn s cs qline added b :
  s_auth (get_sess p c) = true ->
  parse_request (trim_char nl line) = POk (RqSnapshot reclaim names) ->
  sel_ok p c -> names <> [] -> all_dbs p names -> Forall snap_tok names -> (n_clock p < 2 ^ 64)%N ->
  s_db (get_sess p c) = Some dbn ->
  s_auth (get_sess s cs) = true -> sel_ok s cs -> all_dbs s names ->
  n_repl (fst (step p c line)) = n_repl p ++ [qline] ->
  n_snap (fst (step s cs qline)) = n_snap s ++ added ->
  In (dbn, b) added -> In dbn names.
Proof.
  intros Ha Hp Hsel Hne Hall Htok Hclk Hdb Has Hsels Halls Hq Hsnap Hin.
  assert (Hn : names = [] -> s_db (get_sess p c) <> None) by (intros E; congruence).
  assert (Ht : snap_targets (s_db (get_sess p c)) names = names) by (destruct names; [congruence|reflexivity]).
  destruct (snapshot_replicas_agree p c line reclaim names s cs Ha Hp Hsel Hn) as (q & ad & H1 & H2 & H3 & H4 & H5 & _);
    try (rewrite Ht; assumption); try assumption.
  rewrite Ht in *. rewrite Hq in H1. apply app_inv_head in H1. injection H1 as <-.
  rewrite Hsnap in H3. apply app_inv_head in H3. subst.
  apply in_map_iff in Hin as (nm & E & Hnm). now injection E as -> _.
Qed.


(* a named database that does not exist: error reply, the node is left exactly as it was
   (so [n_snap] is unchanged and nothing is queued), whoever asks *)
Theorem snapshot_missing_db_refused p c line reclaim names nm :
  parse_request (trim_char nl line) = POk (RqSnapshot reclaim names) ->
  In nm names -> has_db p nm = false ->
  exists msg, step p c line = (p, RError msg).
Proof.
  intros Hp Hin Hd. rewrite (step_eq _ _ _ _ Hp) by discriminate.
  unfold handle. destruct (s_auth (get_sess p c)); cbn [negb].
  2:{ eexists. reflexivity. }
  pose proof (missing_in p names nm Hin Hd) as Hm.
  destruct names as [|x l]; [destruct Hin|].
  destruct (filter _ (x :: l)) as [|m [|m2 r]]; [destruct Hm| |]; eexists; reflexivity.
Qed.

Corollary snapshot_missing_db_nothing_queued p c line reclaim names nm :
  parse_request (trim_char nl line) = POk (RqSnapshot reclaim names) ->
  In nm names -> has_db p nm = false ->
  n_snap (fst (step p c line)) = n_snap p /\ n_repl (fst (step p c line)) = n_repl p /\
  n_dbs (fst (step p c line)) = n_dbs p.
Proof.
  intros Hp Hin Hd. destruct (snapshot_missing_db_refused p c line reclaim names nm Hp Hin Hd) as [msg ->].
  repeat split; reflexivity.
Qed.

(* no name and no selected database: refused, node unchanged *)
Theorem snapshot_nothing_selected_refused p c line reclaim :
  parse_request (trim_char nl line) = POk (RqSnapshot reclaim []) ->
  s_db (get_sess p c) = None ->
  exists msg, step p c line = (p, RError msg).
Proof.
  intros Hp Hd. rewrite (step_eq _ _ _ _ Hp) by discriminate.
  unfold handle. rewrite Hd. destruct (s_auth (get_sess p c)); cbn [negb]; eexists; reflexivity.
Qed.

(* no name and the selected database does not exist (never the case in a run, sel_exists):
   nothing registered, nothing queued *)
Theorem snapshot_selected_missing_refused p c line reclaim dbn :
  parse_request (trim_char nl line) = POk (RqSnapshot reclaim []) ->
  s_db (get_sess p c) = Some dbn -> has_db p dbn = false ->
  exists msg, step p c line = (p, RError msg).
Proof.
  intros Hp Hd Hh. rewrite (step_eq _ _ _ _ Hp) by discriminate.
  unfold handle. rewrite Hd. destruct (s_auth (get_sess p c)); cbn [negb]; [|eexists; reflexivity].
  unfold has_db in Hh. destruct (get_db p dbn) eqn:E; [discriminate|].
  unfold replicate_request, has_db. rewrite E. cbn [negb]. eexists; reflexivity.
Qed.


(* the text a client sends: `snapshot <true|false> <names joined by |>` *)
Definition snapshot_line (reclaim : bool) (names : list str) : str :=
  "snapshot " +++ (if reclaim then "true" else "false") +++ " " +++ join "|" names.

Lemma parse_cmd_snapshot args : parse_cmd "snapshot" args =
  Some (POk (RqSnapshot (String.eqb (match hd_opt args with Some r => r | None => "false" end) "true")
                        (filter (fun s => negb (String.eqb s "")) (split_char "|" (or_empty (hd_opt (tl args))))))).
Proof. reflexivity. Qed.

Lemma join_bar_semi names : Forall no_semi_end names -> no_semi_end (join "|" names).
Proof.
  intros H. induction H as [|x l Hx Hl IH]; [intros E; discriminate E|].
  destruct l as [|y r]; [exact Hx|].
  change (join "|" (x :: y :: r)) with (x +++ String "|" (join "|" (y :: r))).
  apply no_semi_end_app; [discriminate|].
  unfold no_semi_end in *. cbn [last_char]. destruct (last_char (join "|" (y :: r))); [exact IH|discriminate].
Qed.

Theorem snapshot_client_line_parse (reclaim : bool) (names : list str) :
  names <> [] -> Forall simple_tok names -> Forall (fun s => nochar "|" s = true) names ->
  parse_request (trim_char nl (snapshot_line reclaim names)) = POk (RqSnapshot reclaim names).
Proof.
  intros Hne Ht Hb.
  assert (Hj : no_nl (join "|" names))
    by (apply nochar_join; [reflexivity|]; eapply Forall_impl; [|exact Ht]; apply tok_no_nl).
  unfold snapshot_line. rewrite trim_nl_id by (destruct reclaim; auto with nonl).
  change ("snapshot " +++ (if reclaim then "true" else "false") +++ " " +++ join "|" names)
    with ("snapshot" +++ " " +++ (if reclaim then "true" else "false") +++ " " +++ join "|" names).
  rewrite parse_request_3; try reflexivity; try discriminate.
  2:{ destruct reclaim; reflexivity. }
  2:{ repeat (rewrite <- app_assoc_s); rewrite app_assoc_s. apply no_semi_end_sep, join_bar_semi.
      eapply Forall_impl; [|exact Ht]. intros s. apply tok_semi. }
  rewrite parse_cmd_snapshot. cbn [hd_opt tl or_empty].
  rewrite split_char_join by assumption.
  rewrite ListLemmas.filter_all_true
    by (intros s Hs; rewrite eqb_nonempty; [reflexivity|apply tok_ne, (proj1 (Forall_forall _ _) Ht s Hs)]).
  destruct reclaim; reflexivity.
Qed.

(* text-level form of [snapshot_replicas_agree]: the client's line on the primary, the queued line on the secondary *)
Corollary snapshot_replicas_agree_text p c reclaim names s cs :
  names <> [] -> Forall simple_tok names -> Forall (fun s => nochar "|" s = true) names ->
  s_auth (get_sess p c) = true -> sel_ok p c -> all_dbs p names -> (n_clock p < 2 ^ 64)%N ->
  s_auth (get_sess s cs) = true -> sel_ok s cs -> all_dbs s names ->
  let p' := fst (step p c (snapshot_line reclaim names)) in
  let qline := rp_line (n_clock p) (snap_req names reclaim) in
  let s' := fst (step s cs qline) in
  n_repl p' = n_repl p ++ [qline] /\
  n_snap p' = n_snap p ++ map (fun nm => (nm, reclaim)) names /\
  n_snap s' = n_snap s ++ map (fun nm => (nm, reclaim)) names /\
  n_dbs p' = n_dbs p /\ n_dbs s' = n_dbs s.
Proof.
  intros Hne Ht Hb Ha Hsel Hall Hclk Has Hsels Halls.
  assert (Hst : Forall snap_tok names).
  { apply Forall_forall. intros x Hx. apply simple_tok_snap_tok.
    - exact (proj1 (Forall_forall _ _) Ht x Hx).
    - exact (proj1 (Forall_forall _ _) Hb x Hx). }
  assert (Hn : names = [] -> s_db (get_sess p c) <> None) by (intros E; congruence).
  assert (E : snap_targets (s_db (get_sess p c)) names = names) by (destruct names; [congruence|reflexivity]).
  destruct (snapshot_replicas_agree p c (snapshot_line reclaim names) reclaim names s cs Ha
              (snapshot_client_line_parse reclaim names Hne Ht Hb) Hsel Hn)
    as (q & ad & H1 & H2 & H3 & H4 & H5 & _ & _ & H6 & H7);
    try (rewrite E; assumption); try assumption.
  rewrite E in *. subst q ad. cbv zeta. repeat split; assumption.
Qed.


(* the fold of FullSyncProofs.run; ArbiterHttpProofs.run_lines, which it shadows, also collects the replies *)
Definition run_lines (n : node) (c : nat) (ls : list str) : node :=
  fold_left (fun n l => fst (step n c l)) ls n.

(* a primary: session 0 is an administrator that created d1 and e0 and selected d1;
   session 1 is the link of the secondary s1 *)
Definition ex_p : node := Eval vm_compute in
  let '(n0, c0) := connect (init_node "u" "pw" "p1" 3 Primary 10) in
  let n1 := run_lines n0 c0 ["auth u pw"; "create-db d1 tok"; "create-db e0 tok"; "use-db d1 tok"] in
  let '(n2, c1) := connect n1 in
  run_lines n2 c1 ["auth u pw"; "set-secoundary s1"].

(* a secondary: session 0 is the link from the primary (auth, set-primary), which created the same
   databases *)
Definition ex_s : node := Eval vm_compute in
  let '(n0, c0) := connect (init_node "u" "pw" "s1" 2 Secondary 10) in
  run_lines n0 c0 ["auth u pw"; "set-primary p1"; "create-db d1 tok"; "create-db e0 tok"].

(* `snapshot false e0` while d1 is selected: the queued line names e0, and the secondary fed
   with it registers e0.  (The 19 of "rp 19", here and below, is the clock of ex_p, the op id its next
   queued line gets; 16 is that of ex_pb.) *)
Example snapshot_replicas_example :
  s_db (get_sess ex_p 0) = Some "d1" /\ is_primary ex_p = true /\ n_snap ex_p = [] /\ n_snap ex_s = [] /\
  let rp := step ex_p 0 "snapshot false e0" in
  snd rp = ROk /\
  n_snap (fst rp) = [("e0", false)] /\
  n_repl (fst rp) = n_repl ex_p ++ ["rp 19 replicate-snapshot e0 false"] /\
  let rs := step ex_s 0 "rp 19 replicate-snapshot e0 false" in
  snd rs = ROk /\ n_snap (fst rs) = [("e0", false)] /\ n_dbs (fst rs) = n_dbs ex_s.
Proof. vm_compute. repeat split; reflexivity. Qed.

(* without a name the selected database is the one registered and replicated *)
Example snapshot_selected_example :
  let rp := step ex_p 0 "snapshot true" in
  snd rp = ROk /\ n_snap (fst rp) = [("d1", true)] /\
  n_repl (fst rp) = n_repl ex_p ++ ["rp 19 replicate-snapshot d1 true"] /\
  let rs := step ex_s 0 "rp 19 replicate-snapshot d1 true" in
  snd rs = ROk /\ n_snap (fst rs) = [("d1", true)].
Proof. vm_compute. repeat split; reflexivity. Qed.

Example snapshot_two_names_example :
  let rp := step ex_p 0 "snapshot true e0|d1" in
  snd rp = ROk /\ n_snap (fst rp) = [("e0", true); ("d1", true)] /\
  n_repl (fst rp) = n_repl ex_p ++ ["rp 19 replicate-snapshot e0|d1 true"] /\
  let rs := step ex_s 0 "rp 19 replicate-snapshot e0|d1 true" in
  snd rs = ROk /\ n_snap (fst rs) = [("e0", true); ("d1", true)].
Proof. vm_compute. repeat split; reflexivity. Qed.

Example snapshot_missing_example :
  step ex_p 0 "snapshot true e0|zz" = (ex_p, RError "zz is not a valid database name").
Proof. vm_compute. reflexivity. Qed.

(* the hypotheses of [snapshot_replicas_agree] are satisfiable: they hold of ex_p / ex_s *)
Example snapshot_replicas_hyps_satisfiable :
  s_auth (get_sess ex_p 0) = true /\
  parse_request (trim_char nl "snapshot false e0") = POk (RqSnapshot false ["e0"]) /\
  sel_ok ex_p 0 /\ (["e0"] = [] -> s_db (get_sess ex_p 0) <> None) /\
  snap_targets (s_db (get_sess ex_p 0)) ["e0"] = ["e0"] /\
  all_dbs ex_p ["e0"] /\ Forall snap_tok ["e0"] /\ (n_clock ex_p < 2 ^ 64)%N /\
  s_auth (get_sess ex_s 0) = true /\ sel_ok ex_s 0 /\ all_dbs ex_s ["e0"].
Proof.
  split; [reflexivity|]. split; [vm_compute; reflexivity|]. split; [vm_compute; reflexivity|].
  split; [discriminate|]. split; [reflexivity|]. split; [repeat constructor|].
  split; [constructor; [split; [reflexivity|split; reflexivity]|constructor]|]. split; [reflexivity|].
  split; [reflexivity|]. split; [exact I|repeat constructor].
Qed.

Example snapshot_replicas_instance :
  exists qline added,
    n_repl (fst (step ex_p 0 "snapshot false e0")) = n_repl ex_p ++ [qline] /\
    n_snap (fst (step ex_p 0 "snapshot false e0")) = n_snap ex_p ++ added /\
    n_snap (fst (step ex_s 0 qline)) = n_snap ex_s ++ added /\
    added = [("e0", false)] /\ qline = "rp 19 replicate-snapshot e0 false".
Proof.
  destruct snapshot_replicas_hyps_satisfiable as (H1 & H2 & H3 & H4 & H5 & H6 & H7 & H8 & H9 & H10 & H11).
  destruct (snapshot_replicas_agree ex_p 0 "snapshot false e0" false ["e0"] ex_s 0 H1 H2 H3 H4)
    as (q & ad & A1 & A2 & A3 & A4 & A5 & _); try (rewrite H5); try assumption.
  exists q, ad. rewrite H5 in *. repeat split; try assumption.
Qed.


(* [sel_ok]: a session whose selection names no database (never the case in a run, see
   ConnProofs.sel_exists / conn_init / ConnInv) gets the names registered, an error reply, and
   nothing queued *)
Definition ex_ghost : node := n_set_sess ex_p [mkSess true (Some "ghost") None None []].
Example snapshot_needs_sel_ok :
  let r := step ex_ghost 0 "snapshot false e0" in
  snd r = RError "Database ghost not found" /\ n_snap (fst r) = [("e0", false)] /\ n_repl (fst r) = n_repl ex_ghost.
Proof. vm_compute. repeat split; reflexivity. Qed.

(* '|' in a name: the joined text splits differently; a space: the rest of the name is read as the flag;
   no name: one empty name comes back *)
Example roundtrip_needs_no_bar :
  parse_request (snap_req ["a|b"] false) = POk (RqReplicateSnapshot false ["a"; "b"]).
Proof. vm_compute. reflexivity. Qed.
Example roundtrip_needs_no_sp :
  parse_request (snap_req ["a b"] false) = POk (RqReplicateSnapshot false ["a"]).
Proof. vm_compute. reflexivity. Qed.
Example roundtrip_needs_names :
  parse_request (snap_req [] false) = POk (RqReplicateSnapshot false [""]).
Proof. vm_compute. reflexivity. Qed.

(* a database whose name contains '|' CAN be created and selected; `snapshot` without a name then
   registers it on the primary, but the queued line is read by the secondary as two names, neither
   of which exists: the secondary registers nothing.  (Replicas diverge for such a name.) *)
Definition ex_pb : node := Eval vm_compute in
  let '(n0, c0) := connect (init_node "u" "pw" "p1" 3 Primary 10) in
  run_lines n0 c0 ["auth u pw"; "create-db a|b tok"; "use-db a|b tok"].
Definition ex_sb : node := Eval vm_compute in
  let '(n0, c0) := connect (init_node "u" "pw" "s1" 2 Secondary 10) in
  run_lines n0 c0 ["auth u pw"; "set-primary p1"; "create-db a|b tok"].
Example snapshot_bar_name_diverges :
  has_db ex_pb "a|b" = true /\ has_db ex_sb "a|b" = true /\
  let rp := step ex_pb 0 "snapshot true" in
  snd rp = ROk /\ n_snap (fst rp) = [("a|b", true)] /\
  n_repl (fst rp) = n_repl ex_pb ++ ["rp 16 replicate-snapshot a|b true"] /\
  let rs := step ex_sb 0 "rp 16 replicate-snapshot a|b true" in
  snd rs = RError "Error trying to snapshot database: Database b not found" /\ n_snap (fst rs) = [].
Proof. vm_compute. repeat split; reflexivity. Qed.

Check snapshot_line_roundtrip.
Print Assumptions snapshot_line_roundtrip.
Check snapshot_primary_registers.
Print Assumptions snapshot_primary_registers.
Check snapshot_secondary_registers.
Print Assumptions snapshot_secondary_registers.
Check snapshot_replicas_agree.
Print Assumptions snapshot_replicas_agree.
Check snapshot_named_not_selected.
Print Assumptions snapshot_named_not_selected.
Check snapshot_named_not_selected_secondary.
Print Assumptions snapshot_named_not_selected_secondary.
Check snapshot_missing_db_refused.
Print Assumptions snapshot_missing_db_refused.
Check snapshot_client_line_parse.
Print Assumptions snapshot_client_line_parse.
Check snapshot_replicas_agree_text.
Print Assumptions snapshot_replicas_agree_text.
Check snapshot_replicas_example.
Print Assumptions snapshot_replicas_example.
Check snapshot_replicas_instance.
Print Assumptions snapshot_replicas_instance.
