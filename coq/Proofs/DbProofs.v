(* One database, and the vocabulary the node-level files share.
   First the database functions of bo.rs against their specification (C01, C02, C19): live content,
   well-formedness, set / remove / increment / keys, versions, the refinement of a plain map.
   Then what the write paths of a node do, in summary form: [writes] (a database changes only in
   d_map, only at certain keys, and notifies only its watchers), [effect] (a node changes in one
   database and in what is delivered) and one [*_effect] lemma per write path.  NodeLemmas holds
   the basic frame facts these rest on; Footprint says the same of the handlers as a relation
   ([edits]) and is used where only closure under the primitive edits matters, the summaries where
   it matters which database, which keys, which sessions. *)
From NunDB Require Import Model.Base Model.Pending Model.Parse Model.Node Proofs.AssocLemmas Proofs.NodeLemmas.
From NunDB Require Import Proofs.StrLemmas.
From Coq Require Import Sorting.Sorted.
Local Open Scope Z_scope.

(* the client-visible content of a database: live (non-tombstone) values *)
Definition live (d : db) (k : str) : option str :=
  match get_value d k with
  | Some v => if vstate_eqb (v_st v) VDeleted then None else Some (v_val v)
  | None => None
  end.

(* well-formed database: unique keys, and tombstones carry the text "<Empty>": get_key_value_new
   returns a tombstone's v_val unfiltered, and [get_spec] needs it to be the text of an absent key *)
Definition wf_db (d : db) : Prop :=
  NoDup (map fst (d_map d)) /\
  forall k v, get_value d k = Some v -> v_st v = VDeleted -> v_val v = "<Empty>".

Definition to_watchers (d : db) (msgs : list (nat * str)) : Prop :=
  forall a m, In (a, m) msgs -> exists k, In a (watchers_of d k).

Lemma to_watchers_nil d : to_watchers d [].
Proof. intros a m []. Qed.

Lemma to_watchers_app d m1 m2 : to_watchers d m1 -> to_watchers d m2 -> to_watchers d (m1 ++ m2).
Proof. intros H1 H2 a m H. apply in_app_or in H. destruct H; eauto. Qed.

Lemma notify_to_watchers d k v ver : to_watchers d (notify_msgs d k v ver).
Proof. intros a m H. exists k. exact (notify_in d k v ver (a, m) H). Qed.

Lemma map_to_watchers d k m : to_watchers d (map (fun s => (s, m)) (watchers_of d k)).
Proof. intros a x H. exists k. apply in_map_iff in H. now destruct H as (s & [= <- _] & Hs). Qed.

(* a write of [key] stores under [key] or, when it conflicts, under a conflict record *)
Definition write_keys (key k : str) : Prop := k = key \/ starts_with k "$conflicts_" = true.

(* [d'] is [d] with other values under keys of class [K]; [msgs] go to watchers of [d] *)
Definition writes (K : str -> Prop) (d d' : db) (msgs : list (nat * str)) : Prop :=
  d' = db_set_map d (d_map d') /\
  (forall k, ~ K k -> get_value d' k = get_value d k) /\ to_watchers d msgs.

Lemma writes_msgs K d msgs : to_watchers d msgs -> writes K d d msgs.
Proof. intros H. split; [now destruct d|]. split; [reflexivity|exact H]. Qed.

Lemma writes_refl K d : writes K d d [].
Proof. apply writes_msgs, to_watchers_nil. Qed.

Lemma writes_trans K d d1 d2 m1 m2 : writes K d d1 m1 -> writes K d1 d2 m2 -> writes K d d2 (m1 ++ m2).
Proof.
  intros (E1 & O1 & W1) (E2 & O2 & W2). split; [|split].
  - rewrite E2, E1. reflexivity.
  - intros k Hk. now rewrite O2, O1.
  - apply to_watchers_app; auto. now rewrite E1 in W2.
Qed.

Lemma writes_weaken (K K' : str -> Prop) d d' msgs :
  (forall k, K k -> K' k) -> writes K d d' msgs -> writes K' d d' msgs.
Proof. intros H (E & O & W). split; [|split]; auto. Qed.

Lemma writes_put d k v msgs : to_watchers d msgs -> writes (eq k) d (put_value d k v) msgs.
Proof.
  intros H. split; [reflexivity|]. split; [|exact H].
  intros k' Hk. apply gv_put_other. congruence.
Qed.

Lemma set_value_writes d ch : writes (eq (c_key ch)) d (fst (fst (set_value d ch))) (snd (set_value d ch)).
Proof.
  unfold set_value.
  destruct (get_value d (c_key ch)); [destruct (_ && _)|]; cbn [fst snd];
    try apply writes_refl; apply writes_put, notify_to_watchers.
Qed.

Lemma remove_value_writes d k : writes (eq k) d (fst (fst (remove_value d k))) (snd (remove_value d k)).
Proof.
  unfold remove_value. destruct (String.eqb k "$$token"); cbn [fst snd]; [apply writes_refl|].
  destruct (get_value d k) as [v|].
  - destruct (v_st v); try apply writes_put, map_to_watchers.
    split; [reflexivity|]. split; [|apply map_to_watchers]. intros k' Hk. apply gv_del_other. congruence.
  - split; [now destruct d|]. split; [reflexivity|apply map_to_watchers].
Qed.

Lemma inc_value_writes d k i opp :
  writes (eq k) d (fst (fst (inc_value d k i opp))) (snd (inc_value d k i opp)).
Proof.
  unfold inc_value. destruct (parse_i32 _); [destruct (_ && _)|]; cbn [fst snd];
    try apply writes_refl; apply writes_put, notify_to_watchers.
Qed.

Lemma wf_db_empty id s : wf_db (empty_db id s).
Proof.
  split; cbn.
  - constructor.
  - intros k v H; discriminate.
Qed.

Lemma wf_put d k v : wf_db d -> (v_st v = VDeleted -> v_val v = "<Empty>") -> wf_db (put_value d k v).
Proof.
  intros [Hnd Ht] Hv. split.
  - unfold put_value, db_set_map; cbn [d_map]. apply nodup_set; auto. apply String.eqb_spec.
  - intros k0 v0. destruct (String.eqb_spec k0 k) as [->|Hne].
    + rewrite gv_put_same. intros [= <-]. exact Hv.
    + rewrite gv_put_other by auto. apply Ht.
Qed.

Lemma wf_del d k : wf_db d -> wf_db (db_set_map d (assoc_del String.eqb k (d_map d))).
Proof.
  intros [Hnd Ht]. split.
  - unfold db_set_map; cbn [d_map]. now apply nodup_del.
  - intros k0 v0. destruct (String.eqb_spec k0 k) as [->|Hne].
    + rewrite gv_del_same. discriminate.
    + rewrite gv_del_other by auto. apply Ht.
Qed.

Lemma set_value_wf d ch : wf_db d -> wf_db (fst (fst (set_value d ch))).
Proof.
  intros Hwf. unfold set_value.
  destruct (get_value d (c_key ch)) as [old|].
  - destruct (_ && _); cbn [fst]; auto.
    apply wf_put; auto. cbn [v_st]. intros E. now apply upd_state_live in E.
  - cbn [fst]. apply wf_put; auto. cbn [v_st]. discriminate.
Qed.

Lemma remove_value_wf d key : wf_db d -> wf_db (fst (fst (remove_value d key))).
Proof.
  intros Hwf. unfold remove_value.
  destruct (String.eqb key "$$token"); cbn [fst]; auto.
  destruct (get_value d key) as [v|]; auto.
  destruct (v_st v); try (apply wf_put; auto; cbn [v_val]; reflexivity).
  now apply wf_del.
Qed.

Lemma inc_value_wf d key inc opp : wf_db d -> wf_db (fst (fst (inc_value d key inc opp))).
Proof.
  intros Hwf. unfold inc_value.
  destruct (parse_i32 _) as [c|]; cbn [fst]; auto.
  destruct (_ && _); cbn [fst]; auto.
  apply wf_put; auto.
  destruct (get_value d key) as [v|]; cbn [v_st].
  - intros E. now apply upd_state_live in E.
  - discriminate.
Qed.

Lemma set_value_ok d ch d' k v msgs :
  set_value d ch = (d', RSet k v, msgs) ->
  k = c_key ch /\ v = c_val ch /\ live d' (c_key ch) = Some (c_val ch) /\
  forall k', k' <> c_key ch -> get_value d' k' = get_value d k'.
Proof.
  unfold set_value.
  destruct (get_value d (c_key ch)) as [old|].
  - destruct (_ && _); [discriminate|].
    intros [= <- <- <- _]. repeat split; auto.
    + unfold live. rewrite gv_put_same. cbn [v_st v_val]. now rewrite upd_state_eqb.
    + intros k' Hne. now apply gv_put_other.
  - intros [= <- <- <- _]. repeat split; auto.
    + unfold live. rewrite gv_put_same. reflexivity.
    + intros k' Hne. now apply gv_put_other.
Qed.

Lemma set_value_refused d ch d' r msgs :
  set_value d ch = (d', r, msgs) -> (forall k v, r <> RSet k v) ->
  d' = d /\ msgs = [] /\
  exists old, get_value d (c_key ch) = Some old /\
              r = RVersionError (c_key ch) (v_ver old) (c_ver ch) old ch (upd_state old).
Proof.
  unfold set_value.
  destruct (get_value d (c_key ch)) as [old|].
  - destruct (_ && _).
    + intros [= <- <- <-] _. repeat split; auto. exists old; auto.
    + intros [= _ <- _] H. exfalso. eapply H; reflexivity.
  - intros [= _ <- _] H. exfalso. eapply H; reflexivity.
Qed.

Lemma remove_value_eq d key : key <> "$$token" ->
  remove_value d key =
    (fst (fst (remove_value d key)), ROk, map (fun s => (s, "removed " +++ key +++ nlS)) (watchers_of d key)).
Proof.
  intros Hne. unfold remove_value. destruct (String.eqb_spec key "$$token"); [contradiction | reflexivity].
Qed.

Lemma remove_value_state d key : key <> "$$token" ->
  match get_value d key with
  | Some v => if vstate_eqb (v_st v) VNew then get_value (fst (fst (remove_value d key))) key = None
              else exists t, get_value (fst (fst (remove_value d key))) key = Some t /\
                             v_val t = "<Empty>" /\ v_st t = VDeleted
  | None => fst (fst (remove_value d key)) = d
  end.
Proof.
  intros Hne. unfold remove_value. destruct (String.eqb_spec key "$$token") as [E|_]; [contradiction|].
  cbn [fst]. destruct (get_value d key) as [v|]; [|reflexivity].
  destruct (v_st v); cbn [vstate_eqb]; try (eexists; split; [apply gv_put_same | split; reflexivity]).
  apply gv_del_same.
Qed.

Lemma remove_value_spec d key d' r msgs :
  key <> "$$token" -> remove_value d key = (d', r, msgs) ->
  r = ROk /\ live d' key = None /\ forall k', k' <> key -> get_value d' k' = get_value d k'.
Proof.
  intros Hne. unfold remove_value.
  destruct (String.eqb_spec key "$$token") as [E|_]; [contradiction|].
  intros [= <- <- _]. split; auto.
  unfold live.
  destruct (get_value d key) as [v|] eqn:Hg.
  - destruct (v_st v); try (rewrite gv_put_same; cbn; split; auto; intros; now apply gv_put_other).
    rewrite gv_del_same. split; auto. intros. now apply gv_del_other.
  - rewrite Hg. auto.
Qed.

Lemma remove_token_refused d :
  remove_value d "$$token" = (d, RError "$$token key cannot be removed", []).
Proof. reflexivity. Qed.

(* the text [inc_value] parses: the live value, or "0" *)
Definition cur_text (d : db) (k : str) : str :=
  match live d k with Some s => s | None => "0" end.

Lemma inc_value_cur_text d k :
  match get_value d k with
  | Some v => if vstate_eqb (v_st v) VDeleted then "0" else v_val v
  | None => "0"
  end = cur_text d k.
Proof.
  unfold cur_text, live. destruct (get_value d k) as [v|]; auto.
  destruct (vstate_eqb _ _); auto.
Qed.

Lemma inc_value_spec_ok d k inc opp c :
  parse_i32 (match live d k with Some s => s | None => "0" end) = Some c ->
  -2147483648 <= c + inc <= 2147483647 ->
  exists d' msgs, inc_value d k inc opp = (d', ROk, msgs) /\
    live d' k = Some (Z_to_str (c + inc)) /\
    forall k', k' <> k -> get_value d' k' = get_value d k'.
Proof.
  intros Hp Hr. unfold inc_value. rewrite inc_value_cur_text. unfold cur_text. rewrite Hp.
  replace (Z.leb (-2147483648) (c + inc) && Z.leb (c + inc) i32_max) with true
    by (symmetry; apply andb_true_iff; unfold i32_max; split; apply Z.leb_le; lia).
  eexists _, _. split; [reflexivity|]. split.
  - unfold live. rewrite gv_put_same.
    destruct (get_value d k) as [v|]; cbn [v_st v_val]; [now rewrite upd_state_eqb | reflexivity].
  - intros k' Hne. now apply gv_put_other.
Qed.

Lemma inc_value_spec_err d k inc opp :
  (parse_i32 (match live d k with Some s => s | None => "0" end) = None \/
   exists c, parse_i32 (match live d k with Some s => s | None => "0" end) = Some c /\
             ~ (-2147483648 <= c + inc <= 2147483647)) ->
  inc_value d k inc opp = (d, RError "Key is not numeric", []).
Proof.
  intros H. unfold inc_value. rewrite inc_value_cur_text. unfold cur_text.
  destruct H as [-> | (c & -> & Hr)]; auto.
  replace (Z.leb (-2147483648) (c + inc) && Z.leb (c + inc) i32_max) with false; auto.
  symmetry. apply andb_false_iff. unfold i32_max.
  rewrite !Z.leb_gt. lia.
Qed.

Theorem inc_value_spec d k inc opp :
  let cur := match live d k with Some s => s | None => "0" end in
  (forall c, parse_i32 cur = Some c -> -2147483648 <= c + inc <= 2147483647 ->
     exists d' msgs, inc_value d k inc opp = (d', ROk, msgs) /\
       live d' k = Some (Z_to_str (c + inc)) /\
       forall k', k' <> k -> get_value d' k' = get_value d k') /\
  ((parse_i32 cur = None \/
    exists c, parse_i32 cur = Some c /\ ~ (-2147483648 <= c + inc <= 2147483647)) ->
   inc_value d k inc opp = (d, RError "Key is not numeric", [])).
Proof.
  cbv zeta. split.
  - intros c. apply inc_value_spec_ok.
  - apply inc_value_spec_err.
Qed.

Lemma get_spec d k : wf_db d ->
  fst (get_key_value_new d k) = match live d k with Some s => s | None => "<Empty>" end.
Proof.
  intros [_ Ht]. unfold get_key_value_new, live.
  destruct (get_value d k) as [v|] eqn:Hg; cbn [fst]; auto.
  destruct (vstate_eqb_spec (v_st v) VDeleted) as [E|_]; auto.
  eapply Ht; eauto.
Qed.

Lemma list_keys_spec d p sys k : wf_db d ->
  (In k (list_keys d p sys) <->
   live d k <> None /\ pattern_match k p = true /\ (sys = true \/ starts_with k "$$" = false)).
Proof.
  intros [Hnd _]. unfold list_keys.
  split.
  - intros Hin. rewrite in_sort_strs in Hin.
    apply in_map_iff in Hin. destruct Hin as ([k0 v] & E & Hin). cbn in E. subst k0.
    apply filter_In in Hin. destruct Hin as [Hin Hf]. cbn [fst snd] in Hf.
    apply andb_true_iff in Hf. destruct Hf as [Hf Hp].
    apply andb_true_iff in Hf. destruct Hf as [Hs Hl].
    apply str_in_get in Hin; auto.
    unfold live, get_value. rewrite Hin.
    destruct (vstate_eqb (v_st v) VDeleted); [discriminate|].
    split; [discriminate|]. split; auto.
    destruct sys; auto. right. cbn [orb] in Hs. destruct (starts_with k "$$"); [discriminate|reflexivity].
  - intros (Hl & Hp & Hs). apply in_sort_strs.
    unfold live in Hl. destruct (get_value d k) as [v|] eqn:Hg; [|congruence].
    apply in_map_iff. exists (k, v). split; auto.
    apply filter_In. split; [now apply str_get_in|]. cbn [fst snd].
    rewrite Hp. destruct (vstate_eqb (v_st v) VDeleted); [congruence|].
    destruct Hs as [-> | ->]; cbn; auto. now rewrite orb_true_r.
Qed.

Lemma list_keys_sorted d p sys : wf_db d ->
  StronglySorted (fun a b => str_leb a b = true) (list_keys d p sys) /\ NoDup (list_keys d p sys).
Proof.
  intros [Hnd _]. unfold list_keys. split.
  - apply sort_strs_sorted.
  - apply nodup_sort_strs. now apply nodup_filter_keys.
Qed.

Lemma next_version_plain ch old :
  v_ver old <> -2 -> c_resolve ch = false -> -1 <= c_ver ch ->
  next_version ch old = if Z.eqb (c_ver ch) (-1) then sat_succ (v_ver old) else sat_succ (c_ver ch).
Proof.
  intros Ho Hr Hv. unfold next_version, in_conflict. rewrite Hr.
  destruct (Z.eqb_spec (c_ver ch) (-2)); [lia|].
  destruct (Z.eqb_spec (v_ver old) (-2)); [lia|]. reflexivity.
Qed.

Lemma cas_iff d k old ch :
  get_value d k = Some old -> v_ver old <> -2 -> v_ver old < i32_max ->
  c_key ch = k -> c_resolve ch = false -> -1 <= c_ver ch ->
  ((exists d' msgs, set_value d ch = (d', RSet k (c_val ch), msgs)) <->
   (c_ver ch = -1 \/ v_ver old <= c_ver ch)).
Proof.
  intros Hg Ho Hm <- Hr Hv.
  rewrite (set_value_present _ _ _ Hg), next_version_plain by auto.
  unfold sat_succ, i32_max in *.
  destruct (Z.eqb_spec (c_ver ch) (-2)); [lia|]. cbn [negb]. rewrite andb_true_r.
  destruct (Z.eqb_spec (c_ver ch) (-1)).
  - destruct (Z.ltb_spec (v_ver old) 2147483647); [|lia].
    destruct (Z.leb_spec (v_ver old + 1) (v_ver old)); [lia|].
    split; auto. intros _. eexists _, _. reflexivity.
  - destruct (Z.ltb_spec (c_ver ch) 2147483647).
    + destruct (Z.leb_spec (c_ver ch + 1) (v_ver old)).
      * split; [intros (d' & msgs & [=]) | lia].
      * split; [lia|]. intros _. eexists _, _. reflexivity.
    + destruct (Z.leb_spec 2147483647 (v_ver old)); [lia|].
      split; [lia|]. intros _. eexists _, _. reflexivity.
Qed.

Lemma set_value_inv_present d ch old d' k v msgs :
  get_value d (c_key ch) = Some old -> set_value d ch = (d', RSet k v, msgs) ->
  Z.leb (next_version ch old) (v_ver old) && negb (Z.eqb (c_ver ch) (-2)) = false /\
  d' = put_value d (c_key ch)
         (mkV (c_val ch) (next_version ch old) (c_opp ch) (upd_state old) (v_vaddr old) (v_kaddr old)).
Proof.
  intros Hg. rewrite (set_value_present _ _ _ Hg).
  destruct (_ && _); [discriminate|]. intros H. split; auto. congruence.
Qed.

Lemma next_version_accepted a o :
  o < i32_max -> -1 <= a ->
  Z.leb (if Z.eqb a (-1) then sat_succ o else sat_succ a) o && negb (Z.eqb a (-2)) = false ->
  (if Z.eqb a (-1) then sat_succ o else sat_succ a) = (if Z.eqb a (-1) then o + 1 else sat_succ a) /\
  o < (if Z.eqb a (-1) then sat_succ o else sat_succ a).
Proof.
  intros Hm Ha. unfold sat_succ, i32_max in *.
  destruct (Z.eqb_spec a (-2)); [lia|]. cbn [negb]. rewrite andb_true_r.
  intros H. apply Z.leb_gt in H. split; [|exact H].
  destruct (Z.eqb_spec a (-1)); auto.
  destruct (Z.ltb_spec o 2147483647); lia.
Qed.

Lemma cas_version d k old ch d' v msgs :
  get_value d k = Some old -> v_ver old <> -2 -> v_ver old < i32_max ->
  c_key ch = k -> c_resolve ch = false -> -1 <= c_ver ch ->
  set_value d ch = (d', RSet k v, msgs) ->
  exists nv, get_value d' k = Some nv /\
    v_ver nv = (if Z.eqb (c_ver ch) (-1) then v_ver old + 1 else sat_succ (c_ver ch)) /\
    v_ver old < v_ver nv.
Proof.
  intros Hg Ho Hm <- Hr Hv Hs.
  destruct (set_value_inv_present _ _ _ _ _ _ _ Hg Hs) as [Hc ->].
  rewrite next_version_plain in * by auto.
  eexists. split; [apply gv_put_same|]. cbn [v_ver].
  now apply next_version_accepted.
Qed.

Lemma absent_succeeds d ch :
  get_value d (c_key ch) = None ->
  exists d' msgs, set_value d ch = (d', RSet (c_key ch) (c_val ch), msgs) /\
    exists nv, get_value d' (c_key ch) = Some nv /\ v_ver nv = sat_succ (c_ver ch).
Proof.
  intros Hg. unfold set_value. rewrite Hg. eexists _, _. split; [reflexivity|].
  eexists. split; [apply gv_put_same|]. reflexivity.
Qed.

Inductive dop := DSet (k v : str) (ver : Z) (opp : N) | DRemove (k : str) | DInc (k : str) (i : Z) (opp : N).

Definition db_apply (d : db) (o : dop) : db :=
  match o with
  | DSet k v ver opp => fst (fst (set_value d (mkCh k v ver opp false)))
  | DRemove k => fst (fst (remove_value d k))
  | DInc k i opp => fst (fst (inc_value d k i opp))
  end.

Definition dop_resp (d : db) (o : dop) : resp :=
  match o with
  | DSet k v ver opp => snd (fst (set_value d (mkCh k v ver opp false)))
  | DRemove k => snd (fst (remove_value d k))
  | DInc k i opp => snd (fst (inc_value d k i opp))
  end.

Definition dop_key (o : dop) : str :=
  match o with DSet k _ _ _ => k | DRemove k => k | DInc k _ _ => k end.

Definition resp_ok (r : resp) : bool :=
  match r with RSet _ _ | ROk => true | _ => false end.

(* the only version a plain client write must not carry: -2 marks "in conflict"
   and forces the stored version to -2 *)
Definition dop_ver_ok (o : dop) : Prop :=
  match o with DSet _ _ ver _ => ver <> -2 | _ => True end.

Lemma set_value_other d ch k' : k' <> c_key ch ->
  get_value (fst (fst (set_value d ch))) k' = get_value d k'.
Proof. intros Hne. apply (set_value_writes d ch). congruence. Qed.

Lemma remove_value_other d key k' : k' <> key ->
  get_value (fst (fst (remove_value d key))) k' = get_value d k'.
Proof. intros Hne. apply (remove_value_writes d key). congruence. Qed.

Lemma inc_value_other d key inc opp k' : k' <> key ->
  get_value (fst (fst (inc_value d key inc opp))) k' = get_value d k'.
Proof. intros Hne. apply (inc_value_writes d key inc opp). congruence. Qed.

Lemma db_apply_other d o k' : k' <> dop_key o -> get_value (db_apply d o) k' = get_value d k'.
Proof.
  destruct o; cbn [db_apply dop_key]; intros H.
  - now apply set_value_other.
  - now apply remove_value_other.
  - now apply inc_value_other.
Qed.

Lemma refused_changes_nothing d o : resp_ok (dop_resp d o) = false -> db_apply d o = d.
Proof.
  destruct o as [k v ver opp | k | k i opp]; cbn [db_apply dop_resp].
  - unfold set_value. destruct (get_value d _); [destruct (_ && _)|]; cbn; auto; discriminate.
  - unfold remove_value. destruct (String.eqb k "$$token"); cbn; auto; discriminate.
  - unfold inc_value. destruct (parse_i32 _); [destruct (_ && _)|]; cbn; auto; discriminate.
Qed.

Lemma refused_remove_is_token d k : resp_ok (dop_resp d (DRemove k)) = false -> k = "$$token".
Proof.
  cbn [dop_resp]. unfold remove_value.
  destruct (String.eqb_spec k "$$token"); cbn; auto; discriminate.
Qed.

Lemma set_step d ch k old nw :
  c_ver ch <> -2 -> get_value d k = Some old ->
  get_value (fst (fst (set_value d ch))) k = Some nw ->
  v_ver old <= v_ver nw /\
  (resp_ok (snd (fst (set_value d ch))) = true -> c_key ch = k -> v_ver old < v_ver nw).
Proof.
  intros Hv Hg. destruct (String.eqb_spec k (c_key ch)) as [->|Hne].
  - rewrite (set_value_present _ _ _ Hg).
    destruct (Z.eqb_spec (c_ver ch) (-2)); [contradiction|]. cbn [negb]. rewrite andb_true_r.
    destruct (Z.leb_spec (next_version ch old) (v_ver old)); cbn [fst snd].
    + rewrite Hg. intros [= <-]. split; [lia|]. cbn. discriminate.
    + rewrite gv_put_same. intros [= <-]. cbn [v_ver]. split; [lia|auto].
  - rewrite set_value_other by auto. rewrite Hg. intros [= <-]. split; [lia|]. intros _ E. congruence.
Qed.

Lemma remove_step d key k old nw :
  get_value d k = Some old ->
  get_value (fst (fst (remove_value d key))) k = Some nw ->
  v_ver old <= i32_max ->
  v_ver old <= v_ver nw /\
  (v_ver old < i32_max -> resp_ok (snd (fst (remove_value d key))) = true -> key = k -> v_ver old < v_ver nw).
Proof.
  intros Hg. destruct (String.eqb_spec k key) as [->|Hne].
  - unfold remove_value. destruct (String.eqb key "$$token"); cbn [fst snd].
    + rewrite Hg. intros [= <-] Hmx. split; [lia|]. cbn. discriminate.
    + rewrite Hg.
      destruct (v_st old);
        try (rewrite gv_put_same; intros [= <-] Hmx; cbn [v_ver]; split;
             [now apply sat_succ_ge | intros; now apply sat_succ_gt]).
      rewrite gv_del_same. discriminate.
  - rewrite remove_value_other by auto. rewrite Hg. intros [= <-] Hmx. split; [lia|]. intros _ _ E. congruence.
Qed.

Lemma inc_step d key inc opp k old nw :
  get_value d k = Some old ->
  get_value (fst (fst (inc_value d key inc opp))) k = Some nw ->
  v_ver old <= i32_max ->
  v_ver old <= v_ver nw /\
  (v_ver old < i32_max -> resp_ok (snd (fst (inc_value d key inc opp))) = true -> key = k -> v_ver old < v_ver nw).
Proof.
  intros Hg. destruct (String.eqb_spec k key) as [->|Hne].
  - unfold inc_value. rewrite Hg.
    destruct (parse_i32 _); cbn [fst snd].
    + destruct (_ && _); cbn [fst snd].
      * rewrite gv_put_same. intros [= <-] Hmx. cbn [v_ver]. split;
          [now apply sat_succ_ge | intros; now apply sat_succ_gt].
      * rewrite Hg. intros [= <-] Hmx. split; [lia|]. cbn. discriminate.
    + rewrite Hg. intros [= <-] Hmx. split; [lia|]. cbn. discriminate.
  - rewrite inc_value_other by auto. rewrite Hg. intros [= <-] Hmx. split; [lia|]. intros _ _ E. congruence.
Qed.

Lemma version_step d k old o nw :
  dop_ver_ok o -> get_value d k = Some old -> get_value (db_apply d o) k = Some nw ->
  v_ver old <= i32_max ->
  v_ver old <= v_ver nw /\
  (v_ver old < i32_max -> resp_ok (dop_resp d o) = true -> dop_key o = k -> v_ver old < v_ver nw).
Proof.
  destruct o as [k0 v ver opp | k0 | k0 i opp]; cbn [dop_ver_ok db_apply dop_resp dop_key]; intros Hok Hg Hn Hmx.
  - destruct (set_step d (mkCh k0 v ver opp false) k old nw) as [H1 H2]; auto.
  - now apply (remove_step d k0 k old nw).
  - now apply (inc_step d k0 i opp k old nw).
Qed.

(* why a client version of -2 is excluded: it is accepted unconditionally and lowers the
   stored version to -2 *)
Example set_minus2_lowers_version :
  let d := fst (fst (set_value (empty_db 0 SNone) (mkCh "k" "a" 5 1 false))) in
  let d' := db_apply d (DSet "k" "b" (-2) 2) in
  option_map v_ver (get_value d "k") = Some 6 /\ option_map v_ver (get_value d' "k") = Some (-2).
Proof. vm_compute. auto. Qed.

Lemma ver_ok_of_bound o : (forall k' v ver opp, o = DSet k' v ver opp -> -1 <= ver) -> dop_ver_ok o.
Proof.
  destruct o; cbn; auto. intros H. specialize (H _ _ _ _ eq_refl). lia.
Qed.

Theorem version_monotone d k old o nw :
  get_value d k = Some old -> v_ver old <> -2 -> v_ver old < i32_max ->
  (forall k' v ver opp, o = DSet k' v ver opp -> -1 <= ver) ->
  get_value (db_apply d o) k = Some nw -> v_ver old <= v_ver nw.
Proof.
  intros Hg _ Hm Hb Hn. eapply version_step; eauto using ver_ok_of_bound. lia.
Qed.

Theorem version_strict d k old o nw :
  get_value d k = Some old -> v_ver old <> -2 -> v_ver old < i32_max ->
  (forall k' v ver opp, o = DSet k' v ver opp -> -1 <= ver) ->
  get_value (db_apply d o) k = Some nw ->
  db_apply d o <> d -> dop_key o = k -> v_ver old < v_ver nw.
Proof.
  intros Hg _ Hm Hb Hn Hd Hk.
  eapply version_step; eauto using ver_ok_of_bound; try lia.
  destruct (resp_ok (dop_resp d o)) eqn:E; auto.
  apply refused_changes_nothing in E. contradiction.
Qed.

Lemma version_bound_step d k old o nw :
  get_value d k = Some old -> v_ver old <= i32_max ->
  get_value (db_apply d o) k = Some nw -> v_ver nw <= i32_max.
Proof.
  intros Hg Hm Hn. revert nw Hn. set (R := fun z => z <= i32_max).
  assert (H : ver_at R d k) by (intros v; rewrite Hg; now intros [= <-]).
  pose proof sat_succ_le_max as S. assert (R (-2) /\ R 1) as [] by (unfold R, i32_max; lia).
  destruct o as [k0 v ver opp | k0 | k0 i opp]; cbn [db_apply].
  - apply (set_value_range (fun _ => True) R R); auto; intros; apply S.
  - apply (remove_value_range R R); auto; intros; apply S.
  - apply (inc_value_range R R); auto; intros; apply S.
Qed.

Fixpoint run_ok (k : str) (d : db) (ops : list dop) : Prop :=
  match ops with
  | [] => True
  | o :: r => dop_ver_ok o /\ get_value (db_apply d o) k <> None /\ run_ok k (db_apply d o) r
  end.

Theorem versions_monotone_seq k ops : forall d old,
  run_ok k d ops -> get_value d k = Some old -> v_ver old <= i32_max ->
  exists nw, get_value (fold_left db_apply ops d) k = Some nw /\ v_ver old <= v_ver nw.
Proof.
  induction ops as [|o r IH]; cbn [fold_left run_ok]; intros d old Hr Hg Hmx.
  - exists old. split; auto. lia.
  - destruct Hr as (Hok & Hp & Hr).
    destruct (get_value (db_apply d o) k) as [mid|] eqn:Hm; [|congruence].
    destruct (IH _ _ Hr Hm (version_bound_step _ _ _ _ _ Hg Hmx Hm)) as (nw & Hn & Hle).
    exists nw. split; auto.
    destruct (version_step _ _ _ _ _ Hok Hg Hm Hmx) as [H1 _]. lia.
Qed.

Fixpoint run_okb (k : str) (d : db) (ops : list dop) : bool :=
  match ops with
  | [] => true
  | o :: r =>
      match o with DSet _ _ ver _ => negb (Z.eqb ver (-2)) | _ => true end &&
      match get_value (db_apply d o) k with Some _ => true | None => false end &&
      run_okb k (db_apply d o) r
  end.

Lemma run_okb_ok k ops : forall d, run_okb k d ops = true -> run_ok k d ops.
Proof.
  induction ops as [|o r IH]; cbn [run_okb run_ok]; intros d H; auto.
  apply andb_true_iff in H. destruct H as [H H3].
  apply andb_true_iff in H. destruct H as [H1 H2].
  repeat split; auto.
  - destruct o; cbn; auto. destruct (Z.eqb_spec ver (-2)); [discriminate|auto].
  - destruct (get_value (db_apply d o) k); [discriminate|discriminate H2].
Qed.

Fixpoint run_strict (k : str) (d : db) (ops : list dop) : Prop :=
  match ops with
  | [] => True
  | o :: r =>
      (forall v, get_value d k = Some v -> v_ver v <> -2 /\ v_ver v < i32_max) /\
      (forall k' v ver opp, o = DSet k' v ver opp -> -1 <= ver) /\
      get_value (db_apply d o) k <> None /\ run_strict k (db_apply d o) r
  end.

Fixpoint successes (k : str) (d : db) (ops : list dop) : Z :=
  match ops with
  | [] => 0
  | o :: r => (if String.eqb (dop_key o) k && resp_ok (dop_resp d o) then 1 else 0)
              + successes k (db_apply d o) r
  end.

Theorem versions_strict_seq k ops : forall d old,
  run_strict k d ops -> get_value d k = Some old ->
  exists nw, get_value (fold_left db_apply ops d) k = Some nw /\
             v_ver old + successes k d ops <= v_ver nw.
Proof.
  induction ops as [|o r IH]; cbn [fold_left run_strict successes]; intros d old Hr Hg.
  - exists old. split; auto. lia.
  - destruct Hr as (Hpre & Hb & Hp & Hr).
    destruct (Hpre _ Hg) as [_ Hmax].
    destruct (get_value (db_apply d o) k) as [mid|] eqn:Hm; [|congruence].
    destruct (IH _ _ Hr Hm) as (nw & Hn & Hle).
    exists nw. split; auto.
    assert (Hmx : v_ver old <= i32_max) by lia.
    destruct (version_step _ _ _ _ _ (ver_ok_of_bound _ Hb) Hg Hm Hmx) as [H1 H2].
    destruct (String.eqb_spec (dop_key o) k) as [E|_]; cbn [andb]; [|lia].
    destruct (resp_ok (dop_resp d o)); [|lia].
    specialize (H2 Hmax eq_refl E). lia.
Qed.

Inductive qop := QMut (o : dop) | QGet (k : str) | QKeys (p : str) (sys : bool).
Inductive qout := OMut (ok : bool) | OGet (s : str) | OKeys (l : list str).

Definition impl_step (d : db) (q : qop) : db * qout :=
  match q with
  | QMut o => (db_apply d o, OMut (resp_ok (dop_resp d o)))
  | QGet k => (d, OGet (fst (get_key_value_new d k)))
  | QKeys p sys => (d, OKeys (list_keys d p sys))
  end.

Fixpoint impl_run (d : db) (qs : list qop) : db * list qout :=
  match qs with
  | [] => (d, [])
  | q :: r => let '(d1, o) := impl_step d q in
              let '(d2, os) := impl_run d1 r in (d2, o :: os)
  end.

Definition smap := str -> option str.
Definition upd (m : smap) (k : str) (v : option str) : smap :=
  fun k' => if String.eqb k' k then v else m k'.

Definition entry_text (m : smap) (k : str) : str := match m k with Some s => s | None => "0" end.
Definition entry_int (m : smap) (k : str) : Z :=
  match parse_i32 (entry_text m k) with Some c => c | None => 0 end.

(* the map after a mutation whose success flag was [ok] *)
Definition spec_mut (m : smap) (o : dop) (ok : bool) : smap :=
  if ok then
    match o with
    | DSet k v _ _ => upd m k (Some v)
    | DRemove k => upd m k None
    | DInc k i _ => upd m k (Some (Z_to_str (entry_int m k + i)))
    end
  else m.

Definition spec_next (m : smap) (q : qop) (o : qout) : smap :=
  match q, o with
  | QMut op, OMut ok => spec_mut m op ok
  | _, _ => m
  end.

(* which outputs the specification allows in state [m].  The success flag of a
   versioned write is left free ([cas_iff] decides it); an increment succeeds exactly
   when the entry is an i32 and the sum fits; a removal is refused only for "$$token". *)
Definition spec_allows (m : smap) (q : qop) (o : qout) : Prop :=
  match q, o with
  | QMut (DSet _ _ _ _), OMut _ => True
  | QMut (DRemove k), OMut ok => ok = true <-> k <> "$$token"
  | QMut (DInc k i _), OMut ok =>
      ok = true <-> exists c, parse_i32 (entry_text m k) = Some c /\ -2147483648 <= c + i <= 2147483647
  | QGet k, OGet s => s = match m k with Some s => s | None => "<Empty>" end
  | QKeys p sys, OKeys l =>
      StronglySorted (fun a b => str_leb a b = true) l /\ NoDup l /\
      forall k, In k l <-> m k <> None /\ pattern_match k p = true /\ (sys = true \/ starts_with k "$$" = false)
  | _, _ => False
  end.

Fixpoint spec_run (m : smap) (qs : list qop) (os : list qout) : Prop :=
  match qs, os with
  | [], [] => True
  | q :: qs', o :: os' => spec_allows m q o /\ spec_run (spec_next m q o) qs' os'
  | _, _ => False
  end.

Fixpoint spec_final (m : smap) (qs : list qop) (os : list qout) : smap :=
  match qs, os with
  | q :: qs', o :: os' => spec_final (spec_next m q o) qs' os'
  | _, _ => m
  end.

Lemma live_put_same d k v : live (put_value d k v) k = if vstate_eqb (v_st v) VDeleted then None else Some (v_val v).
Proof. unfold live. now rewrite gv_put_same. Qed.

Lemma live_other d d' k : get_value d' k = get_value d k -> live d' k = live d k.
Proof. unfold live. now intros ->. Qed.

Lemma mut_step d m o :
  (forall k, live d k = m k) ->
  spec_allows m (QMut o) (OMut (resp_ok (dop_resp d o))) /\
  forall k, live (db_apply d o) k = spec_mut m o (resp_ok (dop_resp d o)) k.
Proof.
  (* a refused mutation changes nothing ([refused_changes_nothing]) and the specification refuses it
     too; an accepted one by the operation, each through its *_ok / *_spec lemma, the other keys
     through [live_other] *)
  intros Hm.
  destruct (resp_ok (dop_resp d o)) eqn:Hok.
  2:{ split.
      - destruct o as [k v ver opp | k | k i opp]; cbn [spec_allows]; auto.
        + pose proof (refused_remove_is_token _ _ Hok). split; [discriminate|congruence].
        + split; [discriminate|]. intros (c & Hp & Hr). exfalso.
          cbn [dop_resp] in Hok. unfold entry_text in Hp. rewrite <- Hm in Hp.
          destruct (inc_value_spec_ok d k i opp c Hp Hr) as (d' & msgs & E & _).
          rewrite E in Hok. discriminate.
      - intros k. rewrite refused_changes_nothing by auto. cbn [spec_mut]. apply Hm. }
  destruct o as [k v ver opp | k | k i opp]; cbn [spec_allows spec_mut db_apply dop_resp] in *.
  - split; auto. intros k'.
    destruct (set_value d (mkCh k v ver opp false)) as [[d' r] msgs] eqn:E. cbn [fst snd] in *.
    destruct r; try discriminate.
    1:{ exfalso. destruct (set_value_refused _ _ _ _ _ E) as (_ & _ & old & _ & Hr); [|discriminate Hr].
        intros; discriminate. }
    destruct (set_value_ok _ _ _ _ _ _ E) as (-> & -> & Hl & Ho). cbn [c_key c_val] in *.
    unfold upd. destruct (String.eqb_spec k' k) as [->|Hne]; auto.
    rewrite <- Hm. apply live_other. auto.
  - destruct (String.eqb_spec k "$$token") as [->|Hne].
    + rewrite remove_token_refused in Hok. discriminate.
    + split; [tauto|]. intros k'.
      destruct (remove_value d k) as [[d' r] msgs] eqn:E. cbn [fst snd] in *.
      destruct (remove_value_spec _ _ _ _ _ Hne E) as (_ & Hl & Ho).
      unfold upd. destruct (String.eqb_spec k' k) as [->|Hne']; auto.
      rewrite <- Hm. apply live_other. auto.
  - destruct (parse_i32 (entry_text m k)) as [c|] eqn:Hp.
    2:{ exfalso. unfold entry_text in Hp. rewrite <- Hm in Hp.
        rewrite inc_value_spec_err in Hok by auto. discriminate. }
    destruct (Z_le_dec (-2147483648) (c + i)) as [H1|H1];
      [destruct (Z_le_dec (c + i) 2147483647) as [H2|H2]|].
    2,3: exfalso; unfold entry_text in Hp; rewrite <- Hm in Hp;
         rewrite inc_value_spec_err in Hok; [discriminate | right; exists c; split; auto; lia].
    split.
    + split; auto. intros _. exists c. split; auto.
    + intros k'. unfold entry_int. rewrite Hp.
      unfold entry_text in Hp. rewrite <- Hm in Hp.
      destruct (inc_value_spec_ok d k i opp c Hp (conj H1 H2)) as (d' & msgs & E & Hl & Ho).
      rewrite E. cbn [fst].
      unfold upd. destruct (String.eqb_spec k' k) as [->|Hne']; auto.
      rewrite <- Hm. apply live_other. auto.
Qed.

Lemma qstep_refines d m q :
  wf_db d -> (forall k, live d k = m k) ->
  wf_db (fst (impl_step d q)) /\
  spec_allows m q (snd (impl_step d q)) /\
  forall k, live (fst (impl_step d q)) k = spec_next m q (snd (impl_step d q)) k.
Proof.
  intros Hwf Hm. destruct q as [o | k | p sys]; cbn [impl_step fst snd spec_next].
  - split; [|now apply mut_step].
    destruct o; cbn [db_apply]; auto using set_value_wf, remove_value_wf, inc_value_wf.
  - split; auto. split; auto. cbn [spec_allows]. rewrite get_spec by auto. now rewrite Hm.
  - split; auto. split; auto. cbn [spec_allows].
    destruct (list_keys_sorted d p sys Hwf) as [Hs Hn].
    split; [exact Hs|]. split; [exact Hn|].
    intros k. rewrite <- Hm. now apply list_keys_spec.
Qed.

Lemma C01_refines_gen ops : forall d m,
  wf_db d -> (forall k, live d k = m k) ->
  spec_run m ops (snd (impl_run d ops)) /\
  forall k, live (fst (impl_run d ops)) k = spec_final m ops (snd (impl_run d ops)) k.
Proof.
  induction ops as [|q r IH]; intros d m Hwf Hm; cbn [impl_run].
  - cbn. auto.
  - destruct (qstep_refines d m q Hwf Hm) as (Hwf1 & Ha & Hm1).
    destruct (impl_step d q) as [d1 o]. cbn [fst snd] in *.
    specialize (IH d1 _ Hwf1 Hm1).
    destruct (impl_run d1 r) as [d2 os]. cbn [fst snd spec_run spec_final] in *.
    tauto.
Qed.

(* every history of mutations, reads and key listings on a well-formed database
   is a history of the plain map started from its live content, and the final contents agree *)
Theorem C01_refines ops d :
  wf_db d ->
  spec_run (live d) ops (snd (impl_run d ops)) /\
  forall k, live (fst (impl_run d ops)) k = spec_final (live d) ops (snd (impl_run d ops)) k.
Proof. intros Hwf. apply C01_refines_gen; auto. Qed.

Corollary C01_refines_empty ops id s :
  spec_run (fun _ => None) ops (snd (impl_run (empty_db id s) ops)) /\
  forall k, live (fst (impl_run (empty_db id s) ops)) k =
            spec_final (fun _ => None) ops (snd (impl_run (empty_db id s) ops)) k.
Proof. apply C01_refines_gen; auto using wf_db_empty. Qed.

Lemma get_db_put_sess n c s x : get_db (put_sess n c s) x = get_db n x.
Proof. exact (NodeLemmas.get_db_put_sess n c s x). Qed.

Lemma next_version_resolve k v id old :
  v_ver old <> -2 -> v_ver old < i32_max ->
  next_version (mkCh k v (v_ver old) id true) old = v_ver old + 1.
Proof.
  intros Ho Hm. unfold next_version, in_conflict, sat_succ; cbn [c_ver c_resolve].
  destruct (Z.eqb_spec (v_ver old) (-2)); [lia|].
  destruct (Z.ltb_spec (v_ver old) i32_max); lia.
Qed.

Lemma put_value_stored d k val nv opp old :
  get_value d k = Some old -> v_ver old <= nv ->
  let d' := put_value d k (mkV val nv opp (upd_state old) (v_vaddr old) (v_kaddr old)) in
  live d' k = Some val /\
  (forall o nw, get_value d k = Some o -> get_value d' k = Some nw -> v_ver o <= v_ver nw) /\
  (forall k', k' <> k -> get_value d' k' = get_value d k').
Proof.
  intros Hg Hle d'. subst d'. split; [|split].
  - rewrite live_put_same. cbn [v_st v_val]. now rewrite upd_state_eqb.
  - intros o nw. rewrite Hg, gv_put_same. intros [= <-] [= <-]. exact Hle.
  - intros k' Hne. now apply gv_put_other.
Qed.

(* counterexample to "the reply value is the live value" when the kept old value is a
   tombstone: the write is older (version 3 < 5, op id 5 < 10), the reply is
   [RSet "k" "<Empty>"], nothing changes, and the key stays deleted *)
Definition cx_db : db := mkDb [("k", mkV "<Empty>" 5 10 VDeleted 0 0)] [] 0 1 SNewer.
Definition cx_node : node := put_db (init_node "u" "p" "a" 1 Primary 0) "d" cx_db.
Definition cx_ch : change := mkCh "k" "x" 3 5 false.

Example newer_tombstone_cx :
  get_db cx_node "d" = Some cx_db /\ d_strat cx_db = SNewer /\
  c_resolve cx_ch = false /\ -1 <= c_ver cx_ch /\ c_ver cx_ch < i32_max /\
  apply_change cx_node "d" cx_ch = (cx_node, RSet "k" "<Empty>") /\
  live cx_db "k" = None.
Proof. vm_compute. repeat split; intros; discriminate. Qed.

Lemma newer_apply n dbn d ch :
  get_db n dbn = Some d -> d_strat d = SNewer -> c_resolve ch = false -> -1 <= c_ver ch ->
  (forall old, get_value d (c_key ch) = Some old -> v_ver old <> -2 /\ v_ver old < i32_max) ->
  exists n' v d',
    apply_change n dbn ch = (n', RSet (c_key ch) v) /\
    get_db n' dbn = Some d' /\
    (forall old nw, get_value d (c_key ch) = Some old -> get_value d' (c_key ch) = Some nw ->
                    v_ver old <= v_ver nw) /\
    (forall k', k' <> c_key ch -> get_value d' k' = get_value d k') /\
    ((v = c_val ch /\ live d' (c_key ch) = Some v) \/
     (exists old, get_value d (c_key ch) = Some old /\ v = v_val old /\ d' = d /\ n' = n)).
Proof.
  intros Hdb Hs Hr Hv Hold. unfold apply_change. rewrite Hdb.
  destruct (get_value d (c_key ch)) as [old|] eqn:Hg.
  - destruct (Hold _ eq_refl) as [Ho Hm].
    rewrite (set_value_present _ _ _ Hg).
    destruct (Z.leb (next_version ch old) (v_ver old) && negb (Z.eqb (c_ver ch) (-2))) eqn:C.
    + cbv beta iota zeta. rewrite Hs.
      destruct (N.ltb (v_opp old) (c_opp ch)).
      * unfold tick. cbv beta iota zeta.
        rewrite (set_value_present d (mkCh (c_key ch) (c_val ch) (v_ver old) (n_clock n) true) old Hg).
        rewrite next_version_resolve by auto.
        replace (Z.leb (v_ver old + 1) (v_ver old)) with false by (symmetry; apply Z.leb_gt; lia).
        cbn [andb c_key c_val c_opp].
        eexists _, _, _. split; [reflexivity|].
        split; [rewrite get_db_sends; apply get_db_put_same|].
        destruct (put_value_stored d (c_key ch) (c_val ch) (v_ver old + 1) (n_clock n) old Hg) as (H1 & H2 & H3); [lia|].
        rewrite Hg in H2. split; [exact H2|]. split; [exact H3|]. left. split; auto.
      * exists n, (v_val old), d. repeat split; auto.
        -- intros o nw [= <-] H. rewrite Hg in H. injection H as <-. lia.
        -- right. exists old. auto.
    + cbv beta iota zeta.
      eexists _, _, _. split; [reflexivity|].
      split; [rewrite get_db_sends; apply get_db_put_same|].
      apply andb_false_iff in C.
      assert (Hlt : v_ver old <= next_version ch old).
      { destruct C as [C|C]; [apply Z.leb_gt in C; lia|].
        destruct (Z.eqb_spec (c_ver ch) (-2)); [lia|discriminate]. }
      destruct (put_value_stored d (c_key ch) (c_val ch) (next_version ch old) (c_opp ch) old Hg Hlt) as (H1 & H2 & H3).
      rewrite Hg in H2. split; [exact H2|]. split; [exact H3|]. left. split; auto.
  - rewrite (set_value_absent d ch Hg). cbv beta iota zeta.
    eexists _, _, _. split; [reflexivity|].
    split; [rewrite get_db_sends; apply get_db_put_same|].
    repeat split.
    + intros o nw. discriminate.
    + intros k' Hne. now apply gv_put_other.
    + left. split; auto. now rewrite live_put_same.
Qed.

Theorem newer_never_refused n dbn d ch :
  get_db n dbn = Some d -> d_strat d = SNewer -> c_resolve ch = false ->
  -1 <= c_ver ch -> c_ver ch < i32_max ->
  (forall old, get_value d (c_key ch) = Some old -> v_ver old <> -2 /\ v_ver old < i32_max) ->
  exists n' v d',
    apply_change n dbn ch = (n', RSet (c_key ch) v) /\
    get_db n' dbn = Some d' /\
    ((forall old, get_value d (c_key ch) = Some old -> v_st old <> VDeleted) ->
     live d' (c_key ch) = Some v) /\
    (forall old nw, get_value d (c_key ch) = Some old -> get_value d' (c_key ch) = Some nw ->
                    v_ver old <= v_ver nw) /\
    (forall k', k' <> c_key ch -> get_value d' k' = get_value d k').
Proof.
  intros Hdb Hs Hr Hv _ Hold.
  destruct (newer_apply n dbn d ch Hdb Hs Hr Hv Hold) as (n' & v & d' & Ha & Hd & Hm & Hf & Hc).
  exists n', v, d'. repeat split; auto.
  intros Hnt. destruct Hc as [[_ Hl] | (old & Hg & -> & -> & _)]; auto.
  unfold live. rewrite Hg.
  destruct (vstate_eqb_spec (v_st old) VDeleted) as [E|_]; auto.
  exfalso. eapply Hnt; eauto.
Qed.

Theorem newer_reply_value n dbn d ch n' v :
  get_db n dbn = Some d -> d_strat d = SNewer -> c_resolve ch = false ->
  -1 <= c_ver ch -> c_ver ch < i32_max ->
  (forall old, get_value d (c_key ch) = Some old -> v_ver old <> -2 /\ v_ver old < i32_max) ->
  apply_change n dbn ch = (n', RSet (c_key ch) v) ->
  exists d', get_db n' dbn = Some d' /\
    ((v = c_val ch /\ live d' (c_key ch) = Some v) \/
     (exists old, get_value d (c_key ch) = Some old /\ v = v_val old /\ d' = d /\ n' = n)).
Proof.
  intros Hdb Hs Hr Hv _ Hold Happ.
  destruct (newer_apply n dbn d ch Hdb Hs Hr Hv Hold) as (n2 & v2 & d' & Ha & Hd & _ & _ & Hc).
  rewrite Happ in Ha. injection Ha as -> ->.
  exists d'. split; auto.
Qed.

(* [n'] is [n] with database [x] replaced by [d'] and [msgs] delivered; whatever else may differ
   (clock, queues) is not mentioned *)
Definition effect (n n' : node) (x : str) (d' : db) (msgs : list (nat * str)) : Prop :=
  (forall y, get_db n' y = if String.eqb y x then Some d' else get_db n y) /\
  n_sess n' = n_sess (sends n msgs).

Lemma effect_put_sends n n1 x d' msgs :
  n_dbs n1 = n_dbs n -> n_sess n1 = n_sess n -> effect n (sends (put_db n1 x d') msgs) x d' msgs.
Proof.
  intros D S. split.
  - intros y. rewrite get_db_sends, get_db_put. unfold get_db. now rewrite D.
  - now apply sends_sess_congr.
Qed.

Lemma effect_sends n x d msgs : get_db n x = Some d -> effect n (sends n msgs) x d msgs.
Proof.
  intros H. split; [|reflexivity]. intros y. rewrite get_db_sends.
  destruct (String.eqb_spec y x) as [->|]; auto.
Qed.

Lemma effect_none n x d : get_db n x = Some d -> effect n n x d [].
Proof. exact (effect_sends n x d []). Qed.

Lemma effect_after n n1 n2 x d' msgs :
  effect n n1 x d' msgs -> n_dbs n2 = n_dbs n1 -> n_sess n2 = n_sess n1 -> effect n n2 x d' msgs.
Proof. intros [D S] E1 E2. split; [intros y; unfold get_db; rewrite E1; apply D | congruence]. Qed.

Lemma effect_before n0 n n' x d' msgs :
  effect n0 n' x d' msgs -> n_dbs n0 = n_dbs n -> n_sess n0 = n_sess n -> effect n n' x d' msgs.
Proof.
  intros [D S] E1 E2. split.
  - intros y. rewrite D. unfold get_db. now rewrite E1.
  - rewrite S. now apply sends_sess_congr.
Qed.

Lemma effect_trans n n1 n2 x d1 d2 m1 m2 :
  effect n n1 x d1 m1 -> effect n1 n2 x d2 m2 -> effect n n2 x d2 (m1 ++ m2).
Proof.
  intros [D1 S1] [D2 S2]. split.
  - intros y. rewrite D2, D1. now destruct (String.eqb y x).
  - replace (sends n (m1 ++ m2)) with (sends (sends n m1) m2) by (unfold sends; now rewrite fold_left_app).
    rewrite S2. now apply sends_sess_congr.
Qed.

Lemma apply_change_effect n dbn ch d : get_db n dbn = Some d ->
  exists d' msgs, effect n (fst (apply_change n dbn ch)) dbn d' msgs /\ writes (write_keys (c_key ch)) d d' msgs.
Proof.
  (* every branch that changes the node is [effect_put_sends] with [writes_put] or [set_value_writes];
     [Same] is the branches that leave it alone, [Key] the weakening from the one key to the class *)
  intros Hdb.
  assert (Same : exists d' msgs, effect n n dbn d' msgs /\ writes (write_keys (c_key ch)) d d' msgs)
    by (exists d, []; split; [now apply effect_none | apply writes_refl]).
  assert (Key : forall k, c_key ch = k -> write_keys (c_key ch) k) by (intros k <-; now left).
  unfold apply_change. rewrite Hdb.
  pose proof (set_value_writes d ch) as W1.
  destruct (set_value d ch) as [[d1 r] msgs] eqn:E. cbn [fst snd] in W1.
  destruct r; cbn [fst];
    try (exists d1, msgs; split; [now apply effect_put_sends | exact (writes_weaken _ _ _ _ _ Key W1)]).
  destruct (set_value_refused _ _ _ _ _ E) as (_ & _ & o & _ & [= -> _ _ -> -> _]); [discriminate|].
  destruct (d_strat d); [exact Same| |].
  - destruct (N.ltb _ _); [|exact Same]. unfold tick.
    match goal with |- context [set_value d ?c] =>
      pose proof (set_value_writes d c) as W2; destruct (set_value d c) as [[d2 r2] msgs2] end.
    exists d2, msgs2. split; [now apply effect_put_sends | exact (writes_weaken _ _ _ _ _ Key W2)].
  - destruct (negb (has_arbiter d)); [exact Same|]. cbv zeta.
    match goal with |- context [put_value d ?k ?v] =>
      assert (W2 : forall m, writes (write_keys (c_key ch)) d (put_value d k v) (arbiter_msgs d m));
      [|set (d2 := put_value d k v) in *] end.
    { intros m. apply (writes_weaken _ _ _ _ _ Key), writes_put, map_to_watchers. }
    match goal with |- context [match ?info with Some _ => _ | None => _ end] =>
      destruct info as [[ook cver]|] end; cbn [fst].
    (* [info] is never [None] (ArbiterHttpProofs.apply_change_info); the branch is walked like the others *)
    2:{ exists d2, []. split; [now apply (effect_put_sends n n _ _ []) | ].
        apply (writes_weaken _ _ _ _ _ Key), writes_put, to_watchers_nil. }
    match goal with |- context [arbiter_msgs d2 ?m] => set (rmsg := m) end.
    set (n1 := sends (put_db n dbn d2) (arbiter_msgs d2 rmsg)). unfold tick.
    match goal with |- context [set_value d2 ?c] =>
      pose proof (set_value_writes d2 c) as W3; destruct (set_value d2 c) as [[d3 r3] msgs3] end.
    cbn [fst snd c_key] in *.
    exists d3, (arbiter_msgs d2 rmsg ++ msgs3). split.
    + eapply effect_trans; [now apply (effect_put_sends n n)|].
      eapply effect_after; [now apply (effect_put_sends n1 (n_set_clock n1 (n_clock n1 + 1)))|..];
        [apply n_dbs_replicate_change | apply n_sess_replicate_change].
    + eapply writes_trans; [apply W2|]. eapply writes_weaken; [|exact W3]. now intros k <-; right.
Qed.

Lemma effect_put_then n x d1 n2 d2 msgs : effect (put_db n x d1) n2 x d2 msgs -> effect n n2 x d2 msgs.
Proof. exact (effect_trans _ _ _ _ _ _ [] _ (effect_put_sends n n _ _ [] eq_refl eq_refl)). Qed.

Lemma set_key_value_effect n dbn key value ver d : get_db n dbn = Some d ->
  exists d' msgs, effect n (fst (set_key_value n dbn key value ver)) dbn d' msgs /\
                  writes (write_keys key) d d' msgs.
Proof.
  intros Hdb. unfold set_key_value, tick.
  destruct (apply_change_effect (n_set_clock n (n_clock n + 1)) dbn (mkCh key value ver (n_clock n) false) d Hdb)
    as (d' & msgs & E & W).
  exists d', msgs. split; [|exact W]. now apply (effect_before _ _ _ _ _ _ E).
Qed.

Lemma set_connection_counter_effect n dbn d : get_db n dbn = Some d ->
  exists d' msgs, effect n (set_connection_counter n dbn) dbn d' msgs /\
                  writes (write_keys "$connections") d d' msgs.
Proof. intros Hdb. unfold set_connection_counter. rewrite Hdb. now apply set_key_value_effect. Qed.

Lemma count_connection_effect n dbn d z : get_db n dbn = Some d ->
  exists d' msgs,
    effect n (set_connection_counter (put_db n dbn (db_set_conn d z)) dbn) dbn d' msgs /\
    writes (write_keys "$connections") (db_set_conn d z) d' msgs.
Proof.
  intros Hdb.
  destruct (set_connection_counter_effect (put_db n dbn (db_set_conn d z)) dbn _ (get_db_put_same _ _ _))
    as (d' & msgs & E & W).
  exists d', msgs. split; [exact (effect_put_then _ _ _ _ _ _ E) | exact W].
Qed.

(* Database::resolve_conflit as one equation: the record of the conflict is marked "resolved" under a
   fresh op id, that write is replicated, then the key is written -- at version -2 while another
   record of the key is pending *)
Definition reg_of (ch : change) (clk : N) : change :=
  mkCh (conflict_key ch) ("resolved " +++ c_val ch) (-1) clk false.
(* the write of the key itself: at version -2 when [P], another record being pending *)
Definition res_ch (P : bool) (ch : change) : change :=
  if P then mkCh (c_key ch) (c_val ch) (-2) (c_opp ch) true
  else mkCh (c_key ch) (c_val ch) (c_ver ch) (c_opp ch) true.

Lemma res_ch_key P ch : c_key (res_ch P ch) = c_key ch.
Proof. now destruct P. Qed.

Lemma resolve_conflict_eq n dbn d ch : get_db n dbn = Some d ->
  let reg := reg_of ch (n_clock n) in
  let s1 := set_value d reg in
  let s2 := set_value (fst (fst s1)) (res_ch (has_pending_conflict (fst (fst s1)) (c_key ch)) ch) in
  resolve_conflict n dbn ch =
  (sends (put_db (replicate_change (sends (put_db (n_set_clock n (n_clock n + 1)) dbn (fst (fst s1))) (snd s1)) dbn reg)
                 dbn (fst (fst s2))) (snd s2),
   snd (fst s2)).
Proof.
  intros Hdb. cbv zeta. unfold resolve_conflict, tick, res_ch. rewrite Hdb. cbv beta iota. fold (reg_of ch (n_clock n)).
  destruct (set_value d (reg_of ch (n_clock n))) as [[d1 r1] m1]. cbn [fst snd].
  now destruct (set_value d1 _) as [[d2 r2] m2].
Qed.

Lemma resolve_conflict_effect n dbn ch d : get_db n dbn = Some d ->
  exists d' msgs, effect n (fst (resolve_conflict n dbn ch)) dbn d' msgs /\
                  writes (write_keys (c_key ch)) d d' msgs.
Proof.
  intros Hdb. rewrite (resolve_conflict_eq n dbn d ch Hdb). cbv zeta. cbn [fst].
  pose proof (set_value_writes d (reg_of ch (n_clock n))) as W1.
  destruct (set_value d (reg_of ch (n_clock n))) as [[d1 r1] m1]. cbn [fst snd] in *.
  pose proof (set_value_writes d1 (res_ch (has_pending_conflict d1 (c_key ch)) ch)) as W2. rewrite res_ch_key in W2.
  destruct (set_value d1 (res_ch _ ch)) as [[d2 r2] m2]. cbn [fst snd] in *.
  exists d2, (m1 ++ m2). split.
  - eapply effect_trans; [|now apply effect_put_sends].
    eapply effect_after; [now apply (effect_put_sends n (n_set_clock n (n_clock n + 1)))|..];
      [apply n_dbs_replicate_change | apply n_sess_replicate_change].
  - eapply writes_trans; eapply writes_weaken; [|exact W1| |exact W2]; intros k <-; [now right|now left].
Qed.

Lemma list_conflicts_keys_in d key k : In k (list_conflicts_keys d key) ->
  starts_with k (if String.eqb key "" then "$conflicts_" else "$conflicts_" +++ key +++ "_") = true.
Proof.
  unfold list_conflicts_keys. intros H. rewrite in_sort_strs in H.
  apply in_map_iff in H. destruct H as (kv & <- & H). apply filter_In in H.
  destruct H as [_ H]. apply andb_true_iff in H. apply H.
Qed.

(* what register_arbiter does with one conflict record *)
Definition reg_step (dbn : str) (n : node) (k : str) : node :=
  match get_db n dbn with
  | None => n
  | Some dd =>
      match get_value dd k with
      | None => n
      | Some v =>
          if starts_with (v_val v) "resolved" then
            let '(dd', _, msgs) := remove_value dd k in sends (put_db n dbn dd') msgs
          else sends n (arbiter_msgs dd (v_val v))
      end
  end.

Lemma register_arbiter_eq n dbn c :
  register_arbiter n dbn c =
  match get_db n dbn with
  | None => n
  | Some d => let d1 := watch_key d "$conflicts" c in
              fold_left (reg_step dbn) (list_conflicts_keys d1 "") (put_db n dbn d1)
  end.
Proof. reflexivity. Qed.

Lemma reg_step_effect dbn n k d : get_db n dbn = Some d ->
  exists d' msgs, effect n (reg_step dbn n k) dbn d' msgs /\ writes (eq k) d d' msgs.
Proof.
  intros Hdb. unfold reg_step. rewrite Hdb.
  destruct (get_value d k) as [v|].
  2:{ exists d, []. split; [now apply effect_none | apply writes_refl]. }
  destruct (starts_with (v_val v) "resolved").
  - pose proof (remove_value_writes d k) as W. destruct (remove_value d k) as [[d' r] msgs].
    exists d', msgs. split; [now apply effect_put_sends | exact W].
  - exists d, (arbiter_msgs d (v_val v)).
    split; [now apply effect_sends | apply writes_msgs, map_to_watchers].
Qed.

Lemma reg_fold_effect (K : str -> Prop) dbn l : Forall K l -> forall n d, get_db n dbn = Some d ->
  exists d' msgs, effect n (fold_left (reg_step dbn) l n) dbn d' msgs /\ writes K d d' msgs.
Proof.
  induction 1 as [|k l Hk _ IH]; intros n d Hdb; cbn [fold_left].
  - exists d, []. split; [now apply effect_none | apply writes_refl].
  - destruct (reg_step_effect dbn n k d Hdb) as (d1 & m1 & E1 & W1).
    destruct (IH (reg_step dbn n k) d1) as (d2 & m2 & E2 & W2);
      [rewrite (proj1 E1); now rewrite String.eqb_refl|].
    exists d2, (m1 ++ m2). split; [eapply effect_trans; eauto|].
    eapply writes_trans; [|exact W2]. eapply writes_weaken; [|exact W1]. now intros k' <-.
Qed.

Lemma register_arbiter_effect n dbn c d : get_db n dbn = Some d ->
  exists d' msgs, effect n (register_arbiter n dbn c) dbn d' msgs /\
    writes (fun k => starts_with k "$conflicts_" = true) (watch_key d "$conflicts" c) d' msgs.
Proof.
  intros Hdb. rewrite register_arbiter_eq, Hdb. cbv zeta.
  set (d1 := watch_key d "$conflicts" c).
  destruct (reg_fold_effect (fun k => starts_with k "$conflicts_" = true) dbn (list_conflicts_keys d1 ""))
    with (n := put_db n dbn d1) (d := d1) as (d' & msgs & E & W).
  - apply Forall_forall. intros k. apply (list_conflicts_keys_in d1 "").
  - apply get_db_put_same.
  - exists d', msgs. split; [exact (effect_put_then _ _ _ _ _ _ E) | exact W].
Qed.
