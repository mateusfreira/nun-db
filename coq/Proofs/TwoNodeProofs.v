(* TwoNodeProofs.v -- C07 for the smallest cluster: two nodes, all process ids (ages).

   C07: "after any sequence of joins, leaves and failures the elections end, with exactly one
   primary, the oldest node, and every member agrees on it".  Proofs/ElectionProofs.v refutes it
   for two and three nodes on concrete pids.  Here: the POSITIVE part for two nodes formed sequentially
   ("join n2" sent to n1, then the scheduler runs to quiescence), for ALL process ids pa, pb and
   ALL election timeouts -- and what is NOT true of it: the primary is the node that was asked,
   not the oldest one.

   How the proofs work.  The start state and the command are concrete except for pa, pb and the
   timeout, which are universally quantified VARIABLES of the theorems.  The run is evaluated
   with these variables free (vm_compute normalises open terms: a comparison of pa and pb, or a
   decimal rendering of pa, would stay stuck in the result and [reflexivity] would fail).  It
   does not get stuck: in a sequential two-node formation [start_election] finds at most one
   member in the table and wins at once (single_node_wins_at_once), no "election candidate"
   message is ever sent, [election_eval] is never called, no call blocks (no frame), the
   timeout is never read.  So this is a proof over all pids, not a test on sample pids; the
   samples (100/200, 200/100) appear only as non-vacuity Examples, obtained THROUGH the theorem. *)
From NunDB Require Import Model.Base Model.Parse Model.Node Model.Cluster Model.Election.
From NunDB Require Import Proofs.ElectionProofs.
From NunDB Require Proofs.ConvergeProofs.
Require Import String List NArith ZArith Bool Lia. Import ListNotations.
Open Scope string_scope.
Open Scope list_scope.
Open Scope N_scope.

(* [mk_ecl] of ElectionProofs.v fixes the timeout to 20 ms; this is the same definition with the
   timeout abstracted *)
Definition mk_ecl_t (timeout : N) (l : list (str * N * N)) : ecl :=
  let names := map (fun x => fst (fst x)) l in
  let c := fold_left conn2 names (mkCl (mk_nodes l) [] 0) in
  fold_left (fun e nm => fst (ecmd e nm 0%nat "auth nun pwd")) names (mkE c [] timeout []).

Lemma mk_ecl_t_20 : forall l, mk_ecl_t 20 l = mk_ecl l.
Proof. reflexivity. Qed.

(* two StartingUp nodes n1 (pid pa) and n2 (pid pb), not connected *)
Definition two (pa pb timeout : N) : ecl := mk_ecl_t timeout [("n1", pa, K1); ("n2", pb, K2)].

Lemma two_20 : forall pa pb, two pa pb 20 = mk_ecl [("n1", pa, K1); ("n2", pb, K2)].
Proof. intros. unfold two. apply mk_ecl_t_20. Qed.
Lemma two_100_200 : two 100 200 20 = two_nodes.
Proof. unfold two_nodes. apply two_20. Qed.

(* nothing is queued anywhere: no blocked call, no line or reply on a link, no message for a
   supervisor or a replication thread, no line in a member outbox (one that starts with the
   no-sender mark counts as empty) *)
Definition link_idle (l : link) : bool :=
  match l_hs l, l_q l, l_replies l with [], [], [] => true | _, _, _ => false end.
Definition outbox_idle (m : str * (role * list str)) : bool :=
  match snd (snd m) with [] => true | q => is_nosender q end.
Definition node_idle (x : cnode) : bool :=
  match n_sup (cn_node x), n_repl (cn_node x) with
  | [], [] => forallb outbox_idle (n_members (cn_node x))
  | _, _ => false
  end.
Definition quiescentb (e : ecl) : bool :=
  match e_frames e with [] => true | _ => false end &&
  forallb link_idle (c_links (e_c e)) &&
  forallb (fun kv => node_idle (snd kv)) (c_nodes (e_c e)).
Definition quiescent (e : ecl) : Prop := quiescentb e = true.

Lemma sync_clocks_links : forall c, c_links (sync_clocks c) = c_links c.
Proof. reflexivity. Qed.

Lemma link_idle_inv : forall l, link_idle l = true -> l_hs l = [] /\ l_q l = [] /\ l_replies l = [].
Proof.
  intros l H. unfold link_idle in H.
  destruct (l_hs l); [|discriminate]. destruct (l_q l); [|discriminate].
  destruct (l_replies l); [|discriminate]. auto.
Qed.

(* the definition means what it says: in a quiescent state no link can take a step *)
Theorem quiescent_no_link_step : forall e i,
  quiescent e -> edeliver e i = None /\ ereply e i = None.
Proof.
  intros e i Hq. apply andb_true_iff in Hq as [Hq _]. apply andb_true_iff in Hq as [_ Hl].
  unfold edeliver, ereply, deliver, reply.
  destruct (nth_error (c_links (e_c e)) i) as [l|] eqn:Hn.
  - destruct (link_idle_inv l (ListLemmas.nth_error_forallb _ _ _ _ Hl Hn)) as (H1 & H2 & H3).
    rewrite (ConvergeProofs.deliver_raw_none (sync_clocks (e_c e)) i l Hn H1 H2),
            (ConvergeProofs.reply_raw_none (sync_clocks (e_c e)) i l Hn H3).
    destruct (busy_link e i); split; reflexivity.
  - unfold reply_raw. rewrite sync_clocks_links, Hn. destruct (busy_link e i); split; reflexivity.
Qed.

Lemma quiescent_no_frames : forall e, quiescent e -> e_frames e = [].
Proof.
  intros e Hq. unfold quiescent, quiescentb in Hq.
  destruct (e_frames e); [reflexivity|discriminate].
Qed.

Notation asked_n1 pa pb timeout := (cmd (two pa pb timeout) "n1" 0%nat "join n2") (only parsing).
(* the settled state: three scheduler rounds are enough (formed_facts) and needed (formed_not_before) *)
Definition formed (pa pb timeout : N) : ecl := fst (esettle 3 (asked_n1 pa pb timeout)).

(* Terms such as [formed pa pb timeout] stand for a long computation.  They are evaluated by
   vm_compute only (open terms: pa, pb, timeout stay variables); everywhere else they are moved
   around by lemmas stated over variables, so that the kernel never has to convert
   [fst (formed .., true)] with [formed ..] by unfolding. *)
Lemma pair_fst : forall {A B} (p : A * B) a b, p = (a, b) -> fst p = a.
Proof. intros A B p a b ->. reflexivity. Qed.
Lemma pair_of_snd : forall {A} (p : A * bool), snd p = true -> p = (fst p, true).
Proof. intros A [a b] H. cbn in H. subst b. reflexivity. Qed.

Lemma settled_for_good : forall (P : ecl -> Prop) F X e,
  esettle F X = (e, true) -> P e ->
  forall fuel, (F <= fuel)%nat -> snd (esettle fuel X) = true /\ P (fst (esettle fuel X)).
Proof.
  intros P F X e H HP fuel Hle. rewrite (esettle_enough F X e H fuel Hle). exact (conj eq_refl HP).
Qed.

(* the command itself does not block: n1 has no member yet, its election is won at once
   (no frame), n1 is Primary before anything is delivered *)
Lemma asked_n1_immediate : forall pa pb timeout,
  snd (ecmd (two pa pb timeout) "n1" 0 "join n2") = COut ROk /\
  e_frames (asked_n1 pa pb timeout) = [] /\
  roles (asked_n1 pa pb timeout) = [("n1", Primary); ("n2", StartingUp)] /\
  repl_queue (e_c (asked_n1 pa pb timeout)) "n1" = [] /\
  option_map n_sup (node_of (e_c (asked_n1 pa pb timeout)) "n1") = Some ["secoundary n2"; "election-win self"].
Proof. intros pa pb timeout. vm_compute. repeat split; reflexivity. Qed.

Lemma formed_not_before : forall pa pb timeout, snd (esettle 2 (asked_n1 pa pb timeout)) = false.
Proof. intros. vm_compute. reflexivity. Qed.

(* [r] is let-bound before the evaluation so that the run is evaluated once for all conjuncts *)
Lemma formed_facts : forall pa pb timeout,
  let e := formed pa pb timeout in
  esettle 3 (asked_n1 pa pb timeout) = (e, true) /\
  quiescent e /\
  e_frames e = [] /\
  esettle_round e = (e, false) /\
  roles e = [("n1", Primary); ("n2", Secondary)] /\
  member_tables e = [("n1", [("n2", Secondary); ("n1", Primary)]);
                     ("n2", [("n1", Primary); ("n2", Secondary)])] /\
  pids e = [("n1", pa); ("n2", pb)].
Proof.
  intros pa pb timeout. unfold quiescent, formed. set (r := esettle 3 _). revert r.
  vm_compute. repeat split; reflexivity.
Qed.

Theorem C07_two_nodes_form_state : forall pa pb timeout fuel,
  (3 <= fuel)%nat -> esettle fuel (asked_n1 pa pb timeout) = (formed pa pb timeout, true).
Proof.
  intros pa pb timeout fuel Hle.
  exact (esettle_enough 3 _ _ (proj1 (formed_facts pa pb timeout)) fuel Hle).
Qed.

Corollary formed_fst : forall pa pb timeout fuel,
  (3 <= fuel)%nat -> fst (esettle fuel (asked_n1 pa pb timeout)) = formed pa pb timeout.
Proof. intros pa pb timeout fuel Hle. exact (pair_fst _ _ _ (C07_two_nodes_form_state pa pb timeout fuel Hle)). Qed.

(* [C07_two_nodes_form] below carries four hypotheses (distinct pids, timeout > 0, pids < 2^64)
   that its proof discards; this is the statement without them. *)
Theorem C07_two_nodes_form_any : forall (pa pb timeout : N),
  let e0 := two pa pb timeout in
  exists F : nat, forall fuel, (F <= fuel)%nat ->
    let r := esettle fuel (cmd e0 "n1" 0 "join n2") in
    let e1 := fst r in
    snd r = true /\
    quiescent e1 /\
    esettle_round e1 = (e1, false) /\
    e_frames e1 = [] /\
    roles e1 = [("n1", Primary); ("n2", Secondary)] /\
    member_tables e1 = [("n1", [("n2", Secondary); ("n1", Primary)]);
                        ("n2", [("n1", Primary); ("n2", Secondary)])].
Proof.
  intros pa pb timeout e0. exists 3%nat. intros fuel Hle. subst e0. cbv zeta.
  rewrite (C07_two_nodes_form_state pa pb timeout fuel Hle).
  destruct (formed_facts pa pb timeout) as (_ & H1 & H2 & H3 & H4 & H5 & _).
  exact (conj eq_refl (conj H1 (conj H3 (conj H2 (conj H4 H5))))).
Qed.

Theorem C07_two_nodes_form : forall (pa pb timeout : N),
  pa <> pb -> 0 < timeout -> pa < 2 ^ 64 -> pb < 2 ^ 64 ->
  let e0 := two pa pb timeout in
  exists F : nat, forall fuel, (F <= fuel)%nat ->
    let r := esettle fuel (cmd e0 "n1" 0 "join n2") in
    let e1 := fst r in
    snd r = true /\
    quiescent e1 /\
    esettle_round e1 = (e1, false) /\
    e_frames e1 = [] /\
    roles e1 = [("n1", Primary); ("n2", Secondary)] /\
    member_tables e1 = [("n1", [("n2", Secondary); ("n1", Primary)]);
                        ("n2", [("n1", Primary); ("n2", Secondary)])].
Proof. intros pa pb timeout _ _ _ _. exact (C07_two_nodes_form_any pa pb timeout). Qed.

Definition cn_erase_pid (x : cnode) : cnode :=
  let n := cn_node x in
  cn_set_node x (mkNode (n_dbs n) (n_sess n) (n_role n) (n_clock n) (n_user n) (n_pwd n) (n_addr n) 0
                        (n_repl n) (n_sup n) (n_snap n) (n_pending n) (n_idmap n) (n_members n)).
Definition erase_pids (e : ecl) : ecl :=
  mkE (mkCl (map (fun kv => (fst kv, cn_erase_pid (snd kv))) (c_nodes (e_c e))) (c_links (e_c e)) (c_cross (e_c e)))
      (e_frames e) 0 (e_done e).

(* Apart from the pid fields (and the timeout field) themselves, the settled state is ONE state:
   sessions, links, counters, clocks, member tables, roles are those of the run with pids 100 / 200
   and timeout 20 -- whatever pa, pb, timeout are, equal pids included. *)
Theorem C07_two_nodes_pid_independent : forall pa pb timeout,
  erase_pids (formed pa pb timeout) = erase_pids (formed 100 200 20).
Proof. intros. vm_compute. reflexivity. Qed.

(* Which way is "older"?  election_eval (election_eval_rule in ElectionProofs.v): a node that
   receives "election candidate <cand>" with  n_pid < cand  contests the candidacy (starts its own
   election), with  cand < n_pid  it yields (becomes Secondary).  So the SMALLER process id is
   meant to win: smaller pid = started earlier = older. *)
Definition pid_of (e : ecl) (nm : str) : option N :=
  option_map (fun x => n_pid (cn_node x)) (get_cn (e_c e) nm).
Definition older (p q : N) : Prop := p < q.
Definition is_oldest (e : ecl) (nm : str) : Prop :=
  exists p, pid_of e nm = Some p /\ forall nm' p', pid_of e nm' = Some p' -> ~ older p' p.
Definition primaries (e : ecl) : list str :=
  map fst (filter (fun kv => role_eqb (snd kv) Primary) (roles e)).

Lemma pid_of_pids : forall e nm, pid_of e nm = assoc_get String.eqb nm (pids e).
Proof.
  intros e nm. unfold pid_of, pids, get_cn.
  induction (c_nodes (e_c e)) as [|[k v] r IH]; [reflexivity|].
  cbn. destruct (String.eqb nm k); [reflexivity|exact IH].
Qed.

Lemma formed_pid_of : forall pa pb timeout nm,
  pid_of (formed pa pb timeout) nm =
  if String.eqb nm "n1" then Some pa else if String.eqb nm "n2" then Some pb else None.
Proof.
  intros pa pb timeout nm. rewrite pid_of_pids.
  pose proof (formed_facts pa pb timeout) as H. cbv zeta in H. destruct H as (_ & _ & _ & _ & _ & _ & Hp).
  rewrite Hp. reflexivity.
Qed.

Lemma formed_primaries : forall pa pb timeout, primaries (formed pa pb timeout) = ["n1"].
Proof.
  intros pa pb timeout. unfold primaries.
  pose proof (formed_facts pa pb timeout) as H. cbv zeta in H. destruct H as (_ & _ & _ & _ & Hr & _).
  rewrite Hr. reflexivity.
Qed.

Lemma is_oldest_two : forall e a b pa pb,
  (forall nm, pid_of e nm = if String.eqb nm a then Some pa else if String.eqb nm b then Some pb else None) ->
  a <> b -> (is_oldest e a <-> pa <= pb).
Proof.
  intros e a b pa pb Hpid Hab. apply String.eqb_neq in Hab. rewrite String.eqb_sym in Hab.
  unfold is_oldest, older. split.
  - intros [p [Hp Hall]]. rewrite Hpid, String.eqb_refl in Hp. injection Hp as <-.
    specialize (Hall b pb). rewrite Hpid, Hab, String.eqb_refl in Hall.
    specialize (Hall eq_refl). lia.
  - intro Hle. exists pa. split; [rewrite Hpid, String.eqb_refl; reflexivity|].
    intros nm' p' H. rewrite Hpid in H.
    destruct (String.eqb nm' a); [inversion H; lia|].
    destruct (String.eqb nm' b); [inversion H; lia|discriminate].
Qed.

Lemma formed_oldest : forall pa pb timeout,
  (is_oldest (formed pa pb timeout) "n1" <-> pa <= pb) /\
  (is_oldest (formed pa pb timeout) "n2" <-> pb <= pa).
Proof.
  intros pa pb timeout. split.
  - apply (is_oldest_two _ "n1" "n2" pa pb); [apply formed_pid_of|discriminate].
  - apply (is_oldest_two _ "n2" "n1" pb pa); [|discriminate].
    intros nm. rewrite formed_pid_of. destruct (String.eqb_spec nm "n2") as [->|_]; [reflexivity|].
    destruct (String.eqb nm "n1"); reflexivity.
Qed.

(* After the formation there is exactly one primary, n1 -- the node that was asked --
   and it is the oldest node if and only if pa < pb.  With pb < pa the cluster has settled, for
   good (quiescent, no frame), on the YOUNGER node as its only primary, and the older node is
   its Secondary: finding "primary-is-not-the-oldest", for all pids. *)
Theorem C07_two_nodes_oldest_iff : forall (pa pb timeout : N),
  pa <> pb ->
  exists F : nat, forall fuel, (F <= fuel)%nat ->
    let e1 := fst (esettle fuel (cmd (two pa pb timeout) "n1" 0 "join n2")) in
    primaries e1 = ["n1"] /\
    (forall nm, In nm (primaries e1) -> (is_oldest e1 nm <-> older pa pb)) /\
    (older pb pa -> is_oldest e1 "n2" /\ In ("n2", Secondary) (roles e1) /\ ~ is_oldest e1 "n1").
Proof.
  intros pa pb timeout Hne. exists 3%nat. intros fuel Hle.
  rewrite (formed_fst pa pb timeout fuel Hle). cbv zeta.
  pose proof (formed_facts pa pb timeout) as H. cbv zeta in H. destruct H as (_ & _ & _ & _ & Hr & _).
  pose proof (formed_primaries pa pb timeout) as Hp.
  destruct (formed_oldest pa pb timeout) as [Ho1 Ho2].
  split; [exact Hp|]. split.
  - intros nm Hin. rewrite Hp in Hin. destruct Hin as [<-|[]].
    rewrite Ho1. unfold older. lia.
  - unfold older. intro Hlt. split; [|split].
    + apply Ho2. lia.
    + rewrite Hr. right; left; reflexivity.
    + rewrite Ho1. lia.
Qed.

(* "every member agrees on it": in every node's member table the entries marked Primary are
   exactly the cluster's primaries (here: n1 alone) *)
Definition table_primaries (t : list (str * role)) : list str :=
  map fst (filter (fun m => role_eqb (snd m) Primary) t).

Theorem C07_two_nodes_agree : forall (pa pb timeout : N),
  exists F : nat, forall fuel, (F <= fuel)%nat ->
    let e1 := fst (esettle fuel (cmd (two pa pb timeout) "n1" 0 "join n2")) in
    primaries e1 = ["n1"] /\
    map fst (member_tables e1) = ["n1"; "n2"] /\
    (forall nm t, In (nm, t) (member_tables e1) -> table_primaries t = primaries e1).
Proof.
  intros pa pb timeout. exists 3%nat. intros fuel Hle.
  rewrite (formed_fst pa pb timeout fuel Hle). cbv zeta.
  pose proof (formed_facts pa pb timeout) as H. cbv zeta in H. destruct H as (_ & _ & _ & _ & _ & Hm & _).
  rewrite (formed_primaries pa pb timeout), Hm.
  split; [reflexivity|]. split; [reflexivity|].
  intros nm t [H|[H|[]]]; inversion H; reflexivity.
Qed.

(* the mirror image: the request goes to n2 instead.  The same with the names exchanged, but for
   the conjunct [esettle_round e1 = (e1, false)], which is not stated here: n2 is the primary
   whatever the ages.  This run has no constant like [formed] that shields it from the
   checker, so its settled state is passed on by [settled_for_good] and never rewritten. *)
Lemma asked_n2_facts : forall pa pb timeout,
  let r := esettle 3 (cmd (two pa pb timeout) "n2" 0 "join n1") in
  let e := fst r in
  snd r = true /\
  quiescent e /\
  e_frames e = [] /\
  roles e = [("n1", Secondary); ("n2", Primary)] /\
  member_tables e = [("n1", [("n2", Primary); ("n1", Secondary)]);
                     ("n2", [("n1", Secondary); ("n2", Primary)])].
Proof. intros pa pb timeout. unfold quiescent. vm_compute. repeat split; reflexivity. Qed.

Theorem C07_two_nodes_form_asked_n2 : forall (pa pb timeout : N),
  exists F : nat, forall fuel, (F <= fuel)%nat ->
    let r := esettle fuel (cmd (two pa pb timeout) "n2" 0 "join n1") in
    let e1 := fst r in
    snd r = true /\
    quiescent e1 /\
    e_frames e1 = [] /\
    roles e1 = [("n1", Secondary); ("n2", Primary)] /\
    member_tables e1 = [("n1", [("n2", Primary); ("n1", Secondary)]);
                        ("n2", [("n1", Secondary); ("n2", Primary)])].
Proof.
  intros pa pb timeout. exists 3%nat.
  pose proof (asked_n2_facts pa pb timeout) as H. cbv zeta in H. destruct H as [Hs HP].
  exact (settled_for_good
           (fun e1 => quiescent e1 /\ e_frames e1 = [] /\
                      roles e1 = [("n1", Secondary); ("n2", Primary)] /\
                      member_tables e1 = [("n1", [("n2", Primary); ("n1", Secondary)]);
                                          ("n2", [("n1", Secondary); ("n2", Primary)])])
           3 _ _ (pair_of_snd _ Hs) HP).
Qed.

(* The settled state is [formed] for every fuel >= 3 (C07_two_nodes_form_state): the concrete fuel
   (200, as in the Examples of ElectionProofs.v) is read off that. *)
(* pids 100 / 200 (n1 older): this is C07_sequential_formation_ok of ElectionProofs.v *)
Example C07_two_nodes_form_100_200 :
  let r := esettle 200 (cmd two_nodes "n1" 0 "join n2") in
  snd r = true /\ e_frames (fst r) = [] /\
  roles (fst r) = [("n1", Primary); ("n2", Secondary)] /\
  member_tables (fst r) = [("n1", [("n2", Secondary); ("n1", Primary)]);
                           ("n2", [("n1", Primary); ("n2", Secondary)])].
Proof.
  rewrite <- two_100_200. cbv zeta. rewrite (C07_two_nodes_form_state 100 200 20 200) by lia.
  destruct (formed_facts 100 200 20) as (_ & _ & H2 & _ & H4 & H5 & _).
  exact (conj eq_refl (conj H2 (conj H4 H5))).
Qed.

(* pids 200 / 100 (n2 older): same roles -- the younger node n1 is the primary *)
Example C07_two_nodes_form_200_100 :
  let r := esettle 200 (cmd (mk_ecl [("n1", 200, K1); ("n2", 100, K2)]) "n1" 0 "join n2") in
  snd r = true /\ e_frames (fst r) = [] /\
  roles (fst r) = [("n1", Primary); ("n2", Secondary)] /\
  pids (fst r) = [("n1", 200); ("n2", 100)].
Proof.
  rewrite <- (two_20 200 100). cbv zeta. rewrite (C07_two_nodes_form_state 200 100 20 200) by lia.
  destruct (formed_facts 200 100 20) as (_ & _ & H2 & _ & H4 & _ & H6).
  exact (conj eq_refl (conj H2 (conj H4 H6))).
Qed.

Example C07_two_nodes_oldest_iff_200_100 :
  let e1 := fst (esettle 200 (cmd (two 200 100 20) "n1" 0 "join n2")) in
  primaries e1 = ["n1"] /\ ~ is_oldest e1 "n1" /\ is_oldest e1 "n2".
Proof.
  cbv zeta. rewrite (formed_fst 200 100 20 200) by lia.
  destruct (formed_oldest 200 100 20) as [H1 H2].
  split; [apply formed_primaries|split; [rewrite H1|rewrite H2]; lia].
Qed.

(* equal pids, timeout 0: covered by C07_two_nodes_form_any *)
Example C07_two_nodes_form_equal_pids :
  roles (fst (esettle 3 (cmd (two 7 7 0) "n1" 0 "join n2"))) = [("n1", Primary); ("n2", Secondary)].
Proof.
  rewrite (formed_fst 7 7 0 3) by lia.
  exact (proj1 (proj2 (proj2 (proj2 (proj2 (formed_facts 7 7 0)))))).
Qed.

Check C07_two_nodes_form.
Check C07_two_nodes_form_any.
Check C07_two_nodes_form_state.
Check C07_two_nodes_pid_independent.
Check C07_two_nodes_oldest_iff.
Check C07_two_nodes_agree.
Check C07_two_nodes_form_asked_n2.
Check quiescent_no_link_step.
Print Assumptions C07_two_nodes_form.
Print Assumptions C07_two_nodes_form_any.
Print Assumptions C07_two_nodes_pid_independent.
Print Assumptions C07_two_nodes_oldest_iff.
Print Assumptions C07_two_nodes_agree.
Print Assumptions C07_two_nodes_form_asked_n2.
Print Assumptions quiescent_no_link_step.
