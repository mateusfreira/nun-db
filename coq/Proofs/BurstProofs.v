(* BurstProofs.v -- property C14: every client operation causes a bounded burst of
   messages on the links, then silence.  Proved on the cluster model (Model/Cluster.v) for
   any schedule of the events
     primary replication thread / link delivery / reply delivery / secondary replication thread
   after one client write on the primary of a formed cluster (ConvergeProofs.Formed). *)
From NunDB Require Import Model.Base Model.Pending Model.Parse Model.Node Model.Oplog Model.Cluster
  Proofs.ListLemmas Proofs.AssocLemmas Proofs.PendingProofs Proofs.DbProofs Proofs.ClusterProofs Proofs.ConvergeProofs.
Local Open Scope N_scope.

(* the counter read off the cluster model, for [cross_mono_run]; the C14 theorems read [vw_cross] off [Abs]
   instead *)
Lemma cross_sync c : c_cross (sync_clocks c) = c_cross c.
Proof. reflexivity. Qed.

Lemma cross_poll_raw c nm : c_cross (poll_repl_c_raw c nm) = c_cross c.
Proof. unfold poll_repl_c_raw. destruct (get_cn c nm); [rewrite cross_flush|]; reflexivity. Qed.

Lemma cross_poll c nm : c_cross (poll_repl_c c nm) = c_cross c.
Proof. exact (cross_poll_raw (sync_clocks c) nm). Qed.

Lemma cross_client c nm i ln : c_cross (fst (client_cmd c nm i ln)) = c_cross c.
Proof.
  unfold client_cmd, client_cmd_raw. destruct (get_cn (sync_clocks c) nm); [|reflexivity].
  destruct (step _ _ ln). cbn [fst]. now rewrite cross_flush.
Qed.

Lemma cross_deliver c i c' : deliver c i = Some c' -> c_cross c' = c_cross c + 1.
Proof.
  unfold deliver, deliver_raw. destruct (nth_error (c_links (sync_clocks c)) i) as [l|]; [|discriminate].
  destruct (negb (l_open l)); [discriminate|].
  destruct (match l_hs l with
            | h :: r => (Some h, r, l_q l)
            | [] => match l_q l with m :: r => (Some m, [], r) | [] => (None, [], []) end
            end) as [[line hs'] q'].
  destruct line as [ln|]; [|discriminate].
  destruct (get_cn (sync_clocks c) (l_to l)) as [x|]; [|discriminate].
  destruct (step (cn_node x) (l_server l) ln) as [n1 r].
  destruct (drain _ _) as [n3 inbox].
  intros [= <-]. rewrite cross_flush. reflexivity.
Qed.

Lemma cross_reply c i c' : reply c i = Some c' ->
  exists l ln rest, nth_error (c_links c) i = Some l /\ l_replies l = ln :: rest /\
    c_cross c' = c_cross c + (if String.eqb ln "ok" then 0 else 1).
Proof.
  unfold reply, reply_raw. change (c_links (sync_clocks c)) with (c_links c).
  destruct (nth_error (c_links c) i) as [l|]; [|discriminate].
  destruct (l_replies l) as [|ln rest] eqn:Er; [discriminate|].
  destruct (get_cn (sync_clocks c) (l_from l)) as [x|]; [|discriminate].
  intros H. exists l, ln, rest. split; auto. split; auto.
  destruct (String.eqb ln "ok").
  - injection H as <-. cbn. lia.
  - destruct (step (cn_node x) (l_reader l) ln) as [n1 r]. destruct (drain n1 (l_reader l)) as [n2 ib].
    injection H as <-. rewrite cross_flush. reflexivity.
Qed.

(* the restricted events: no client write *)
Definition bev_ok (Ss : list str) (e : cev) : Prop :=
  match e with
  | EvPollRepl => True
  | EvDeliver s | EvReply s | EvPollS s => In s Ss
  | _ => False
  end.

Lemma bev_ev_ok Ss e : bev_ok Ss e -> ev_ok Ss e.
Proof. destruct e; cbn; tauto. Qed.

Lemma cross_mono P cidx lk Ss c e : bev_ok Ss e -> c_cross c <= c_cross (cstep P cidx lk c e).
Proof.
  destruct e as [k v | k | k i | | S | S | S]; cbn [bev_ok cstep]; try tauto; intros _.
  - rewrite cross_poll. lia.
  - destruct (deliver c (lk S)) as [c'|] eqn:E; cbn [opt_or]; [|lia]. rewrite (cross_deliver _ _ _ E). lia.
  - destruct (reply c (lk S)) as [c'|] eqn:E; cbn [opt_or]; [|lia].
    destruct (cross_reply _ _ _ E) as (l & ln & rest & _ & _ & ->). lia.
  - rewrite cross_poll. lia.
Qed.

Lemma cross_mono_run P cidx lk Ss evs : forall c, Forall (bev_ok Ss) evs -> c_cross c <= c_cross (run P cidx lk c evs).
Proof.
  induction evs as [|e evs IH]; intros c H; cbn [run fold_left]; [lia|].
  inversion H as [|? ? He Hr]; subst. specialize (IH (cstep P cidx lk c e) Hr).
  pose proof (cross_mono P cidx lk Ss c e He). unfold run in IH. lia.
Qed.

Fixpoint sumN (l : list N) : N := match l with [] => 0 | a :: r => a + sumN r end.

Lemma sumN_ext_in {A} (f g : A -> N) l : (forall x, In x l -> f x = g x) -> sumN (map f l) = sumN (map g l).
Proof.
  induction l as [|a l IH]; intros H; cbn; auto. rewrite (H a) by now left. rewrite IH; auto.
  intros x Hx. apply H. now right.
Qed.

Lemma sumN_const {A} (f : A -> N) k l : (forall x, In x l -> f x = k) -> sumN (map f l) = k * N.of_nat (length l).
Proof.
  induction l as [|a l IH]; intros H; cbn [map sumN length]; [lia|].
  rewrite IH by (intros x Hx; apply H; now right). rewrite (H a) by now left. lia.
Qed.

Lemma sumN_add {A} (f g : A -> N) k l : (forall x, f x = g x + k) ->
  sumN (map f l) = sumN (map g l) + k * N.of_nat (length l).
Proof. intros H. induction l as [|a l IH]; cbn [map sumN length]; [lia|]. rewrite IH, H. lia. Qed.

Lemma sumN_zero {A} (f : A -> N) l : sumN (map f l) = 0 -> forall x, In x l -> f x = 0.
Proof.
  induction l as [|a l IH]; cbn [map sumN]; intros H x [].
  - subst. lia.
  - apply IH; auto. lia.
Qed.

Lemma sumN_upd (f g : str -> N) S d d' l : NoDup l -> In S l ->
  (forall S', In S' l -> S' <> S -> f S' = g S') -> f S + d = g S + d' ->
  sumN (map f l) + d = sumN (map g l) + d'.
Proof.
  induction l as [|a l IH]; intros Hnd Hin Hoth Hs; [destruct Hin|].
  inversion Hnd as [|? ? Hna Hnd']; subst. cbn [map sumN].
  destruct (string_dec a S) as [->|Hne].
  - rewrite (sumN_ext_in f g l).
    + lia.
    + intros x Hx. apply Hoth; [now right|]. intros ->. contradiction.
  - destruct Hin as [->|Hin]; [congruence|].
    rewrite (Hoth a) by (auto; now left).
    assert (E : sumN (map f l) + d = sumN (map g l) + d').
    { apply IH; auto. intros S' HS'. apply Hoth. now right. }
    lia.
Qed.

(* the pending table without the entry of [id]: the part that ClusterProofs.only drops *)
Definition except_id (id : N) (s : pstate) : pstate := filter (fun p => negb (N.eqb (fst p) id)) s.

Lemma except_id_set id m s : except_id id (assoc_set N.eqb id m s) = except_id id s.
Proof.
  induction s as [|[k v] s IH]; cbn [assoc_set except_id filter fst].
  - rewrite N.eqb_refl. reflexivity.
  - destruct (N.eqb_spec id k) as [->|Hne]; cbn [filter fst].
    + rewrite N.eqb_refl. reflexivity.
    + fold (except_id id (assoc_set N.eqb id m s)). fold (except_id id s). now rewrite IH.
Qed.

Lemma except_id_del id s : except_id id (assoc_del N.eqb id s) = except_id id s.
Proof.
  induction s as [|[k v] s IH]; cbn [assoc_del except_id filter fst]; auto.
  destruct (N.eqb_spec id k) as [->|Hne]; cbn [filter fst].
  - rewrite N.eqb_refl. cbn [negb]. exact IH.
  - fold (except_id id (assoc_del N.eqb id s)). fold (except_id id s). now rewrite IH.
Qed.

Lemma except_id_register id s req m : except_id id (fst (register s id req m)) = except_id id s.
Proof. unfold register. destruct (assoc_get N.eqb id s); cbn [fst]; apply except_id_set. Qed.

Lemma except_id_acknowledge id s m : except_id id (fst (acknowledge s id m)) = except_id id s.
Proof.
  unfold acknowledge. destruct (assoc_get N.eqb id s) as [pm|]; auto.
  destruct (ack_msg pm m) as [m' r]. destruct r; [destruct (full_ack m')|]; cbn [fst];
    auto using except_id_set, except_id_del.
Qed.

Lemma except_id_reg_all id req ts : forall s, except_id id (reg_all s id req ts) = except_id id s.
Proof.
  unfold reg_all. induction ts as [|t ts IH]; intros s; cbn [fold_left]; auto.
  rewrite IH. apply except_id_register.
Qed.

Lemma except_id_ack_all id acks : forall s, except_id id (ack_all s id acks) = except_id id s.
Proof.
  unfold ack_all. induction acks as [|t ts IH]; intros s; cbn [fold_left]; auto.
  rewrite IH. apply except_id_acknowledge.
Qed.

Lemma except_id_not_pending id s : is_pending s id = false -> except_id id s = s.
Proof.
  unfold is_pending. induction s as [|[k v] s IH]; cbn [assoc_get except_id filter fst]; auto.
  destruct (N.eqb_spec id k) as [->|Hne].
  - discriminate.
  - intros H. destruct (N.eqb_spec k id) as [->|_]; [congruence|]. cbn [negb]. fold (except_id id s). now rewrite IH.
Qed.

Lemma ack_all_snoc p id acks a : ack_all p id (acks ++ [a]) = fst (acknowledge (ack_all p id acks) id a).
Proof. unfold ack_all. rewrite fold_left_app. reflexivity. Qed.

Definition nonok (l : list str) : N :=
  N.of_nat (length (filter (fun s => negb (String.eqb s "ok")) l)).

Lemma nonok_ack id S : nonok [ack_text id S; "ok"] = 1.
Proof. reflexivity. Qed.

Lemma nonok_app a b : nonok (a ++ b) = nonok a + nonok b.
Proof. unfold nonok. now rewrite filter_app, app_length, Nat2N.inj_add. Qed.

Lemma nonok_cons ln rest : nonok (ln :: rest) = (if String.eqb ln "ok" then 0 else 1) + nonok rest.
Proof. unfold nonok. cbn [filter]. destruct (String.eqb ln "ok"); cbn [negb length]; [reflexivity|]. rewrite Nat2N.inj_succ. lia. Qed.

Section Burst.
Variables (P dbn : str) (Ss : list str) (cidx : nat) (lk : str -> nat).
Hypothesis Hdbn : simple_tok dbn.
Hypothesis HPS : ~ In P Ss.
Hypothesis HSs : forall S, In S Ss -> simple_tok S.
Hypothesis HND : NoDup Ss.

Local Notation PW := (PInvW P dbn Ss cidx).
Local Notation SW := (SInvW P dbn lk).

Definition link_of (c : cluster) (S : str) : option link := nth_error (c_links c) (lk S).

(* weight of what is still owed on behalf of secondary [S]: every line in flight towards it
   counts 2 (the delivery and the acknowledgement it will cause), every non-"ok" reply line
   waiting on the link counts 1 *)
Definition wS (c : cluster) (S : str) : N :=
  2 * N.of_nat (length (inflight P lk c S)) +
  match link_of c S with Some l => nonok (l_replies l) | None => 0 end.

(* lines that crossed + 2 per line in flight + 1 per waiting non-"ok" reply *)
Definition Phi (c : cluster) : N := c_cross c + sumN (map (wS c) Ss).

(* quiescent and no reply line waiting on any link P -> S *)
Definition silent (c : cluster) : Prop :=
  quiescent P Ss lk c /\ forall S l, In S Ss -> link_of c S = Some l -> l_replies l = [].

Lemma silent_Phi c : silent c -> Phi c = c_cross c.
Proof.
  intros [Hq Hr]. unfold Phi. rewrite (sumN_const (wS c) 0 Ss); [lia|].
  intros S HS. unfold wS. rewrite (Hq S HS). destruct (link_of c S) as [l|] eqn:E; [|reflexivity].
  rewrite (Hr S l HS E). reflexivity.
Qed.

Lemma length_lines l : length (lines dbn l) = length l.
Proof. unfold lines. apply map_length. Qed.

Lemma wS_wit {c xp dp rq b S xs l ds qs} : PW c xp dp rq b [] -> SW c dp rq S xs l ds qs -> In S Ss ->
  wS c S = 2 * N.of_nat (length (qs ++ rq)) + nonok (l_replies l).
Proof.
  intros HP H HS. unfold wS. rewrite (inflight_wit P dbn Ss cidx lk HP H HS), length_lines.
  unfold link_of. rewrite (si_link H). reflexivity.
Qed.

Section OneOp.
(* the operation in flight, the target value of the potential, the primary's pending table
   before the write, and a flag: when [A] holds the reader-side sessions of the links are
   authenticated at the primary and the primary's member table names only P and Ss *)
Variables (id : N) (o : dop) (K : N) (p0 : pstate) (A : Prop).

(* the three stages of a secondary with respect to the one operation: its line queued; delivered, with the
   acknowledgement and "ok" waiting; acknowledged, with at most "ok" waiting *)
Definition rep_ok (S : str) (ops : list (N * dop)) (reps : list str) (acked : Prop) : Prop :=
  (ops = [(id, o)] /\ reps = [] /\ ~ acked) \/
  (ops = [] /\ reps = [ack_text id S; "ok"] /\ ~ acked) \/
  (ops = [] /\ (reps = ["ok"] \/ reps = []) /\ acked).


(* the pending table before the primary's thread ran, and after: the registrations of [fan_out], then the
   acknowledgements so far; [vw_pending_ok] below says the same of a view *)
Definition pend_ok (xp : cnode) (rq : list (N * dop)) (acks : list str) : Prop :=
  (rq = [(id, o)] /\ acks = [] /\ n_pending (cn_node xp) = p0) \/
  (rq = [] /\ exists nP, NoDup (map fst (n_members nP)) /\ n_pending nP = p0 /\ n_addr nP = P /\
      map fst (n_members nP) = map fst (n_members (cn_node xp)) /\
      n_pending (cn_node xp) = ack_all (n_pending (fan_out nP id (op_req dbn o) false)) id acks).

(* about the cluster itself, what [vw_potential] and [acked_inv] below say about its view.  The C14 theorems
   do not go through it; [BInv_view] below shows that it holds wherever those two hold, so that [BInv_Inv]
   speaks of states that exist *)
Definition BInv (c : cluster) : Prop :=
  exists xp dp rq b acks,
    PW c xp dp rq b [] /\ (rq = [(id, o)] \/ rq = []) /\ id < 2 ^ 64 /\
    (forall S, In S Ss -> exists xs l ds qs,
        SW c dp rq S xs l ds qs /\ rep_ok S (qs ++ rq) (l_replies l) (In S acks) /\
        (A -> s_auth (get_sess (cn_node xp) (l_reader l)) = true)) /\
    Phi c = K /\
    (A -> (forall nm, In nm (map fst (n_members (cn_node xp))) -> nm = P \/ In nm Ss) /\
          is_pending p0 id = false /\ pend_ok xp rq acks).

Lemma BInv_Inv c : BInv c -> Inv P dbn Ss cidx lk c.
Proof.
  intros (xp & dp & rq & b & acks & HP & _ & _ & HS & _).
  exists xp, dp, rq, b. split; auto. intros S HSin.
  destruct (HS S HSin) as (xs & l & ds & qs & H & _). exists xs, l, ds, qs. exact H.
Qed.

End OneOp.

Lemma silent_links c S l : silent c -> In S Ss -> link_of c S = Some l -> l_q l = [] /\ l_replies l = [].
Proof.
  intros [Hq Hr] HSin Hl. split; [|eauto].
  specialize (Hq S HSin). unfold inflight in Hq. unfold link_of in Hl. rewrite Hl in Hq.
  now apply app_eq_nil in Hq as [Hq _].
Qed.


Definition pending_of (c : cluster) : pstate :=
  match get_cn c P with Some xp => n_pending (cn_node xp) | None => [] end.

(* the extra facts needed to follow the pending table: the primary's member table names only P
   and the secondaries Ss, and the reader-side session of every link P -> S is authenticated
   at P (it is: open_link creates it authenticated) *)
Definition Closed (c : cluster) : Prop :=
  exists xp, get_cn c P = Some xp /\
    (forall nm, In nm (map fst (n_members (cn_node xp))) -> nm = P \/ In nm Ss) /\
    (forall S l, In S Ss -> link_of c S = Some l -> s_auth (get_sess (cn_node xp) (l_reader l)) = true).


Lemma sim_bev c v e : Abs P dbn Ss cidx lk c v -> bev_ok Ss e -> sim P dbn Ss cidx lk c v (cstep P cidx lk c e).
Proof.
  intros HA He. pose proof (sim_step P dbn Ss cidx lk Hdbn HPS HSs c v e HA (bev_ev_ok Ss e He)) as H.
  destruct e; cbn [bev_ok] in He; (contradiction He || exact H).
Qed.

Lemma run_bev (Q : view -> Prop) : (forall v v', astep P dbn Ss v v' -> Q v -> Q v') ->
  forall evs c v, Abs P dbn Ss cidx lk c v -> Q v -> Forall (bev_ok Ss) evs -> exists v', Abs P dbn Ss cidx lk (run P cidx lk c evs) v' /\ Q v'.
Proof.
  intros HQ. induction evs as [|e evs IH]; intros c v HA Hq Hok; cbn [run fold_left]; [now exists v|].
  inversion Hok as [|? ? He Hok']; subst. destruct (sim_bev c v e HA He) as (v1 & Hst & HA1 & _).
  exact (IH _ _ HA1 (HQ _ _ Hst Hq) Hok').
Qed.

(* [a]: whether the two facts of [Closed] are to be followed *)
Lemma Formed_Abs c (a : bool) : Formed P dbn Ss cidx lk c -> (a = true -> Closed c) ->
  exists v, Abs P dbn Ss cidx lk c v /\ vw_queue v = [] /\ vw_cross v = c_cross c /\ vw_pending v = pending_of c /\ vw_auth v = a /\
            (a = true -> forall nm, In nm (vw_members v) -> nm = P \/ In nm Ss) /\
            forall S, In S Ss -> sc_ops (vw_sec v S) = [] /\ sc_replies (vw_sec v S) = [].
Proof.
  intros HF Hcl. destruct (Formed_witness_idle P dbn Ss cidx lk c HF) as (xp & dp & b & HP & HS).
  destruct (choice_list string_dec (fun S s => SAbs P dbn lk c dp [] (cn_node xp) a S s /\ sc_ops s = [] /\ sc_replies s = [])
              (mkSecView dp [] []) Ss) as [f Hf].
  { intros S HSin. destruct (HS S HSin) as (xs & l & ds & H & Hr). exists (mkSecView ds [] []).
    split; [exists xs, l; split; [exact H|split; [exact Hr|]]|auto].
    intros Ha. destruct (Hcl Ha) as (xp1 & Hg & _ & Hau). rewrite (pi_get HP) in Hg. injection Hg as <-.
    apply (Hau S l HSin), H. }
  exists (mkView dp [] (c_cross c) f (n_pending (cn_node xp)) (map fst (n_members (cn_node xp))) a).
  split; [|split; [reflexivity|split; [reflexivity|split; [|split; [reflexivity|split]]]]].
  - exists xp, b. split; [exact HP|]. do 2 (split; [reflexivity|]). split; [constructor|]. split; [reflexivity|].
    intros S HSin. apply (Hf S HSin).
  - unfold pending_of. now rewrite (pi_get HP).
  - intros Ha. destruct (Hcl Ha) as (xp1 & Hg & Hm & _). rewrite (pi_get HP) in Hg. injection Hg as <-. exact Hm.
  - intros S HSin. apply (Hf S HSin).
Qed.

(* the potential read off the view: an accepted write adds two per secondary, no step of the view changes it *)
Definition sec_weight (rq : list (N * dop)) (s : sec_view) : N := 2 * N.of_nat (length (sc_ops s ++ rq)) + nonok (sc_replies s).
Definition vw_potential (v : view) : N := vw_cross v + sumN (map (fun S => sec_weight (vw_queue v) (vw_sec v S)) Ss).

Lemma Abs_potential c v : Abs P dbn Ss cidx lk c v -> Phi c = vw_potential v.
Proof.
  intros (xp & b & HP & _ & _ & _ & Hc & HS). unfold Phi, vw_potential. rewrite Hc. f_equal. apply sumN_ext_in.
  intros S HSin. destruct (HS S HSin) as (xs & l & H & Hr & _). now rewrite (wS_wit HP H HSin), Hr.
Qed.

Lemma potential_accept v o id : vw_potential (vw_accept v o id) = vw_potential v + 2 * N.of_nat (length Ss).
Proof.
  unfold vw_potential. cbn [vw_accept vw_cross vw_queue vw_sec].
  rewrite (sumN_add (fun S => sec_weight (vw_queue v ++ [(id, o)]) (vw_sec v S)) (fun S => sec_weight (vw_queue v) (vw_sec v S)) 2); [lia|].
  intros S. unfold sec_weight. rewrite !app_length. cbn [length]. lia.
Qed.

Lemma weight_upd rq f S x d d' : In S Ss -> sec_weight rq x + d = sec_weight rq (f S) + d' ->
  sumN (map (fun S' => sec_weight rq (sec_upd f S x S')) Ss) + d = sumN (map (fun S' => sec_weight rq (f S')) Ss) + d'.
Proof. intros HS E. apply (sumN_upd _ _ S); auto; [intros S' _ Hne; now rewrite sec_upd_other|now rewrite sec_upd_same]. Qed.

Lemma potential_step v v' : astep P dbn Ss v v' -> vw_potential v' = vw_potential v.
Proof.
  intros [|nP _ _ _ _|S id o qs ds' HS Hq|S ln rest pend' HS Hr _]; auto; unfold vw_potential; cbn [vw_poll vw_with vw_cross vw_queue vw_sec].
  - f_equal. apply sumN_ext_in. intros S _. unfold sec_weight. cbn [sc_ops sc_replies]. now rewrite app_nil_r.
  - rewrite <- N.add_assoc, (N.add_comm 1), (weight_upd _ _ S _ 1 0 HS); [lia|].
    unfold sec_weight. cbn [sc_ops sc_replies]. rewrite Hq, nonok_app, nonok_ack. cbn [app length]. lia.
  - set (d := if String.eqb ln "ok" then 0 else 1).
    rewrite <- N.add_assoc, (N.add_comm d), (weight_upd _ _ S _ d 0 HS); [lia|].
    unfold sec_weight. cbn [sc_ops sc_replies]. rewrite Hr, nonok_cons. fold d. lia.
Qed.

Definition vw_silent (v : view) : Prop :=
  forall S, In S Ss -> sc_ops (vw_sec v S) ++ vw_queue v = [] /\ sc_replies (vw_sec v S) = [].

Lemma Abs_silent c v : Abs P dbn Ss cidx lk c v -> (silent c <-> vw_silent v).
Proof.
  intros (xp & b & HP & _ & _ & _ & _ & HS). split.
  - intros [Hq Hr] S HSin. destruct (HS S HSin) as (xs & l & H & Hrep & _). split.
    + specialize (Hq S HSin). rewrite (inflight_wit P dbn Ss cidx lk HP H HSin) in Hq. now apply map_eq_nil in Hq.
    + rewrite <- Hrep. apply (Hr S l HSin). exact (si_link H).
  - intros Hv. split.
    + intros S HSin. destruct (HS S HSin) as (xs & l & H & _).
      rewrite (inflight_wit P dbn Ss cidx lk HP H HSin), (proj1 (Hv S HSin)). reflexivity.
    + intros S l0 HSin Hl. destruct (HS S HSin) as (xs & l & H & Hrep & _). unfold link_of in Hl.
      rewrite (si_link H) in Hl. injection Hl as <-. rewrite Hrep. apply (Hv S HSin).
Qed.

Lemma vw_silent_step x v v' : astep P dbn Ss v v' -> vw_silent v /\ vw_cross v = x -> vw_silent v' /\ vw_cross v' = x.
Proof.
  intros [|nP _ _ _ _|S id o qs ds' HS Hq|S ln rest pend' HS Hr _] [Hs Hx]; auto.
  - split; [|exact Hx]. intros S HSin. cbn [vw_poll vw_with vw_sec vw_queue sc_ops sc_replies]. rewrite app_nil_r. apply (Hs S HSin).
  - destruct (Hs S HS) as [H _]. rewrite Hq in H. discriminate H.
  - destruct (Hs S HS) as [_ H]. rewrite Hr in H. discriminate H.
Qed.

Lemma silent_no_move c v S : Abs P dbn Ss cidx lk c v -> vw_silent v -> In S Ss -> deliver c (lk S) = None /\ reply c (lk S) = None.
Proof.
  intros HA Hv HSin. apply Abs_sync in HA. destruct HA as (xp & b & _ & _ & _ & _ & _ & HS).
  destruct (HS S HSin) as (xs & l & H & Hrep & _).
  destruct (Hv S HSin) as [Hq Hr]. apply app_eq_nil in Hq as [Hq _]. split.
  - apply (deliver_raw_none (sync_clocks c) (lk S) l); [exact (si_link H)|apply H|].
    now rewrite (si_q H), Hq.
  - apply (reply_raw_none (sync_clocks c) (lk S) l); [exact (si_link H)|congruence].
Qed.

(* after ONE accepted write (id, o), with [p0] the pending table before it: who has acknowledged, and
   the pending table as the registrations of [fan_out] followed by those acknowledgements *)
Section One.
Variables (id : N) (o : dop) (p0 : pstate).
Hypothesis Hid : id < 2 ^ 64.

Definition vw_pending_ok (v : view) (acks : list str) : Prop :=
  (vw_queue v = [(id, o)] /\ acks = [] /\ vw_pending v = p0) \/
  (vw_queue v = [] /\ exists nP, NoDup (map fst (n_members nP)) /\ n_pending nP = p0 /\ n_addr nP = P /\
      map fst (n_members nP) = vw_members v /\
      vw_pending v = ack_all (n_pending (fan_out nP id (op_req dbn o) false)) id acks).

Definition acked_inv (v : view) : Prop := exists acks,
  (forall S, In S Ss -> rep_ok id o S (sc_ops (vw_sec v S) ++ vw_queue v) (sc_replies (vw_sec v S)) (In S acks)) /\ vw_pending_ok v acks.

Lemma acked_inv_accept v : vw_queue v = [] -> vw_pending v = p0 ->
  (forall S, In S Ss -> sc_ops (vw_sec v S) = [] /\ sc_replies (vw_sec v S) = []) -> acked_inv (vw_accept v o id).
Proof.
  intros Hrq Hp Hsec. exists []. split; [|left; cbn [vw_accept vw_queue vw_pending]; now rewrite Hrq].
  intros S HSin. destruct (Hsec S HSin) as [Hq Hr]. cbn [vw_accept vw_sec vw_queue]. rewrite Hq, Hr, Hrq. left. auto.
Qed.

Lemma acked_inv_step v v' : astep P dbn Ss v v' -> vw_auth v = true -> acked_inv v -> acked_inv v'.
Proof.
  intros [|nP N1 N2 N3 N4|S i o' qs ds' HSin Hq|S ln rest pend' HSin Hr Hpd] Hau (acks & HR & HPd); [now exists acks| | |].
  - (* the first run of the primary's thread registers (id, o) at the targets, a later one does nothing *)
    exists acks. split.
    + intros S HSin. cbn [vw_poll vw_with vw_sec vw_queue sc_ops sc_replies]. rewrite app_nil_r. apply (HR S HSin).
    + right. split; [reflexivity|]. cbn [vw_poll vw_with vw_pending vw_members]. destruct HPd as [(-> & -> & Hp) | (-> & nQ & Q)].
      * exists nP. rewrite Hp in N2. auto.
      * exists nQ. cbn [fold_left]. now rewrite N2.
  - (* only the line of (id, o) can be delivered *)
    exists acks. split; [|exact HPd]. intros S' HS'in. cbn [vw_with vw_sec vw_queue]. destruct (string_dec S' S) as [->|Hne].
    + rewrite sec_upd_same. cbn [sc_ops sc_replies]. specialize (HR S HSin). rewrite Hq in HR.
      destruct HR as [(Hops & Hreps & Hn) | [(Hops & _) | (Hops & _)]]; try discriminate Hops.
      injection Hops as -> -> Hops. rewrite Hops, Hreps. right. left. auto.
    + rewrite sec_upd_other by exact Hne. apply (HR S' HS'in).
  - (* the reply lines of S are its acknowledgement, then "ok" *)
    specialize (HR S HSin) as HRS. rewrite Hr in HRS.
    destruct HRS as [(_ & Hreps & _) | [(Hops & Hreps & Hn) | (Hops & [Hreps|Hreps] & Hk)]]; try discriminate Hreps.
    + injection Hreps as -> ->. change (String.eqb (ack_text id S) "ok") with false in Hpd.
      destruct Hpd as (i & nm & Hparse & Hpd). rewrite (ack_text_parse id S (HSs S HSin) Hid) in Hparse. injection Hparse as <- <-.
      exists (acks ++ [S]). split.
      * intros S' HS'in. cbn [vw_with vw_sec vw_queue]. destruct (string_dec S' S) as [->|Hne].
        -- rewrite sec_upd_same. cbn [sc_ops sc_replies]. rewrite Hops. right; right. split; [reflexivity|]. split; [now left|].
           apply in_or_app. right. now left.
        -- rewrite sec_upd_other by exact Hne. specialize (HR S' HS'in). unfold rep_ok in *. rewrite in_app_iff. cbn [In].
           intuition congruence.
      * apply app_eq_nil in Hops as [_ Hrq]. destruct HPd as [(E & _) | (_ & nQ & Q1 & Q2 & Q3 & Q4 & Q5)]; [congruence|].
        right. split; [exact Hrq|]. exists nQ. cbn [vw_with vw_pending vw_members]. rewrite (Hpd Hau), Q5, ack_all_snoc. auto.
    + injection Hreps as -> ->. cbn in Hpd. exists acks. split.
      * intros S' HS'in. cbn [vw_with vw_sec vw_queue]. destruct (string_dec S' S) as [->|Hne].
        -- rewrite sec_upd_same. cbn [sc_ops sc_replies]. rewrite Hops. right; right. auto.
        -- rewrite sec_upd_other by exact Hne. apply (HR S' HS'in).
      * unfold vw_pending_ok in *. cbn [vw_with vw_queue vw_pending vw_members]. now rewrite Hpd.
Qed.

(* at silence every secondary has acknowledged and the entry of [id] is gone *)
Lemma acked_inv_silent v : acked_inv v -> vw_silent v -> is_pending p0 id = false ->
  (forall nm, In nm (vw_members v) -> nm = P \/ In nm Ss) -> vw_pending v = p0.
Proof.
  intros (acks & HR & HPd) Hsil Hfresh Hkeys.
  destruct HPd as [(_ & _ & Hp) | (_ & nP & N1 & N2 & N3 & N4 & N5)]; [exact Hp|].
  assert (Hacked : forall S, In S Ss -> In S acks).
  { intros S HSin. destruct (Hsil S HSin) as [Hq Hrep]. specialize (HR S HSin). rewrite Hq, Hrep in HR.
    destruct HR as [(Ho & _) | [(_ & Hr & _) | (_ & _ & Hk)]]; [discriminate Ho|discriminate Hr|exact Hk]. }
  set (pF := n_pending (fan_out nP id (op_req dbn o) false)) in *.
  assert (Hf : is_pending (n_pending nP) id = false) by (rewrite N2; exact Hfresh).
  assert (Hnp : is_pending (ack_all pF id acks) id = false).
  { destruct (is_pending (ack_all pF id acks) id) eqn:Ep; [|reflexivity]. exfalso.
    apply (fan_out_pending_iff nP id (op_req dbn o) false acks N1 Hf) in Ep as (m & Hm & Hnm). apply Hnm, Hacked.
    unfold targets in Hm. apply (in_targets_of _ _ _ _ N1) in Hm as (r & q & Hg & Hnm' & _).
    assert (Hin : In m (map fst (n_members nP))) by (apply str_get_in in Hg; apply (in_map fst) in Hg; exact Hg).
    rewrite N4 in Hin. destruct (Hkeys m Hin) as [->|]; [congruence|assumption]. }
  rewrite N5, <- (except_id_not_pending id _ Hnp), except_id_ack_all. unfold pF.
  rewrite (fan_out_exact nP id (op_req dbn o) false N1). cbn [n_pending n_set_members n_set_pending].
  rewrite except_id_reg_all, N2. now apply except_id_not_pending.
Qed.

(* not used by the C14 theorems: it gives [BInv], the hypothesis of [BInv_Inv], an inhabitant wherever the
   view's notions hold *)
Lemma BInv_view c v (A : Prop) : Abs P dbn Ss cidx lk c v -> acked_inv v ->
  (A -> vw_auth v = true /\ is_pending p0 id = false /\ forall nm, In nm (vw_members v) -> nm = P \/ In nm Ss) ->
  BInv id o (Phi c) p0 A c.
Proof.
  intros (xp & b & HP & Hp & Hk & _ & _ & HS) (acks & HR & HPd) HA.
  exists xp, (vw_db v), (vw_queue v), b, acks. split; [exact HP|].
  split; [destruct HPd as [(E & _)|(E & _)]; auto|]. split; [exact Hid|]. split; [|split; [reflexivity|]].
  - intros S HSin. destruct (HS S HSin) as (xs & l & H & Hr & Ha).
    exists xs, l, (sc_db (vw_sec v S)), (sc_ops (vw_sec v S)).
    split; [exact H|]. split; [rewrite Hr; exact (HR S HSin)|]. intros a. apply Ha, (HA a).
  - intros a. destruct (HA a) as (_ & Hf & Hm). rewrite Hk. split; [exact Hm|]. split; [exact Hf|].
    destruct HPd as [(E & Ea & E0)|(E & nP & N1 & N2 & N3 & N4 & N5)]; [left; rewrite Hp; auto|].
    right. split; [exact E|]. exists nP. rewrite Hp, Hk. auto 6.
Qed.
End One.

End Burst.

(* Property C14 is stated for a formed cluster (one primary, secondaries Ss, links
   established, nothing in flight), one client write [w] at P, then ANY schedule [evs] of
   EvPollRepl / EvDeliver S / EvReply S / EvPollS S  (S in Ss).  Every statement about an accepted
   write is read off the view of the final state: its potential, and (when [Closed] is given, [a = true])
   who has acknowledged. *)
Lemma C14_view P dbn Ss cidx lk c w B evs (a : bool) :
  simple_tok dbn -> (forall S, In S Ss -> simple_tok S) ->
  Formed P dbn Ss cidx lk c -> cop_ok w -> cl_bound c B -> B + 2 <= 2 ^ 64 ->
  resp_ok (snd (client_cmd c P cidx (cop_line w))) = true ->
  Forall (bev_ok Ss) evs -> (a = true -> Closed P Ss lk c) ->
  exists v, Abs P dbn Ss cidx lk (run P cidx lk (fst (client_cmd c P cidx (cop_line w))) evs) v /\
    (NoDup Ss -> vw_potential Ss v = c_cross c + 2 * N.of_nat (length Ss)) /\
    (a = true -> (forall nm, In nm (vw_members v) -> nm = P \/ In nm Ss) /\
       exists id o, acked_inv P dbn Ss id o (pending_of P c) v /\ is_pending (pending_of P c) id = false).
Proof.
  intros Hd HS HF Hok HB HB64 Hresp Hev Hcl. pose proof (Formed_P_not_sec _ _ _ _ _ _ HF) as HPS.
  destruct (Formed_Abs P dbn Ss cidx lk c a HF Hcl) as (v0 & HA0 & Hrq & Hcr & Hp0 & Hau & Hkeys & Hsec).
  destruct (sim_write P dbn Ss cidx lk HPS _ v0 w (Abs_sync P dbn Ss cidx lk c v0 HA0) Hok) as [_ H1].
  cbv zeta in H1. unfold client_cmd in *. rewrite Hresp in H1. destruct H1 as (opp & id & _ & Hlt & Hfresh & HA1).
  specialize (Hlt B (cl_bound_sync c B HB)). assert (Hid : id < 2 ^ 64) by lia. specialize (HA1 Hid).
  set (o := cop_dop w opp) in *. set (v1 := vw_accept v0 o id) in *.
  destruct (run_bev P dbn Ss cidx lk Hd HPS HS
              (fun v => (NoDup Ss -> vw_potential Ss v = vw_potential Ss v1) /\ vw_members v = vw_members v1 /\ vw_auth v = vw_auth v1 /\
                        (a = true -> acked_inv P dbn Ss id o (vw_pending v0) v)))
    with (evs := evs) (c := fst (client_cmd_raw (sync_clocks c) P cidx (cop_line w))) (v := v1)
    as (v & HA & Hphi & Hk & _ & HJ); auto.
  - intros x x' Hst (Q1 & Q2 & Q3 & Q4).
    split; [intros Hnd; rewrite (potential_step P dbn Ss Hnd x x' Hst); auto|].
    assert (E : vw_members x' = vw_members x /\ vw_auth x' = vw_auth x) by (destruct Hst; auto). destruct E as [-> ->].
    do 2 (split; [assumption|]). intros Ha. apply (acked_inv_step P dbn Ss lk HS id o (vw_pending v0) Hid x x' Hst); auto.
    rewrite Q3. exact (eq_trans Hau Ha).
  - split; [auto|]. do 2 (split; [reflexivity|]). intros _. now apply acked_inv_accept.
  - exists v. split; [exact HA|]. split.
    + intros Hnd. rewrite (Hphi Hnd). unfold v1. rewrite potential_accept. f_equal.
      unfold vw_potential. rewrite Hcr, (sumN_const _ 0 Ss); [lia|].
      intros S HSin. unfold sec_weight. destruct (Hsec S HSin) as [-> ->]. now rewrite Hrq.
    + intros Ha. split; [rewrite Hk; now apply Hkeys|]. exists id, o. rewrite <- Hp0. auto.
Qed.

(* the potential function: lines that crossed + 2 per line in flight + 1 per waiting non-ok reply
   is the same after every schedule, silent or not *)
Theorem C14_potential_invariant P dbn Ss cidx lk c w B evs :
  simple_tok dbn -> (forall S, In S Ss -> simple_tok S) -> NoDup Ss ->
  Formed P dbn Ss cidx lk c -> cop_ok w -> cl_bound c B -> B + 2 <= 2 ^ 64 ->
  resp_ok (snd (client_cmd c P cidx (cop_line w))) = true ->
  Forall (bev_ok Ss) evs ->
  Phi P Ss lk (run P cidx lk (fst (client_cmd c P cidx (cop_line w))) evs) =
  c_cross c + 2 * N.of_nat (length Ss).
Proof.
  intros Hd HS Hnd HF Hok HB HB64 Hresp Hev.
  destruct (C14_view P dbn Ss cidx lk c w B evs false) as (v & HA & Hphi & _); auto; [discriminate|].
  rewrite (Abs_potential P dbn Ss cidx lk _ v HA). auto.
Qed.

(* at silence exactly one line went to every secondary and exactly one acknowledgement came
   back from each: c_cross grew by 2 * |Ss| *)
Theorem C14_burst_exact P dbn Ss cidx lk c w B evs :
  simple_tok dbn -> (forall S, In S Ss -> simple_tok S) -> NoDup Ss ->
  Formed P dbn Ss cidx lk c -> cop_ok w -> cl_bound c B -> B + 2 <= 2 ^ 64 ->
  resp_ok (snd (client_cmd c P cidx (cop_line w))) = true ->
  Forall (bev_ok Ss) evs ->
  let final := run P cidx lk (fst (client_cmd c P cidx (cop_line w))) evs in
  silent P Ss lk final ->
  c_cross final = c_cross c + 2 * N.of_nat (length Ss).
Proof.
  intros Hd HS Hnd HF Hok HB HB64 Hresp Hev final Hsil.
  rewrite <- (silent_Phi P Ss lk final Hsil). now apply (C14_potential_invariant P dbn Ss cidx lk c w B evs).
Qed.

(* the burst is bounded at every moment of every schedule, not only at silence *)
Theorem C14_burst_bounded_anytime P dbn Ss cidx lk c w B evs :
  simple_tok dbn -> (forall S, In S Ss -> simple_tok S) -> NoDup Ss ->
  Formed P dbn Ss cidx lk c -> cop_ok w -> cl_bound c B -> B + 2 <= 2 ^ 64 ->
  resp_ok (snd (client_cmd c P cidx (cop_line w))) = true ->
  Forall (bev_ok Ss) evs ->
  c_cross (run P cidx lk (fst (client_cmd c P cidx (cop_line w))) evs) <= c_cross c + 2 * N.of_nat (length Ss).
Proof.
  intros Hd HS Hnd HF Hok HB HB64 Hresp Hev.
  pose proof (C14_potential_invariant P dbn Ss cidx lk c w B evs Hd HS Hnd HF Hok HB HB64 Hresp Hev) as H.
  unfold Phi in H. lia.
Qed.

(* the bound in the words of the property's text (DESIGN section 5, C14): at most 1 + 2 * |Ss|, where
   [C14_burst_exact] gives 2 * |Ss| exactly *)
Corollary C14_burst_bounded P dbn Ss cidx lk c w B evs :
  simple_tok dbn -> (forall S, In S Ss -> simple_tok S) -> NoDup Ss ->
  Formed P dbn Ss cidx lk c -> cop_ok w -> cl_bound c B -> B + 2 <= 2 ^ 64 ->
  resp_ok (snd (client_cmd c P cidx (cop_line w))) = true ->
  Forall (bev_ok Ss) evs ->
  let final := run P cidx lk (fst (client_cmd c P cidx (cop_line w))) evs in
  silent P Ss lk final ->
  c_cross final - c_cross c <= 1 + 2 * N.of_nat (length Ss).
Proof.
  intros Hd HS Hnd HF Hok HB HB64 Hresp Hev final Hsil.
  pose proof (C14_burst_exact P dbn Ss cidx lk c w B evs Hd HS Hnd HF Hok HB HB64 Hresp Hev Hsil) as H.
  fold final in H. lia.
Qed.

Lemma silent_run P dbn Ss cidx lk c v evs :
  simple_tok dbn -> ~ In P Ss -> (forall S, In S Ss -> simple_tok S) ->
  Abs P dbn Ss cidx lk c v -> silent P Ss lk c -> Forall (bev_ok Ss) evs ->
  silent P Ss lk (run P cidx lk c evs) /\ c_cross (run P cidx lk c evs) = c_cross c.
Proof.
  intros Hd HPS HS HA Hsil Hev. apply (Abs_silent P dbn Ss cidx lk c v HA) in Hsil.
  destruct (run_bev P dbn Ss cidx lk Hd HPS HS (fun x => vw_silent Ss x /\ vw_cross x = vw_cross v) (vw_silent_step P dbn Ss (vw_cross v))
              evs c v HA (conj Hsil eq_refl) Hev) as (v' & HA' & Hv' & Hc').
  split; [now apply (Abs_silent P dbn Ss cidx lk _ v' HA')|].
  destruct HA as (? & ? & _ & _ & _ & _ & -> & _), HA' as (? & ? & _ & _ & _ & _ & -> & _). exact Hc'.
Qed.

(* then silence: in the silent state no delivery and no reply is possible, every further event
   leaves c_cross unchanged, and the state stays silent under any further schedule *)
Theorem C14_then_silence P dbn Ss cidx lk c w B evs :
  simple_tok dbn -> (forall S, In S Ss -> simple_tok S) -> NoDup Ss ->
  Formed P dbn Ss cidx lk c -> cop_ok w -> cl_bound c B -> B + 2 <= 2 ^ 64 ->
  resp_ok (snd (client_cmd c P cidx (cop_line w))) = true ->
  Forall (bev_ok Ss) evs ->
  let final := run P cidx lk (fst (client_cmd c P cidx (cop_line w))) evs in
  silent P Ss lk final ->
  (forall S, In S Ss -> deliver final (lk S) = None /\ reply final (lk S) = None) /\
  (forall e, bev_ok Ss e -> c_cross (cstep P cidx lk final e) = c_cross final) /\
  (forall evs', Forall (bev_ok Ss) evs' ->
     silent P Ss lk (run P cidx lk final evs') /\ c_cross (run P cidx lk final evs') = c_cross final).
Proof.
  intros Hd HS Hnd HF Hok HB HB64 Hresp Hev final Hsil. pose proof (Formed_P_not_sec _ _ _ _ _ _ HF) as HPS.
  destruct (C14_view P dbn Ss cidx lk c w B evs false) as (v & HA & _); auto; [discriminate|]. fold final in HA.
  assert (Hrun : forall evs', Forall (bev_ok Ss) evs' ->
            silent P Ss lk (run P cidx lk final evs') /\ c_cross (run P cidx lk final evs') = c_cross final)
    by (intros evs'; now apply (silent_run P dbn Ss cidx lk final v)).
  split; [|split; [|exact Hrun]].
  - intros S HSin. apply (silent_no_move P dbn Ss cidx lk final v S HA); auto. now apply (Abs_silent P dbn Ss cidx lk final v HA).
  - intros e He. apply (Hrun [e]). now constructor.
Qed.

(* at silence the primary's pending-operation table is exactly what it was before the write:
   every secondary acknowledged and the entry of the write's op id was removed with the last
   acknowledgement.  Needs [Closed]: see the counterexample [pending_needs_closed] below. *)
Theorem C14_pending_cleared P dbn Ss cidx lk c w B evs :
  simple_tok dbn -> (forall S, In S Ss -> simple_tok S) -> NoDup Ss ->
  Formed P dbn Ss cidx lk c -> cop_ok w -> cl_bound c B -> B + 2 <= 2 ^ 64 ->
  resp_ok (snd (client_cmd c P cidx (cop_line w))) = true ->
  Forall (bev_ok Ss) evs -> Closed P Ss lk c ->
  let final := run P cidx lk (fst (client_cmd c P cidx (cop_line w))) evs in
  silent P Ss lk final ->
  pending_of P final = pending_of P c.
Proof.
  intros Hd HS Hnd HF Hok HB HB64 Hresp Hev Hcl final Hsil.
  destruct (C14_view P dbn Ss cidx lk c w B evs true) as (v & HA & _ & HJ); auto. fold final in HA.
  destruct (HJ eq_refl) as (Hkeys & id & o & HJv & Hfresh).
  apply (Abs_silent P dbn Ss cidx lk final v HA) in Hsil.
  destruct HA as (xp & b & HP & Hp & _). unfold pending_of at 1. rewrite (pi_get HP), Hp.
  exact (acked_inv_silent P dbn Ss id o (pending_of P c) v HJv Hsil Hfresh Hkeys).
Qed.

Lemma Formed_sub P dbn Ss Ss' cidx lk c : (forall S, In S Ss' -> In S Ss) ->
  Formed P dbn Ss cidx lk c -> Formed P dbn Ss' cidx lk c.
Proof.
  intros Hsub (xp & dp & F1 & F2 & F3 & F4 & F5 & F6 & F7 & F8 & F9 & F10 & F11 & FS).
  exists xp, dp. repeat (split; [assumption|]). split; [auto|]. repeat (split; [assumption|]). auto.
Qed.

(* a refused write sends nothing, whatever the schedule: no line crosses a link, no link queue
   and no reply queue ever holds a line *)
Theorem C14_refused_write_sends_nothing P dbn Ss cidx lk c w evs :
  simple_tok dbn -> (forall S, In S Ss -> simple_tok S) ->
  Formed P dbn Ss cidx lk c -> cop_ok w ->
  resp_ok (snd (client_cmd c P cidx (cop_line w))) = false ->
  Forall (bev_ok Ss) evs ->
  let final := run P cidx lk (fst (client_cmd c P cidx (cop_line w))) evs in
  c_cross final = c_cross c /\ silent P Ss lk final /\
  forall S l, In S Ss -> link_of lk final S = Some l -> l_q l = [] /\ l_replies l = [].
Proof.
  intros Hd HS HF Hok Hresp Hev final. pose proof (Formed_P_not_sec _ _ _ _ _ _ HF) as HPS.
  destruct (Formed_Abs P dbn Ss cidx lk c false HF) as (v0 & HA0 & Hrq & Hcr & _ & _ & _ & Hsec); [discriminate|].
  destruct (sim_write P dbn Ss cidx lk HPS _ v0 w (Abs_sync P dbn Ss cidx lk c v0 HA0) Hok) as [_ HA1].
  cbv zeta in HA1. unfold client_cmd in *. rewrite Hresp in HA1.
  assert (Hv0 : vw_silent Ss v0) by (intros S HSin; destruct (Hsec S HSin) as [-> ->]; now rewrite Hrq).
  destruct (silent_run P dbn Ss cidx lk _ v0 evs Hd HPS HS HA1 (proj2 (Abs_silent P dbn Ss cidx lk _ v0 HA1) Hv0) Hev) as [Hsil Hc].
  split; [|split; [exact Hsil|]].
  - unfold final. rewrite Hc. destruct HA1 as (? & ? & _ & _ & _ & _ & -> & _). congruence.
  - intros S l HSin. apply (silent_links P Ss lk final S l Hsil HSin).
Qed.


(* the concrete 3-node cluster of ConvergeProofs, one write, a fixed settle-like schedule *)
Definition bx_w : cop := CSet "k" "v1".
Notation bx_c0 := (fst (client_cmd ex_c "p1" 0 (cop_line bx_w))) (only parsing).
Definition bx_sched : list cev :=
  [EvPollRepl; EvDeliver "s1"; EvDeliver "s2"; EvReply "s1"; EvReply "s1"; EvReply "s2"; EvReply "s2";
   EvPollS "s1"; EvPollS "s2"].
Notation bx_final := (run "p1" 0 ex_lk bx_c0 bx_sched) (only parsing).

Lemma bx_sched_ok : Forall (bev_ok ["s1"; "s2"]) bx_sched.
Proof. unfold bx_sched. repeat (apply Forall_cons; [cbn; tauto|]). apply Forall_nil. Qed.

Lemma bx_tok_dbn : simple_tok "d".
Proof. solve_tok. Qed.
Lemma bx_tok_Ss : forall S, In S ["s1"; "s2"] -> simple_tok S.
Proof. intros S [<-|[<-|[]]]; solve_tok. Qed.
Lemma bx_nodup : NoDup ["s1"; "s2"].
Proof. repeat constructor; cbn; intuition discriminate. Qed.
Lemma bx_w_ok : cop_ok bx_w.
Proof. split; solve_tok. Qed.
Lemma bx_bound : 24 + 2 <= 2 ^ 64.
Proof. vm_compute. intros H; discriminate H. Qed.

(* each run is evaluated once *)
Definition bx_final_v : cluster := Eval vm_compute in bx_final.
Lemma bx_final_eq : bx_final = bx_final_v.
Proof. vm_compute. reflexivity. Qed.

Example burst_example_silent : silent "p1" ["s1"; "s2"] ex_lk bx_final.
Proof.
  rewrite bx_final_eq. split.
  - intros S [<-|[<-|[]]]; reflexivity.
  - intros S l [<-|[<-|[]]] Hl; vm_compute in Hl; injection Hl as <-; reflexivity.
Qed.

(* 44 lines had crossed before the write, 48 = 44 + 2 * 2 after the burst *)
Example burst_example_computed : c_cross ex_c = 44 /\ c_cross bx_final = 48.
Proof. rewrite bx_final_eq. split; reflexivity. Qed.

Example burst_example_exact : c_cross bx_final = c_cross ex_c + 2 * N.of_nat (length ["s1"; "s2"]).
Proof.
  apply (C14_burst_exact "p1" "d" ["s1"; "s2"] 0 ex_lk ex_c bx_w 24 bx_sched).
  - exact bx_tok_dbn.
  - exact bx_tok_Ss.
  - exact bx_nodup.
  - exact formed_example.
  - exact bx_w_ok.
  - exact ex_bound.
  - exact bx_bound.
  - exact formed_write_accepted.
  - exact bx_sched_ok.
  - exact burst_example_silent.
Qed.

Definition bx_more : list cev :=
  [EvDeliver "s1"; EvReply "s2"; EvPollRepl; EvPollS "s2"; EvDeliver "s2"; EvReply "s1"; EvPollRepl].
Example burst_example_stays :
  c_cross (run "p1" 0 ex_lk bx_final bx_more) = 48 /\ silent "p1" ["s1"; "s2"] ex_lk (run "p1" 0 ex_lk bx_final bx_more).
Proof.
  destruct (C14_then_silence "p1" "d" ["s1"; "s2"] 0 ex_lk ex_c bx_w 24 bx_sched
              bx_tok_dbn bx_tok_Ss bx_nodup formed_example bx_w_ok ex_bound bx_bound formed_write_accepted
              bx_sched_ok burst_example_silent) as (_ & _ & H).
  destruct (H bx_more) as [H1 H2].
  { unfold bx_more. repeat (apply Forall_cons; [cbn; tauto|]). apply Forall_nil. }
  split; [|exact H1]. rewrite H2, bx_final_eq. reflexivity.
Qed.

(* the extra hypothesis of C14_pending_cleared holds on the example *)
Example closed_example : Closed "p1" ["s1"; "s2"] ex_lk ex_c.
Proof.
  eexists. split; [vm_compute; reflexivity|]. split.
  - intros nm Hnm. vm_compute in Hnm. destruct Hnm as [<-|[<-|[]]]; right; cbn; auto.
  - intros S l [<-|[<-|[]]] Hl; vm_compute in Hl; injection Hl as <-; reflexivity.
Qed.

Example burst_example_pending : pending_of "p1" bx_final = pending_of "p1" ex_c.
Proof.
  apply (C14_pending_cleared "p1" "d" ["s1"; "s2"] 0 ex_lk ex_c bx_w 24 bx_sched).
  - exact bx_tok_dbn.
  - exact bx_tok_Ss.
  - exact bx_nodup.
  - exact formed_example.
  - exact bx_w_ok.
  - exact ex_bound.
  - exact bx_bound.
  - exact formed_write_accepted.
  - exact bx_sched_ok.
  - exact closed_example.
  - exact burst_example_silent.
Qed.

(* in between the table does hold the operation: after the poll and one acknowledgement.
   Its op id is 25: the write is stamped 24 (the clock of [ex_c], [ex_bound]) and the line is
   queued under the next tick *)
Example burst_example_pending_midway :
  is_pending (pending_of "p1" (run "p1" 0 ex_lk bx_c0 [EvPollRepl; EvDeliver "s1"; EvReply "s1"])) 25 = true /\
  pending_of "p1" ex_c = [].
Proof. vm_compute. auto. Qed.

(* a refused write (the reserved key cannot be removed) *)
Example refused_example :
  resp_ok (snd (client_cmd ex_c "p1" 0 (cop_line (CRem "$$token")))) = false /\
  c_cross (run "p1" 0 ex_lk (fst (client_cmd ex_c "p1" 0 (cop_line (CRem "$$token")))) bx_sched) = c_cross ex_c.
Proof.
  assert (H : resp_ok (snd (client_cmd ex_c "p1" 0 (cop_line (CRem "$$token")))) = false) by (vm_compute; reflexivity).
  split; [exact H|].
  assert (Hk : cop_ok (CRem "$$token")) by (cbn; solve_tok).
  exact (proj1 (C14_refused_write_sends_nothing "p1" "d" ["s1"; "s2"] 0 ex_lk ex_c (CRem "$$token") bx_sched
           bx_tok_dbn bx_tok_Ss formed_example Hk H bx_sched_ok)).
Qed.

Definition bx_short_v : cluster :=
  Eval vm_compute in run "p1" 0 ex_lk bx_c0 [EvPollRepl; EvDeliver "s1"; EvReply "s1"; EvReply "s1"; EvPollS "s1"].
Lemma bx_short_eq :
  run "p1" 0 ex_lk bx_c0 [EvPollRepl; EvDeliver "s1"; EvReply "s1"; EvReply "s1"; EvPollS "s1"] = bx_short_v.
Proof. vm_compute. reflexivity. Qed.

(* why [NoDup Ss]:
   [Formed] only speaks about the members of Ss, so it also holds of a list that names a
   secondary twice; the burst is then 2 per DISTINCT secondary, not 2 * length Ss *)
Example burst_needs_nodup :
  let Ss := ["s1"; "s1"] in
  let sched := [EvPollRepl; EvDeliver "s1"; EvReply "s1"; EvReply "s1"; EvPollS "s1"] in
  let final := run "p1" 0 ex_lk bx_c0 sched in
  Formed "p1" "d" Ss 0 ex_lk ex_c /\ Forall (bev_ok Ss) sched /\ silent "p1" Ss ex_lk final /\
  c_cross final = c_cross ex_c + 2 /\ c_cross final <> c_cross ex_c + 2 * N.of_nat (length Ss).
Proof.
  cbv zeta. rewrite bx_short_eq. split; [|split; [|split; [|split]]].
  - apply (Formed_sub "p1" "d" ["s1"; "s2"]); [|exact formed_example]. cbn. tauto.
  - repeat (apply Forall_cons; [cbn; tauto|]). apply Forall_nil.
  - split.
    + intros S [<-|[<-|[]]]; reflexivity.
    + intros S l [<-|[<-|[]]] Hl; vm_compute in Hl; injection Hl as <-; reflexivity.
  - reflexivity.
  - vm_compute. intros H; discriminate H.
Qed.

(* why [Closed] for the pending table:
   with Ss = ["s1"] the cluster is still formed (s2 is simply not looked at), the schedule
   reaches silence with respect to Ss, the burst is 2 = 2 * |Ss| as C14_burst_exact says, but
   the primary's member table also names s2: the operation was registered for s2 as well and
   stays pending for ever (s2 never receives its line in this schedule) *)
Example pending_needs_closed :
  let Ss := ["s1"] in
  let sched := [EvPollRepl; EvDeliver "s1"; EvReply "s1"; EvReply "s1"; EvPollS "s1"] in
  let final := run "p1" 0 ex_lk bx_c0 sched in
  Formed "p1" "d" Ss 0 ex_lk ex_c /\ Forall (bev_ok Ss) sched /\ silent "p1" Ss ex_lk final /\
  c_cross final = c_cross ex_c + 2 * N.of_nat (length Ss) /\
  pending_of "p1" ex_c = [] /\ is_pending (pending_of "p1" final) 25 = true /\
  ~ Closed "p1" Ss ex_lk ex_c.
Proof.
  cbv zeta. rewrite bx_short_eq. split; [|split; [|split; [|split; [|split; [|split]]]]].
  - apply (Formed_sub "p1" "d" ["s1"; "s2"]); [|exact formed_example]. cbn. tauto.
  - repeat (apply Forall_cons; [cbn; tauto|]). apply Forall_nil.
  - split.
    + intros S [<-|[]]; reflexivity.
    + intros S l [<-|[]] Hl; vm_compute in Hl; injection Hl as <-; reflexivity.
  - reflexivity.
  - reflexivity.
  - reflexivity.
  - intros (xp & Hg & Hm & _). vm_compute in Hg. injection Hg as <-.
    destruct (Hm "s2") as [E|[E|[]]]; try discriminate E. vm_compute. auto.
Qed.

Check C14_burst_exact.
Check C14_burst_bounded.
Check C14_burst_bounded_anytime.
Check C14_potential_invariant.
Check C14_then_silence.
Check C14_pending_cleared.
Check C14_refused_write_sends_nothing.
Print Assumptions C14_burst_exact.
Print Assumptions C14_then_silence.
Print Assumptions C14_pending_cleared.
Print Assumptions C14_refused_write_sends_nothing.
