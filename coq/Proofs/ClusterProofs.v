(* Proofs about Model/Cluster.v: replication wire format (C04/C05), replay convergence
   (C04), what the replication thread writes to the key map and the log (C05/C16), fan-out
   and the replication thread (C14/C15). *)
From NunDB Require Import Model.Base Model.Pending Model.Parse Model.Node Model.Oplog Model.Cluster
  Proofs.AssocLemmas Proofs.PendingProofs Proofs.DbProofs.
From NunDB Require Import Proofs.NodeLemmas Proofs.StrLemmas.
From Coq Require Import DecimalN DecimalPos Sorting.Permutation.
Local Open Scope Z_scope.

Fixpoint nochar (c : ascii) (s : str) : bool :=
  match s with
  | EmptyString => true
  | String a r => negb (Ascii.eqb a c) && nochar c r
  end.
Definition no_sp (s : str) : Prop := nochar sp s = true.
Definition no_nl (s : str) : Prop := nochar nl s = true.

Fixpoint last_char (s : str) : option ascii :=
  match s with
  | EmptyString => None
  | String a r => match last_char r with Some x => Some x | None => Some a end
  end.
(* the text does not end with ';' (Request::parse strips trailing ';' of the whole line) *)
Definition no_semi_end (s : str) : Prop := last_char s <> Some ";"%char.

Definition is_i32 (z : Z) : Prop := -2147483648 <= z <= 2147483647.

Lemma nochar_in c s : nochar c s = true <-> ~ In c (list_ascii_of_string s).
Proof.
  induction s as [|a r IH]; cbn; [tauto|].
  rewrite andb_true_iff, negb_true_iff, IH.
  destruct (Ascii.eqb_spec a c); intuition congruence.
Qed.

Lemma nochar_app c a b : nochar c (a +++ b) = nochar c a && nochar c b.
Proof. induction a as [|x a IH]; cbn; auto. now rewrite IH, andb_assoc. Qed.

Lemma rev_rev_acc p cur : str_rev (str_rev_acc p cur) = str_rev cur +++ p.
Proof. now rewrite str_rev_acc_spec, str_rev_app, str_rev_invol. Qed.

Lemma last_char_app a b :
  last_char (a +++ b) = match last_char b with Some x => Some x | None => last_char a end.
Proof.
  induction a as [|x a IH]; cbn [append last_char].
  - now destruct (last_char b).
  - rewrite IH. destruct (last_char b); auto.
Qed.

Lemma last_char_rev s : last_char s = match str_rev s with String x _ => Some x | EmptyString => None end.
Proof.
  induction s as [|a r IH]; auto.
  change (String a r) with (String a "" +++ r) at 2. rewrite str_rev_app.
  cbn [last_char]. rewrite IH. destruct (str_rev r); reflexivity.
Qed.

Lemma trim_end_noop c s : last_char s <> Some c -> trim_end_char c s = s.
Proof.
  intros H. unfold trim_end_char. rewrite last_char_rev in H.
  destruct (str_rev s) as [|x t] eqn:E.
  - rewrite <- (str_rev_invol s), E. reflexivity.
  - cbn [drop_leading]. destruct (Ascii.eqb_spec x c) as [->|_]; [congruence|].
    rewrite <- E. apply str_rev_invol.
Qed.

(* when the text does end with ';' the parser sees a different (shorter) line *)
Lemma trim_end_strips c s : trim_end_char c (s +++ String c "") = trim_end_char c s.
Proof.
  unfold trim_end_char. rewrite str_rev_app. cbn [str_rev str_rev_acc append drop_leading].
  change (str_rev (String c "")) with (String c ""). cbn [append drop_leading].
  now rewrite Ascii.eqb_refl.
Qed.

Lemma last_char_app_ne a b : b <> "" -> last_char (a +++ b) = last_char b.
Proof.
  intros Hb. rewrite last_char_app. destruct b as [|x b]; [congruence|].
  cbn. destruct (last_char b); reflexivity.
Qed.

Lemma no_semi_end_app a b : b <> "" -> no_semi_end b -> no_semi_end (a +++ b).
Proof. unfold no_semi_end. intros Hb H. now rewrite last_char_app_ne. Qed.

(* value part preceded by a separator: an empty value leaves the separator last *)
Lemma no_semi_end_sep a b : no_semi_end b -> no_semi_end (a +++ " " +++ b).
Proof.
  unfold no_semi_end. intros H. rewrite last_char_app.
  change (" " +++ b) with (String " " b). cbn [last_char].
  destruct (last_char b); auto. discriminate.
Qed.

Lemma last_char_nochar c s : nochar c s = true -> last_char s <> Some c.
Proof.
  induction s as [|a r IH]; cbn; [discriminate|].
  intros H. apply andb_true_iff in H as [Ha Hr]. apply negb_true_iff in Ha.
  specialize (IH Hr). destruct (last_char r); [exact IH|].
  intros [= ->]. rewrite Ascii.eqb_refl in Ha. discriminate.
Qed.

Lemma trim_char_noop c a r :
  Ascii.eqb a c = false -> last_char (String a r) <> Some c -> trim_char c (String a r) = String a r.
Proof.
  intros Ha Hl. unfold trim_char. cbn [drop_leading]. rewrite Ha. now apply trim_end_noop.
Qed.

Lemma splitn_acc_piece n c p rest : forall cur, nochar c p = true ->
  splitn_acc (S (S n)) c (p +++ String c rest) cur = (str_rev cur +++ p) :: splitn_acc (S n) c rest "".
Proof.
  induction p as [|a p IH]; intros cur H.
  - cbn [append splitn_acc]. rewrite Ascii.eqb_refl, app_nil_r_s. reflexivity.
  - cbn [nochar] in H. apply andb_true_iff in H as [Ha Hp]. apply negb_true_iff in Ha.
    cbn [append]. change (splitn_acc (S (S n)) c (String a (p +++ String c rest)) cur)
      with (if Ascii.eqb a c then str_rev cur :: splitn_acc (S n) c (p +++ String c rest) ""
            else splitn_acc (S (S n)) c (p +++ String c rest) (String a cur)).
    rewrite Ha, IH by assumption. f_equal.
    unfold str_rev at 1. cbn [str_rev_acc]. rewrite str_rev_acc_spec, app_assoc_s. reflexivity.
Qed.

Lemma splitn_acc_end n c p : forall cur, nochar c p = true ->
  splitn_acc (S (S n)) c p cur = [str_rev cur +++ p].
Proof.
  induction p as [|a p IH]; intros cur H.
  - cbn [splitn_acc]. now rewrite app_nil_r_s.
  - cbn [nochar] in H. apply andb_true_iff in H as [Ha Hp]. apply negb_true_iff in Ha.
    change (splitn_acc (S (S n)) c (String a p) cur)
      with (if Ascii.eqb a c then str_rev cur :: splitn_acc (S n) c p ""
            else splitn_acc (S (S n)) c p (String a cur)).
    rewrite Ha, IH by assumption. f_equal.
    unfold str_rev at 1. cbn [str_rev_acc]. rewrite str_rev_acc_spec, app_assoc_s. reflexivity.
Qed.

Lemma splitn_sp_cons n p rest : no_sp p ->
  splitn (S (S n)) sp (p +++ " " +++ rest) = p :: splitn (S n) sp rest.
Proof.
  intros H. unfold splitn. change (" " +++ rest) with (String sp rest).
  now rewrite splitn_acc_piece.
Qed.

Lemma splitn_sp_last s : splitn 1 sp s = [s].
Proof. destruct s; reflexivity. Qed.

Lemma splitn_sp_end n p : no_sp p -> splitn (S (S n)) sp p = [p].
Proof. intros H. unfold splitn. now rewrite splitn_acc_end. Qed.

Lemma split_char_acc_piece c p rest : forall cur, nochar c p = true ->
  split_char_acc c (p +++ String c rest) cur = (str_rev cur +++ p) :: split_char_acc c rest "".
Proof.
  induction p as [|a p IH]; intros cur H.
  - cbn [append split_char_acc]. rewrite Ascii.eqb_refl, app_nil_r_s. reflexivity.
  - cbn [nochar] in H. apply andb_true_iff in H as [Ha Hp]. apply negb_true_iff in Ha.
    cbn [append split_char_acc]. rewrite Ha, IH by assumption. f_equal.
    unfold str_rev at 1. cbn [str_rev_acc]. rewrite str_rev_acc_spec, app_assoc_s. reflexivity.
Qed.

Lemma split_char_acc_end c p : forall cur, nochar c p = true ->
  split_char_acc c p cur = [str_rev cur +++ p].
Proof.
  induction p as [|a p IH]; intros cur H.
  - cbn [split_char_acc]. now rewrite app_nil_r_s.
  - cbn [nochar] in H. apply andb_true_iff in H as [Ha Hp]. apply negb_true_iff in Ha.
    cbn [split_char_acc]. rewrite Ha, IH by assumption. f_equal.
    unfold str_rev at 1. cbn [str_rev_acc]. rewrite str_rev_acc_spec, app_assoc_s. reflexivity.
Qed.

Lemma split_char_join c names : names <> [] -> Forall (fun s => nochar c s = true) names ->
  split_char c (join (String c "") names) = names.
Proof.
  intros Hne H. induction H as [|x l Hx Hl IH]; [congruence|].
  destruct l as [|y r].
  - cbn [join]. unfold split_char. now rewrite split_char_acc_end.
  - change (join (String c "") (x :: y :: r)) with (x +++ String c (join (String c "") (y :: r))).
    unfold split_char. rewrite split_char_acc_piece by assumption.
    f_equal. apply IH. discriminate.
Qed.

Lemma nochar_join c sep l : nochar c sep = true -> Forall (fun s => nochar c s = true) l ->
  nochar c (join sep l) = true.
Proof.
  intros Hs H. induction H as [|x l Hx Hl IH]; [reflexivity|].
  destruct l as [|y r]; [exact Hx|].
  change (join sep (x :: y :: r)) with (x +++ sep +++ join sep (y :: r)).
  now rewrite !nochar_app, Hx, Hs, IH.
Qed.

Lemma split_char_line p : no_nl p -> split_char nl (p +++ nlS) = [p; ""].
Proof. intros H. unfold split_char, nlS. now rewrite split_char_acc_piece. Qed.

Lemma strip_nl_noop s : no_nl s -> strip_nl s = s.
Proof.
  unfold no_nl, strip_nl. induction s as [|a r IH]; cbn; auto.
  intros H. apply andb_true_iff in H as [Ha Hr]. apply negb_true_iff in Ha.
  rewrite Ha, IH; auto.
Qed.

Theorem parse_u128_N n : (n < 2 ^ 128)%N -> parse_u128 (N_to_str n) = Some n.
Proof. apply parse_unsigned_N. Qed.

Theorem parse_i32_Z z : is_i32 z -> parse_i32 (Z_to_str z) = Some z.
Proof.
  unfold is_i32. intros Hr. destruct z as [|p|p]; cbn [Z_to_str].
  - reflexivity.
  - destruct (N_to_str_cons (Npos p)) as (a & r & E & Ha).
    pose proof (digits_val_N (Npos p)) as Hv. rewrite E in *.
    rewrite parse_i32_digit, Hv by assumption. cbn [Z.of_N].
    replace (_ && _) with true; auto.
    symmetry. apply andb_true_iff. split; apply Z.leb_le; lia.
  - change ("-" +++ N_to_str (N.pos p)) with (String "-" (N_to_str (N.pos p))).
    destruct (N_to_str_cons (Npos p)) as (a & r & E & Ha).
    pose proof (digits_val_N (Npos p)) as Hv. rewrite E in *.
    unfold parse_i32. rewrite Hv. cbn [Z.of_N Z.opp].
    replace (_ && _) with true; auto.
    symmetry. apply andb_true_iff. split; apply Z.leb_le; lia.
Qed.

(* out-of-range numbers are not transported *)
Example parse_i32_out_of_range : parse_i32 (Z_to_str 2147483648) = None.
Proof. vm_compute. reflexivity. Qed.

Lemma alldigits_nochar c s : is_digit c = false -> alldigits s = true -> nochar c s = true.
Proof.
  intros Hc. induction s as [|a r IH]; cbn; auto.
  intros H. apply andb_true_iff in H as [Ha Hr]. rewrite IH by assumption.
  destruct (Ascii.eqb_spec a c) as [->|]; [congruence|reflexivity].
Qed.

Lemma alldigits_last s x : alldigits s = true -> last_char s = Some x -> is_digit x = true.
Proof.
  induction s as [|a r IH]; cbn; [discriminate|].
  intros H. apply andb_true_iff in H as [Ha Hr].
  destruct (last_char r) as [y|]; intros [= <-]; auto.
Qed.

Lemma no_sp_N n : no_sp (N_to_str n).
Proof. apply alldigits_nochar; [reflexivity | apply alldigits_N]. Qed.
Lemma no_nl_N n : no_nl (N_to_str n).
Proof. apply alldigits_nochar; [reflexivity | apply alldigits_N]. Qed.
Lemma no_semi_end_N n : no_semi_end (N_to_str n).
Proof.
  intros H. apply alldigits_last in H; [discriminate H | apply alldigits_N].
Qed.

Lemma no_sp_Z z : no_sp (Z_to_str z).
Proof. destruct z; cbn [Z_to_str]; try reflexivity; [|unfold no_sp; cbn [append nochar]]; apply no_sp_N. Qed.
Lemma no_nl_Z z : no_nl (Z_to_str z).
Proof. destruct z; cbn [Z_to_str]; try reflexivity; [|unfold no_nl; cbn [append nochar]]; apply no_nl_N. Qed.
Lemma no_semi_end_Z z : no_semi_end (Z_to_str z).
Proof.
  destruct z; cbn [Z_to_str]; try (intros H; discriminate H); [apply no_semi_end_N|].
  apply no_semi_end_app; [apply N_to_str_nonempty | apply no_semi_end_N].
Qed.

(* [Node.step] parses [trim_char nl line]: a printed line that holds no newline at all is read as it stands *)
Lemma trim_nl_id s : no_nl s -> trim_char nl s = s.
Proof.
  intros H. destruct s as [|a r]; [reflexivity|]. apply trim_char_noop; [|now apply last_char_nochar].
  cbn [nochar] in H. apply andb_true_iff in H as [Ha _]. now apply negb_true_iff in Ha.
Qed.

Lemma no_nl_app a b : no_nl a -> no_nl b -> no_nl (a +++ b).
Proof. unfold no_nl. intros Ha Hb. now rewrite nochar_app, Ha, Hb. Qed.

(* that a line holds no newline is seen piece by piece, [auto with nonl]; the search goes one level down for
   each piece, so a line of more than four pieces wants a depth *)
Create HintDb nonl.
#[export] Hint Resolve no_nl_app no_nl_N no_nl_Z : nonl.
#[export] Hint Extern 1 (no_nl _) => reflexivity : nonl.

Lemma no_nl_replicate_msg db key value ver :
  no_nl db -> no_nl key -> no_nl value -> no_nl (replicate_msg db key value ver).
Proof. intros. unfold replicate_msg. auto 10 with nonl. Qed.

Lemma parse_cmd_replicate args : parse_cmd "replicate" args = Some (
    match hd_opt (tl args) with
    | Some cv =>
        let ps := splitn 3 sp cv in
        POk (RqReplicateSet (or_empty (hd_opt args)) (strip_nl (or_empty (hd_opt ps)))
               (strip_nl (or_empty (hd_opt (tl (tl ps))))) (i32_or (-1) (hd_opt (tl ps))))
    | None => PErr "no command sent"
    end).
Proof. reflexivity. Qed.

Lemma parse_cmd_replicate_remove args : parse_cmd "replicate-remove" args =
  Some (POk (RqReplicateRemove (or_empty (hd_opt args)) (strip_nl (or_empty (hd_opt (tl args)))))).
Proof. reflexivity. Qed.

Lemma parse_cmd_replicate_increment args : parse_cmd "replicate-increment" args = Some (
    match hd_opt args with
    | None => PErr "replicate-snapshot must contain a db name"
    | Some dbn =>
        match hd_opt (tl args) with
        | None => PErr "replicate-increment must be followed by a key"
        | Some rest =>
            let ps := splitn 2 sp rest in
            POk (RqReplicateIncrement (strip_nl dbn) (or_empty (hd_opt ps)) (i32_or 1 (hd_opt (tl ps))))
        end
    end).
Proof. reflexivity. Qed.

Lemma parse_cmd_create_db args : parse_cmd "create-db" args = Some (
    match hd_opt (tl args) with
    | Some rest =>
        let ps := splitn 2 sp rest in
        POk (RqCreateDb (strip_nl (or_empty (hd_opt ps))) (or_empty (hd_opt args))
               (strat_of_str (match hd_opt (tl ps) with Some s => strip_nl s | None => "none" end)))
    | None => PErr "create-db must be followed by a token"
    end).
Proof. reflexivity. Qed.

Lemma parse_cmd_rp args : parse_cmd "rp" args = Some (
    match hd_opt args with
    | None => PErr "Invalid request Id"
    | Some ids =>
        match parse_u64 ids with
        | None => PErr "Invalid request Id"
        | Some id => let rs := or_empty (hd_opt (tl args)) in
                     if String.eqb rs "" then PErr "Invalid replication request str"
                     else POk (RqReplicateRequest rs id)
        end
    end).
Proof. reflexivity. Qed.

Lemma parse_cmd_ack args : parse_cmd "ack" args = Some (
    match hd_opt args with
    | Some ids => match parse_u64 ids with
                  | Some id => let sn := or_empty (hd_opt (tl args)) in
                               if String.eqb sn "" then PErr "Invalid server name"
                               else POk (RqAcknowledge id sn)
                  | None => PErr "Invalid request Id"
                  end
    | None => PErr "Invalid request Id"
    end).
Proof. reflexivity. Qed.

Lemma parse_request_3 word a rest :
  no_sp word -> word <> "" -> no_sp a -> no_semi_end (word +++ " " +++ a +++ " " +++ rest) ->
  parse_request (word +++ " " +++ a +++ " " +++ rest) =
  match parse_cmd word [a; rest] with Some r => r | None => PErr ("unknown command: " +++ word) end.
Proof.
  intros Hw Hne Ha Hs. unfold parse_request.
  rewrite trim_end_noop by exact Hs.
  rewrite splitn_sp_cons, splitn_sp_cons, splitn_sp_last by assumption.
  destruct (String.eqb_spec word ""); [contradiction|reflexivity].
Qed.

Lemma parse_request_2 word a :
  no_sp word -> word <> "" -> no_sp a -> no_semi_end (word +++ " " +++ a) ->
  parse_request (word +++ " " +++ a) =
  match parse_cmd word [a] with Some r => r | None => PErr ("unknown command: " +++ word) end.
Proof.
  intros Hw Hne Ha Hs. unfold parse_request.
  rewrite trim_end_noop by exact Hs.
  rewrite splitn_sp_cons, splitn_sp_end by assumption.
  destruct (String.eqb_spec word ""); [contradiction|reflexivity].
Qed.

Theorem replicate_roundtrip db key value ver :
  no_sp db -> no_sp key -> no_nl key -> no_nl value -> no_semi_end value -> is_i32 ver ->
  parse_request (replicate_msg db key value ver) = POk (RqReplicateSet db key value ver).
Proof.
  intros Hdb Hk Hkn Hvn Hvs Hver. unfold replicate_msg.
  change ("replicate " +++ db +++ " " +++ key +++ " " +++ Z_to_str ver +++ " " +++ value)
    with ("replicate" +++ " " +++ db +++ " " +++ key +++ " " +++ Z_to_str ver +++ " " +++ value).
  rewrite parse_request_3; try assumption; try reflexivity; try discriminate.
  2:{ repeat apply no_semi_end_sep. exact Hvs. }
  rewrite parse_cmd_replicate. cbn [hd_opt tl or_empty]. cbv zeta.
  rewrite splitn_sp_cons, splitn_sp_cons, splitn_sp_last by (assumption || apply no_sp_Z).
  cbn [hd_opt tl or_empty i32_or].
  rewrite !strip_nl_noop by (assumption || apply no_nl_Z).
  now rewrite parse_i32_Z.
Qed.

Theorem replicate_remove_roundtrip db key :
  no_sp db -> no_nl key -> no_semi_end key ->
  parse_request ("replicate-remove " +++ db +++ " " +++ key) = POk (RqReplicateRemove db key).
Proof.
  intros Hdb Hkn Hks.
  change ("replicate-remove " +++ db +++ " " +++ key) with ("replicate-remove" +++ " " +++ db +++ " " +++ key).
  rewrite parse_request_3; try assumption; try reflexivity; try discriminate.
  2:{ repeat apply no_semi_end_sep. exact Hks. }
  rewrite parse_cmd_replicate_remove. cbn [hd_opt tl or_empty].
  now rewrite strip_nl_noop.
Qed.

Theorem replicate_increment_roundtrip db key inc :
  no_sp db -> no_nl db -> no_sp key -> is_i32 inc ->
  parse_request ("replicate-increment " +++ db +++ " " +++ key +++ " " +++ Z_to_str inc)
  = POk (RqReplicateIncrement db key inc).
Proof.
  intros Hdb Hdn Hk Hi.
  change ("replicate-increment " +++ db +++ " " +++ key +++ " " +++ Z_to_str inc)
    with ("replicate-increment" +++ " " +++ db +++ " " +++ key +++ " " +++ Z_to_str inc).
  rewrite parse_request_3; try assumption; try reflexivity; try discriminate.
  2:{ repeat apply no_semi_end_sep. apply no_semi_end_Z. }
  rewrite parse_cmd_replicate_increment. cbn [hd_opt tl or_empty]. cbv zeta.
  rewrite splitn_sp_cons, splitn_sp_last by assumption.
  cbn [hd_opt tl or_empty i32_or].
  rewrite !strip_nl_noop by (assumption || apply no_nl_Z).
  now rewrite parse_i32_Z.
Qed.

Theorem create_db_roundtrip name token s :
  no_sp name -> no_sp token -> no_nl token ->
  parse_request ("create-db " +++ name +++ " " +++ token +++ " " +++ strat_to_str s)
  = POk (RqCreateDb token name s).
Proof.
  intros Hn Ht Htn.
  change ("create-db " +++ name +++ " " +++ token +++ " " +++ strat_to_str s)
    with ("create-db" +++ " " +++ name +++ " " +++ token +++ " " +++ strat_to_str s).
  rewrite parse_request_3; try assumption; try reflexivity; try discriminate.
  2:{ repeat apply no_semi_end_sep. destruct s; intros H; discriminate H. }
  rewrite parse_cmd_create_db. cbn [hd_opt tl or_empty]. cbv zeta.
  rewrite splitn_sp_cons, splitn_sp_last by assumption.
  cbn [hd_opt tl or_empty].
  rewrite strip_nl_noop by assumption.
  destruct s; reflexivity.
Qed.

Theorem rp_roundtrip id msg :
  (id < 2 ^ 64)%N -> msg <> "" -> no_semi_end msg ->
  parse_request ("rp " +++ N_to_str id +++ " " +++ msg) = POk (RqReplicateRequest msg id).
Proof.
  intros Hid Hm Hs.
  change ("rp " +++ N_to_str id +++ " " +++ msg) with ("rp" +++ " " +++ N_to_str id +++ " " +++ msg).
  rewrite parse_request_3; try assumption; try reflexivity; try discriminate; try apply no_sp_N.
  2:{ repeat apply no_semi_end_sep. exact Hs. }
  rewrite parse_cmd_rp. cbn [hd_opt tl or_empty]. cbv zeta.
  now rewrite parse_u64_N, eqb_nonempty.
Qed.

Theorem ack_roundtrip id name :
  (id < 2 ^ 64)%N -> name <> "" -> no_semi_end name ->
  parse_request ("ack " +++ N_to_str id +++ " " +++ name) = POk (RqAcknowledge id name).
Proof.
  intros Hid Hm Hs.
  change ("ack " +++ N_to_str id +++ " " +++ name) with ("ack" +++ " " +++ N_to_str id +++ " " +++ name).
  rewrite parse_request_3; try assumption; try reflexivity; try discriminate; try apply no_sp_N.
  2:{ repeat apply no_semi_end_sep. exact Hs. }
  rewrite parse_cmd_ack. cbn [hd_opt tl or_empty]. cbv zeta.
  now rewrite parse_u64_N, eqb_nonempty.
Qed.

(* the catch-up line of get_pendding_opps_since ("replicate db key value", no version)
   does NOT round-trip: the value is read as the version (unparsable: -1) and the value is lost *)
Example catchup_line_not_roundtrip :
  parse_request "replicate d1 k value3" = POk (RqReplicateSet "d1" "k" "" (-1)).
Proof. vm_compute. reflexivity. Qed.

(* a numeric value in a catch-up line becomes the VERSION *)
Example catchup_line_numeric_value :
  parse_request "replicate d1 k 7" = POk (RqReplicateSet "d1" "k" "" 7).
Proof. vm_compute. reflexivity. Qed.

(* each side condition of [replicate_roundtrip] is needed *)
Example replicate_needs_no_semi_end :
  parse_request (replicate_msg "d" "k" "v;" (-1)) = POk (RqReplicateSet "d" "k" "v" (-1)).
Proof. vm_compute. reflexivity. Qed.
Example replicate_needs_no_nl_key :
  parse_request (replicate_msg "d" ("a" +++ nlS +++ "b") "v" (-1)) = POk (RqReplicateSet "d" "ab" "v" (-1)).
Proof. vm_compute. reflexivity. Qed.
Example replicate_needs_no_sp_key :
  parse_request (replicate_msg "d" "a b" "v" 3) = POk (RqReplicateSet "d" "a" "3 v" (-1)).
Proof. vm_compute. reflexivity. Qed.
Example replicate_needs_no_sp_db :
  parse_request (replicate_msg "d e" "k" "v" 3) = POk (RqReplicateSet "d" "e" "3 v" (-1)).
Proof. vm_compute. reflexivity. Qed.
Example replicate_needs_i32 :
  parse_request (replicate_msg "d" "k" "v" 2147483648) = POk (RqReplicateSet "d" "k" "v" (-1)).
Proof. vm_compute. reflexivity. Qed.

(* the parser itself can yield a value ending with ';': on the line "set k v;<nl>;" it stores "v;" where the
   broadcast line stores "v".  No transport of the server hands it such a line: TCP ends the line at the
   newline, WebSocket and HTTP split the text on ';' first *)
Example semi_value_reachable :
  parse_request ("set k v;" +++ nlS +++ ";") = POk (RqSet "k" "v;" (-1)).
Proof. vm_compute. reflexivity. Qed.

Example remove_needs_no_semi_end :
  parse_request ("replicate-remove " +++ "d" +++ " " +++ "k;") = POk (RqReplicateRemove "d" "k").
Proof. vm_compute. reflexivity. Qed.
Example increment_needs_no_sp_key :
  parse_request ("replicate-increment " +++ "d" +++ " " +++ "a b" +++ " " +++ Z_to_str 5)
  = POk (RqReplicateIncrement "d" "a" 1).
Proof. vm_compute. reflexivity. Qed.
Example rp_needs_u64 :
  parse_request ("rp " +++ N_to_str (2 ^ 64) +++ " " +++ "x") = PErr "Invalid request Id".
Proof. vm_compute. reflexivity. Qed.

(* same value, version and new / removed status, per key for [dbrel]; op stamps are not compared.  [ch_same]
   and [same_op] below: equal up to the op stamp *)
Definition vrel (a b : value) : Prop :=
  v_val a = v_val b /\ v_ver a = v_ver b /\
  (v_st a = VNew <-> v_st b = VNew) /\ (v_st a = VDeleted <-> v_st b = VDeleted).

Definition dbrel (d1 d2 : db) : Prop :=
  forall k, match get_value d1 k, get_value d2 k with
            | Some a, Some b => vrel a b
            | None, None => True
            | _, _ => False
            end.

(* same kind of reply, with the same client-visible content *)
Definition resp_rel (r1 r2 : resp) : Prop :=
  match r1, r2 with
  | RSet k v, RSet k' v' => k = k' /\ v = v'
  | RVersionError k o v old _ st, RVersionError k' o' v' old' _ st' =>
      k = k' /\ o = o' /\ v = v' /\ vrel old old' /\ (st = VNew <-> st' = VNew)
  | ROk, ROk => True
  | RError m, RError m' => m = m'
  | RValue k v ver, RValue k' v' ver' => k = k' /\ v = v' /\ ver = ver'
  | RPanic, RPanic => True
  | _, _ => False
  end.

Definition ch_same (c1 c2 : change) : Prop :=
  c_key c1 = c_key c2 /\ c_val c1 = c_val c2 /\ c_ver c1 = c_ver c2 /\ c_resolve c1 = c_resolve c2.

Lemma vrel_refl a : vrel a a.
Proof. unfold vrel; tauto. Qed.
Lemma vrel_sym a b : vrel a b -> vrel b a.
Proof. unfold vrel; intuition. Qed.
Lemma vrel_trans a b c : vrel a b -> vrel b c -> vrel a c.
Proof. unfold vrel; intuition congruence. Qed.

Lemma dbrel_refl d : dbrel d d.
Proof. intros k. destruct (get_value d k); auto using vrel_refl. Qed.
Lemma dbrel_sym d1 d2 : dbrel d1 d2 -> dbrel d2 d1.
Proof.
  intros H k. specialize (H k). destruct (get_value d1 k), (get_value d2 k); auto using vrel_sym.
Qed.
Lemma dbrel_trans d1 d2 d3 : dbrel d1 d2 -> dbrel d2 d3 -> dbrel d1 d3.
Proof.
  intros H1 H2 k. specialize (H1 k). specialize (H2 k).
  destruct (get_value d1 k), (get_value d2 k), (get_value d3 k); try tauto. eauto using vrel_trans.
Qed.

Lemma vrel_upd a b : vrel a b -> (upd_state a = VNew <-> upd_state b = VNew).
Proof.
  unfold vrel, upd_state. intros (_ & _ & Hn & _).
  destruct (v_st a), (v_st b); intuition congruence.
Qed.

Lemma vrel_deleted_eqb a b : vrel a b -> vstate_eqb (v_st a) VDeleted = vstate_eqb (v_st b) VDeleted.
Proof.
  intros (_ & _ & _ & Hd).
  destruct (vstate_eqb_spec (v_st a) VDeleted), (vstate_eqb_spec (v_st b) VDeleted); intuition.
Qed.

Lemma dbrel_live d1 d2 k : dbrel d1 d2 -> live d1 k = live d2 k.
Proof.
  intros H. specialize (H k). unfold live.
  destruct (get_value d1 k) as [a|], (get_value d2 k) as [b|]; try tauto.
  rewrite (vrel_deleted_eqb a b H). destruct H as (-> & _). reflexivity.
Qed.

Lemma dbrel_get d1 d2 k : dbrel d1 d2 -> get_key_value_new d1 k = get_key_value_new d2 k.
Proof.
  intros H. specialize (H k). unfold get_key_value_new.
  destruct (get_value d1 k) as [a|], (get_value d2 k) as [b|]; try tauto.
  destruct H as (-> & -> & _). reflexivity.
Qed.

Lemma dbrel_put d1 d2 k a b : dbrel d1 d2 -> vrel a b -> dbrel (put_value d1 k a) (put_value d2 k b).
Proof.
  intros H Hv k'. destruct (String.eqb_spec k' k) as [->|Hne].
  - now rewrite !gv_put_same.
  - rewrite !gv_put_other by assumption. apply H.
Qed.

Lemma dbrel_del d1 d2 k : dbrel d1 d2 ->
  dbrel (db_set_map d1 (assoc_del String.eqb k (d_map d1))) (db_set_map d2 (assoc_del String.eqb k (d_map d2))).
Proof.
  intros H k'. destruct (String.eqb_spec k' k) as [->|Hne].
  - now rewrite !gv_del_same.
  - rewrite !gv_del_other by assumption. apply H.
Qed.

Lemma next_version_rel c1 c2 a b : ch_same c1 c2 -> vrel a b -> next_version c1 a = next_version c2 b.
Proof.
  intros (_ & _ & Hv & Hr) (_ & Hver & _). unfold next_version, in_conflict.
  now rewrite Hv, Hr, Hver.
Qed.

Theorem set_value_rel d1 d2 c1 c2 : dbrel d1 d2 -> ch_same c1 c2 ->
  dbrel (fst (fst (set_value d1 c1))) (fst (fst (set_value d2 c2))) /\
  resp_rel (snd (fst (set_value d1 c1))) (snd (fst (set_value d2 c2))).
Proof.
  intros H Hc. pose proof Hc as (Hk & Hval & Hver & Hres).
  pose proof (H (c_key c1)) as Hg. unfold set_value. rewrite <- Hk.
  destruct (get_value d1 (c_key c1)) as [a|], (get_value d2 (c_key c1)) as [b|]; try tauto.
  - rewrite <- (next_version_rel c1 c2 a b Hc Hg), <- Hver.
    pose proof Hg as (Hva & Hve & _). rewrite <- Hve.
    destruct (_ && _); cbn [fst snd].
    + split; auto. cbn [resp_rel]. repeat split; auto using vrel_upd; try apply Hg; try apply (vrel_upd a b Hg).
    + split; [|cbn; auto]. apply dbrel_put; auto.
      unfold vrel; cbn [v_val v_ver v_st]. repeat split; auto; try apply (vrel_upd a b Hg);
        intros E; exfalso; eapply upd_state_live; eauto.
  - cbn [fst snd]. split; [|cbn; auto]. apply dbrel_put; auto.
    unfold vrel; cbn [v_val v_ver v_st]. rewrite Hver. tauto.
Qed.

Theorem remove_value_rel d1 d2 key : dbrel d1 d2 ->
  dbrel (fst (fst (remove_value d1 key))) (fst (fst (remove_value d2 key))) /\
  resp_rel (snd (fst (remove_value d1 key))) (snd (fst (remove_value d2 key))).
Proof.
  intros H. pose proof (H key) as Hg. unfold remove_value.
  destruct (String.eqb key "$$token"); cbn [fst snd]; [split; cbn; auto|].
  split; [|cbn; auto].
  destruct (get_value d1 key) as [a|], (get_value d2 key) as [b|]; try tauto.
  pose proof Hg as (Hva & Hve & Hn & Hd).
  assert (Hput : dbrel (put_value d1 key (mkV "<Empty>" (sat_succ (v_ver a)) (v_opp a) VDeleted (v_vaddr a) (v_kaddr a)))
                       (put_value d2 key (mkV "<Empty>" (sat_succ (v_ver b)) (v_opp b) VDeleted (v_vaddr b) (v_kaddr b)))).
  { apply dbrel_put; auto. unfold vrel; cbn [v_val v_ver v_st]. rewrite Hve. tauto. }
  destruct (v_st a) eqn:Ea, (v_st b) eqn:Eb; auto;
    try (exfalso; destruct Hn as [Hn1 Hn2]; (specialize (Hn1 eq_refl) || specialize (Hn2 eq_refl)); discriminate).
  now apply dbrel_del.
Qed.

Theorem inc_value_rel d1 d2 key inc o1 o2 : dbrel d1 d2 ->
  dbrel (fst (fst (inc_value d1 key inc o1))) (fst (fst (inc_value d2 key inc o2))) /\
  resp_rel (snd (fst (inc_value d1 key inc o1))) (snd (fst (inc_value d2 key inc o2))).
Proof.
  intros H. pose proof (H key) as Hg. unfold inc_value.
  assert (Hcur : match get_value d1 key with
                 | Some v => if vstate_eqb (v_st v) VDeleted then "0" else v_val v
                 | None => "0" end =
                 match get_value d2 key with
                 | Some v => if vstate_eqb (v_st v) VDeleted then "0" else v_val v
                 | None => "0" end).
  { destruct (get_value d1 key) as [a|], (get_value d2 key) as [b|]; try tauto.
    rewrite (vrel_deleted_eqb a b Hg). destruct Hg as (-> & _). reflexivity. }
  rewrite <- Hcur. destruct (parse_i32 _) as [c|]; cbn [fst snd]; [|split; cbn; auto].
  destruct (_ && _); cbn [fst snd]; [|split; cbn; auto].
  split; [|cbn; auto]. apply dbrel_put; auto.
  destruct (get_value d1 key) as [a|], (get_value d2 key) as [b|]; try tauto.
  - pose proof Hg as (Hva & Hve & _).
    unfold vrel; cbn [v_val v_ver v_st]. rewrite Hve. repeat split; auto; try apply (vrel_upd a b Hg);
      intros E; exfalso; eapply upd_state_live; eauto.
  - unfold vrel; cbn. tauto.
Qed.

Definition same_op (a b : dop) : Prop :=
  match a, b with
  | DSet k v ver _, DSet k' v' ver' _ => k = k' /\ v = v' /\ ver = ver'
  | DRemove k, DRemove k' => k = k'
  | DInc k i _, DInc k' i' _ => k = k' /\ i = i'
  | _, _ => False
  end.
Definition same_ops : list dop -> list dop -> Prop := Forall2 same_op.

Lemma db_apply_rel d1 d2 o1 o2 : dbrel d1 d2 -> same_op o1 o2 ->
  dbrel (db_apply d1 o1) (db_apply d2 o2) /\ resp_rel (dop_resp d1 o1) (dop_resp d2 o2).
Proof.
  intros H Ho. destruct o1 as [k v ver opp | k | k i opp], o2 as [k' v' ver' opp' | k' | k' i' opp'];
    cbn [same_op] in Ho; try contradiction; cbn [db_apply dop_resp].
  - destruct Ho as (-> & -> & ->). apply set_value_rel; auto. unfold ch_same; cbn; auto.
  - subst k'. now apply remove_value_rel.
  - destruct Ho as (-> & ->). now apply inc_value_rel.
Qed.

Theorem replay_converges ms ms' : same_ops ms ms' -> forall d1 d2,
  dbrel d1 d2 -> dbrel (fold_left db_apply ms d1) (fold_left db_apply ms' d2).
Proof.
  induction 1 as [|o1 o2 ms ms' Ho _ IH]; cbn [fold_left]; intros d1 d2 H; auto.
  apply IH. now apply db_apply_rel.
Qed.

Fixpoint replay_resps (d : db) (ms : list dop) : list resp :=
  match ms with [] => [] | o :: r => dop_resp d o :: replay_resps (db_apply d o) r end.

Theorem replay_same_replies ms ms' : same_ops ms ms' -> forall d1 d2,
  dbrel d1 d2 -> Forall2 resp_rel (replay_resps d1 ms) (replay_resps d2 ms').
Proof.
  induction 1 as [|o1 o2 ms ms' Ho _ IH]; cbn [replay_resps]; intros d1 d2 H; constructor.
  - now apply db_apply_rel.
  - apply IH. now apply db_apply_rel.
Qed.

Corollary replay_same_content ms ms' d1 d2 k : same_ops ms ms' -> dbrel d1 d2 ->
  live (fold_left db_apply ms d1) k = live (fold_left db_apply ms' d2) k /\
  get_key_value_new (fold_left db_apply ms d1) k = get_key_value_new (fold_left db_apply ms' d2) k.
Proof.
  intros Hs H. pose proof (replay_converges ms ms' Hs d1 d2 H). split; [now apply dbrel_live | now apply dbrel_get].
Qed.

(* order matters: the hypothesis "in order" cannot be dropped *)
Example replay_order_matters :
  let d := empty_db 1 SNone in
  live (fold_left db_apply [DSet "k" "a" (-1) 1; DSet "k" "b" (-1) 2] d) "k" = Some "b" /\
  live (fold_left db_apply [DSet "k" "b" (-1) 2; DSet "k" "a" (-1) 1] d) "k" = Some "a".
Proof. vm_compute. auto. Qed.

Lemma n_dbs_send n c m : n_dbs (send n c m) = n_dbs n.
Proof. exact (NodeLemmas.n_dbs_send n c m). Qed.
Definition dbs_updated (n n' : node) (dbn : str) (d' : db) : Prop :=
  n_dbs n' = assoc_set String.eqb dbn d' (n_dbs n).

Lemma dbs_updated_get n n' dbn d' : dbs_updated n n' dbn d' ->
  get_db n' dbn = Some d' /\ forall x, x <> dbn -> get_db n' x = get_db n x.
Proof.
  unfold dbs_updated, get_db. intros ->. split.
  - apply str_get_set_same.
  - intros x Hx. now apply str_get_set_other.
Qed.

Lemma dbs_updated_same n dbn d : get_db n dbn = Some d -> dbs_updated n n dbn d.
Proof. unfold dbs_updated, get_db. intros H. symmetry. apply set_same_id, H. Qed.

Lemma apply_change_none n dbn d ch : get_db n dbn = Some d -> d_strat d = SNone ->
  apply_change n dbn ch =
  (if resp_ok (snd (fst (set_value d ch)))
   then sends (put_db n dbn (fst (fst (set_value d ch)))) (snd (set_value d ch)) else n,
   snd (fst (set_value d ch))).
Proof.
  intros Hdb Hs. unfold apply_change. rewrite Hdb. unfold set_value.
  destruct (get_value d (c_key ch)) as [old|]; [destruct (_ && _)|]; cbn [fst snd resp_ok]; auto.
  now rewrite Hs.
Qed.

(* at a secondary: the request arrives on the link's server-side session *)
Lemma handle_replicate_set_eq n c dbn k v ver : handle n c (RqReplicateSet dbn k v ver) =
  if negb (s_auth (get_sess n c)) then (n, not_auth) else
  match get_db n dbn with
  | Some _ => set_key_value n dbn k v ver
  | None => (n, RError "Not a valid database name")
  end.
Proof. reflexivity. Qed.

Lemma handle_replicate_remove_eq n c dbn k : handle n c (RqReplicateRemove dbn k) =
  if negb (s_auth (get_sess n c)) then (n, not_auth) else
  match get_db n dbn with
  | Some d => let '(d', r, msgs) := remove_value d k in (sends (put_db n dbn d') msgs, r)
  | None => (n, RError "Not a valid database name")
  end.
Proof. reflexivity. Qed.

(* note: the reply of a replicated increment is always ROk, whatever inc_value answered *)
Lemma handle_replicate_increment_eq n c dbn k i : handle n c (RqReplicateIncrement dbn k i) =
  if negb (s_auth (get_sess n c)) then (n, not_auth) else
  match get_db n dbn with
  | Some d =>
      let '(n1, id) := tick n in
      let '(d', _, msgs) := inc_value d k i id in
      (sends (put_db n1 dbn d') msgs, ROk)
  | None => (n, RError "Not a valid database name")
  end.
Proof. reflexivity. Qed.

Lemma handle_set_eq n c k v ver : handle n c (RqSet k v ver) =
  match guard_safe n c k PWrite with
  | GStop n' r => (n', r)
  | GGo dbn d =>
      let '(n1, r) := set_key_value n dbn k v ver in
      ((if is_primary n1 then n1 else send_to_primary n1 (replicate_msg dbn k v ver)), r)
  end.
Proof. reflexivity. Qed.

Lemma handle_remove_eq n c k : handle n c (RqRemove k) =
  match guard_safe n c k PRemove with
  | GStop n' r => (n', r)
  | GGo dbn d =>
      let '(d', r, msgs) := remove_value d k in
      let n1 := sends (put_db n dbn d') msgs in
      ((match r with
        | ROk => if is_primary n1 then n1 else send_to_primary n1 ("replicate-remove " +++ dbn +++ " " +++ k)
        | _ => n1 end), r)
  end.
Proof. reflexivity. Qed.

(* an increment is applied locally only at the primary (a secondary just forwards it) *)
Lemma handle_increment_eq n c k i : handle n c (RqIncrement k i) =
  match guard_safe n c k PIncrement with
  | GStop n' r => (n', r)
  | GGo dbn d =>
      if is_primary n then
        let '(n1, id) := tick n in
        let '(d', r, msgs) := inc_value d k i id in
        (sends (put_db n1 dbn d') msgs, r)
      else
        (send_to_primary n ("replicate-increment " +++ dbn +++ " " +++ k +++ " " +++ Z_to_str i), ROk)
  end.
Proof. reflexivity. Qed.

Example secondary_increment_not_applied_locally :
  let n0 := n_set_role (init_node "u" "p" "a" 1 Secondary 0) Secondary in
  let n1 := put_db n0 "d" (empty_db 1 SNone) in
  let '(n2, c) := connect n1 in
  let n3 := put_sess n2 c (mkSess true (Some "d") None None []) in
  n_dbs (fst (handle n3 c (RqIncrement "k" 1))) = n_dbs n3.
Proof. vm_compute. reflexivity. Qed.

Lemma handle_acknowledge_eq n c id nm : handle n c (RqAcknowledge id nm) =
  if negb (s_auth (get_sess n c)) then (n, not_auth)
  else (n_set_pending n (fst (acknowledge (n_pending n) id nm)), ROk).
Proof. reflexivity. Qed.

(* rr: [replicate_request], on top of NodeLemmas.replicate_request_eq / wire *)
Lemma rr_refused n rq sd r : resp_ok r = false -> (forall a b c, r <> RValue a b c) ->
  replicate_request n rq sd r = (n, r).
Proof. intros H Hv. destruct r; try reflexivity; try discriminate. exfalso. eapply Hv. reflexivity. Qed.

Lemma rr_wired n rq sd r m : resp_ok r = true -> wire rq (or_empty sd) = Some m ->
  match sd with Some nm => has_db n nm = true | None => True end ->
  replicate_request n rq sd r = (replicate_web n m, ROk).
Proof.
  intros Hr Hw Hd. rewrite replicate_request_eq, Hw. destruct sd as [nm|]; [rewrite Hd|]; now destruct r.
Qed.

Lemma rr_unwired n rq sd r : wire rq (or_empty sd) = None ->
  fst (replicate_request n rq sd r) = n /\ (sd = None -> replicate_request n rq sd r = (n, r)).
Proof.
  intros Hw. rewrite replicate_request_eq, Hw. split; [|intros ->]; destruct r; try reflexivity.
  all: now destruct (match sd with Some nm => negb (has_db n nm) | None => false end).
Qed.

Lemma rr_rp_fst n req id sd r : fst (replicate_request n (RqReplicateRequest req id) sd r) = n.
Proof. now apply rr_unwired. Qed.
Lemma rr_rp_none n req id r : replicate_request n (RqReplicateRequest req id) None r = (n, r).
Proof. now apply rr_unwired. Qed.

Local Open Scope N_scope.
Lemma key_of_id_in : forall km id k, key_of_id km id = Some k -> In (k, id) km.
Proof.
  intros km id k. unfold key_of_id.
  destruct (filter (fun p : str * N => snd p =? id) km) as [|[k' i] r] eqn:E; [discriminate|].
  intros [= ->].
  assert (H : In (k, i) (filter (fun p : str * N => snd p =? id) km)) by (rewrite E; now left).
  apply filter_In in H. destruct H as [H1 H2]. cbn in H2. apply N.eqb_eq in H2. now subst.
Qed.

Lemma key_of_id_none : forall km id k, key_of_id km id = None -> ~ In (k, id) km.
Proof.
  intros km id k H Hin. unfold key_of_id in H.
  assert (H0 : In (k, id) (filter (fun p : str * N => snd p =? id) km)).
  { apply filter_In. split; [exact Hin|]. cbn. apply N.eqb_refl. }
  destruct (filter (fun p : str * N => snd p =? id) km) as [|[k' i] r]; [inversion H0|discriminate].
Qed.

Lemma key_of_id_app_some : forall km ext id,
  key_of_id km id <> None -> key_of_id (km ++ ext) id = key_of_id km id.
Proof.
  intros km ext id. unfold key_of_id. rewrite filter_app.
  destruct (filter _ km) as [|[k i] r]; [intros H; now destruct H|]. reflexivity.
Qed.

Lemma key_of_id_unique : forall km id k,
  NoDup (map snd km) -> In (k, id) km -> key_of_id km id = Some k.
Proof.
  induction km as [|[k' i'] r IH]; intros id k Hnd Hin; [inversion Hin|].
  unfold key_of_id. cbn [filter snd]. inversion Hnd as [|? ? Hni Hnd']; subst.
  destruct (N.eqb_spec i' id) as [->|Hne].
  - destruct Hin as [E|Hin]; [now injection E as ->|].
    exfalso. apply Hni. change id with (snd (k, id)). now apply in_map.
  - destruct Hin as [E|Hin]; [congruence|]. apply (IH id k Hnd' Hin).
Qed.

(* a property of key maps kept when a fresh key gets the next id: all [key_id] ever does to the map *)
Definition snoc_closed (W : list (str * N) -> Prop) : Prop :=
  forall km key, W km -> ~ In key (map fst km) -> W (km ++ [(key, N.of_nat (length km))]).

Lemma key_id_spec x key x1 kid : key_id x key = (x1, kid) ->
  cn_node x1 = cn_node x /\ cn_clients x1 = cn_clients x /\ cn_dead x1 = cn_dead x /\ cn_log x1 = cn_log x /\
  In (key, kid) (cn_keymap x1) /\
  (exists extra, cn_keymap x1 = cn_keymap x ++ extra) /\
  (forall W, snoc_closed W -> W (cn_keymap x) -> W (cn_keymap x1)).
Proof.
  unfold key_id. destruct (assoc_get String.eqb key (cn_keymap x)) as [id|] eqn:E; intros [= <- <-].
  - do 4 (split; [reflexivity|]).
    split; [now apply str_get_in|].
    split; [exists []; now rewrite app_nil_r|auto].
  - cbn [cn_keymap]. do 4 (split; [reflexivity|]).
    split; [apply in_or_app; right; now left|].
    split; [eexists; reflexivity|]. intros W HW H. apply HW; auto. now apply str_get_none_notin.
Qed.

Lemma db_id_of_some n dbn i : db_id_of n dbn = Some i -> exists d, get_db n dbn = Some d /\ d_id d = i.
Proof. unfold db_id_of. destruct (get_db n dbn) as [d|]; [|discriminate]. intros [= <-]. now exists d. Qed.

(* a record [repl_oplog] writes under op id [id]: it belongs to an existing database; a set or remove
   record carries an id of keys_map, any other a reserved id *)
Definition appended (x x' : cnode) (id : N) (r : oprec) : Prop :=
  r_time r = id /\
  (exists dbn d, get_db (cn_node x) dbn = Some d /\ r_db r = d_id d) /\
  (r_op r <= 1 -> exists k, In (k, r_key r) (cn_keymap x')) /\
  (2 <= r_op r -> r_key r = marker_create \/ r_key r = marker_snapshot).

(* what [repl_oplog] under op id [id] does to a node of the cluster: key map and log grow at the end *)
Definition extends (x x' : cnode) (id : N) : Prop :=
  cn_node x' = cn_node x /\ cn_clients x' = cn_clients x /\ cn_dead x' = cn_dead x /\
  (exists extra, cn_keymap x' = cn_keymap x ++ extra) /\
  (forall W, snoc_closed W -> W (cn_keymap x) -> W (cn_keymap x')) /\
  exists recs, cn_log x' = cn_log x ++ recs /\ Forall (appended x x' id) recs.

Lemma extends_refl x id : extends x x id.
Proof.
  do 3 (split; [reflexivity|]). split; [exists []; now rewrite app_nil_r|]. split; [auto|].
  exists []. split; [now rewrite app_nil_r|constructor].
Qed.

(* one record for an existing database: every branch of [repl_oplog] is a run of these steps, after [key_id]
   for a keyed request *)
Lemma extends_logged x x1 id dbn i kid op : extends x x1 id -> db_id_of (cn_node x) dbn = Some i ->
  (op <= 1 -> exists k, In (k, kid) (cn_keymap x1)) ->
  (2 <= op -> kid = marker_create \/ kid = marker_snapshot) ->
  extends x (log_append x1 (mkRec id kid i op)) id.
Proof.
  intros (Hn & Hc & Hd & Hk & HW & recs & Hl & Hr) Ei Hkey Hm. do 5 (split; [assumption|]).
  destruct (db_id_of_some _ _ _ Ei) as (d & Hdb & <-).
  exists (recs ++ [mkRec id kid (d_id d) op]). cbn [log_append cn_log].
  split; [now rewrite Hl, app_assoc|]. apply Forall_app. split; [exact Hr|]. constructor; [|constructor].
  split; [reflexivity|]. split; [now exists dbn, d|]. now split.
Qed.

Lemma snapshot_fold_extends x id : forall names x0 r0 x' r',
  extends x x0 id -> r0 = None \/ r0 = Some id ->
  fold_left (fun (acc : cnode * option N) nm =>
               let '(x0, r0) := acc in
               match db_id_of (cn_node x0) nm with
               | Some d => (log_append x0 (mkRec id marker_snapshot d 3), r0)
               | None => (x0, None)
               end) names (x0, r0) = (x', r') ->
  extends x x' id /\ (r' = None \/ r' = Some id).
Proof.
  induction names as [|nm names IH]; intros x0 r0 x' r' He Ho H; cbn [fold_left] in H.
  - injection H as <- <-. auto.
  - destruct (db_id_of (cn_node x0) nm) as [i|] eqn:Ei; apply IH in H; auto.
    rewrite (proj1 He) in Ei. apply (extends_logged _ _ _ nm _ _ _ He Ei); [lia|now right].
Qed.

(* the requests logged under a key id: database, key and the record's operation (0 set, 1 remove) *)
Definition keyed_request (rq : request) : option (str * str * N) :=
  match rq with
  | RqReplicateSet dbn key _ _ | RqReplicateIncrement dbn key _ => Some (dbn, key, 0)
  | RqReplicateRemove dbn key => Some (dbn, key, 1)
  | _ => None
  end.

Lemma repl_oplog_keyed x rq id dbn key op : keyed_request rq = Some (dbn, key, op) ->
  op <= 1 /\
  repl_oplog x rq id =
  match db_id_of (cn_node x) dbn with
  | Some d => (log_append (fst (key_id x key)) (mkRec id (snd (key_id x key)) d op), Some id)
  | None => (fst (key_id x key), None)
  end.
Proof.
  destruct rq; intros [= <- <- <-]; (split; [lia|]); cbn [repl_oplog]; now destruct (key_id x _).
Qed.

Theorem repl_oplog_extends x rq id x' o : repl_oplog x rq id = (x', o) ->
  extends x x' id /\ (o = None \/ o = Some id).
Proof.
  intros H. destruct (keyed_request rq) as [[[dbn key] op]|] eqn:K.
  { destruct (repl_oplog_keyed x rq id dbn key op K) as [Hop E]. rewrite E in H. clear E K.
    destruct (key_id x key) as [x1 kid] eqn:Ek. cbn [fst snd] in H.
    destruct (key_id_spec x key x1 kid Ek) as (Hn1 & Hc1 & Hd1 & Hl1 & Hin1 & Hext & Hok1).
    assert (He : extends x x1 id).
    { do 5 (split; [assumption|]). exists []. split; [now rewrite Hl1, app_nil_r|constructor]. }
    destruct (db_id_of (cn_node x) dbn) as [i|] eqn:Ei; injection H as <- <-; (split; [|auto]); [|exact He].
    apply (extends_logged _ _ _ dbn _ _ _ He Ei); [intros _; now exists key|lia]. }
  destruct rq; try discriminate K; unfold repl_oplog in H; try (injection H as <- <-; split; [apply extends_refl|auto]).
  - destruct (db_id_of (cn_node x) name) as [i|] eqn:Ei; injection H as <- <-; (split; [|auto]); [|apply extends_refl].
    apply (extends_logged _ _ _ name _ _ _ (extends_refl x id) Ei); [lia|now left].
  - apply (snapshot_fold_extends x id _ x (Some id)) in H; [exact H|apply extends_refl|auto].
Qed.

Local Open Scope Z_scope.

Lemma key_id_node x key : cn_node (fst (key_id x key)) = cn_node x.
Proof. destruct (key_id x key) as [x1 kid] eqn:E. apply (key_id_spec _ _ _ _ E). Qed.

Lemma repl_oplog_frame x rq id :
  cn_node (fst (repl_oplog x rq id)) = cn_node x /\ cn_clients (fst (repl_oplog x rq id)) = cn_clients x /\
  cn_dead (fst (repl_oplog x rq id)) = cn_dead x /\
  (snd (repl_oplog x rq id) = None \/ snd (repl_oplog x rq id) = Some id).
Proof.
  destruct (repl_oplog x rq id) as [x' o] eqn:H.
  destruct (repl_oplog_extends _ _ _ _ _ H) as ((Hn & Hc & Hd & _) & Ho). auto.
Qed.

Lemma repl_oplog_node x rq id : cn_node (fst (repl_oplog x rq id)) = cn_node x.
Proof. apply repl_oplog_frame. Qed.

Lemma repl_oplog_dead x rq id : cn_dead (fst (repl_oplog x rq id)) = cn_dead x.
Proof. apply repl_oplog_frame. Qed.

Lemma repl_one_cases x msg :
  repl_one x msg = x \/
  exists rq id, let x1 := fst (repl_oplog x rq id) in
    repl_one x msg = x1 \/
    n_role (cn_node x1) <> Secondary /\
    exists i req all, repl_one x msg = cn_set_node x1 (fan_out (cn_node x1) i req all).
Proof.
  unfold repl_one. destruct (cn_dead x); auto.
  destruct (parse_request msg) as [rq| |]; auto.
  destruct rq; auto.
  destruct (parse_request request_str) as [rq| |]; auto.
  right. exists rq, opp_id. destruct (repl_oplog x rq opp_id) as [x1 oid]. cbn [fst].
  destruct (n_role (cn_node x1)) eqn:E; auto; destruct oid; auto; right; (split; [discriminate|eauto]).
Qed.

Theorem secondary_repl_one_node x msg :
  n_role (cn_node x) = Secondary -> cn_node (repl_one x msg) = cn_node x.
Proof.
  intros Hr. destruct (repl_one_cases x msg) as [->|(rq & id & [->|(Hs & _)])]; auto using repl_oplog_node.
  now rewrite repl_oplog_node in Hs.
Qed.

Theorem secondary_never_fans_out x msg :
  n_role (cn_node x) = Secondary ->
  let x' := repl_one x msg in
  n_members (cn_node x') = n_members (cn_node x) /\ n_pending (cn_node x') = n_pending (cn_node x).
Proof. intros Hr. cbv zeta. now rewrite secondary_repl_one_node. Qed.

Theorem secondary_poll_repl_node x :
  n_role (cn_node x) = Secondary -> cn_node (poll_repl x) = n_set_repl (cn_node x) [].
Proof.
  intros Hr. unfold poll_repl.
  set (x0 := cn_set_node x (n_set_repl (cn_node x) [])).
  assert (H : forall q y, n_role (cn_node y) = Secondary -> cn_node (fold_left repl_one q y) = cn_node y).
  { induction q as [|m q IH]; intros y Hy; cbn [fold_left]; auto.
    rewrite IH; rewrite secondary_repl_one_node; auto. }
  rewrite H; auto.
Qed.

Theorem secondary_poll_never_fans_out x :
  n_role (cn_node x) = Secondary ->
  let x' := poll_repl x in
  n_members (cn_node x') = n_members (cn_node x) /\ n_pending (cn_node x') = n_pending (cn_node x) /\
  n_dbs (cn_node x') = n_dbs (cn_node x) /\ n_repl (cn_node x') = [].
Proof. intros Hr. cbv zeta. rewrite secondary_poll_repl_node by assumption. auto. Qed.

Local Notation member := (str * (role * list str))%type.

Definition is_target (addr : str) (all : bool) (m : member) : bool :=
  negb (String.eqb (fst m) addr) && (all || role_eqb (fst (snd m)) Secondary).

Definition targets_of (addr : str) (all : bool) (ms : list member) : list str :=
  map fst (filter (is_target addr all) ms).

(* the members fan_out sends to, in table order *)
Definition targets (n : node) (all : bool) : list str := targets_of (n_addr n) all (n_members n).

(* the text first registered under [id] ([req] when [id] is not pending) *)
Definition reg_text (p : pstate) (id : N) (req : str) : str :=
  match assoc_get N.eqb id p with Some m => p_msg m | None => req end.

Definition reg_all (p : pstate) (id : N) (req : str) (ts : list str) : pstate :=
  fold_left (fun p m => fst (register p id req m)) ts p.

Definition push_line (addr : str) (all : bool) (txt : str) (m : member) : member :=
  if is_target addr all m then (fst m, (fst (snd m), if is_nosender (snd (snd m)) then snd (snd m) else snd (snd m) ++ [txt])) else m.

Definition fan_step (id : N) (req : str) (all : bool) (n0 : node) (m : member) : node :=
  let '(name, (r, _)) := m in
  if String.eqb name (n_addr n0) then n0
  else if all || role_eqb r Secondary then
    let '(p', txt) := register (n_pending n0) id req name in
    push_member (n_set_pending n0 p') name txt
  else n0.

Lemma fan_out_fold n id req all : fan_out n id req all = fold_left (fan_step id req all) (n_members n) n.
Proof. reflexivity. Qed.

Lemma register_text p id req node : snd (register p id req node) = message_to_replicate id (reg_text p id req).
Proof. unfold register, reg_text. destruct (assoc_get N.eqb id p); reflexivity. Qed.

Lemma register_reg_text p id req node : reg_text (fst (register p id req node)) id req = reg_text p id req.
Proof.
  unfold register, reg_text. destruct (assoc_get N.eqb id p) as [m|] eqn:E; cbn [fst];
    rewrite N_get_set_same; reflexivity.
Qed.

Lemma node_eta n : n_set_members (n_set_pending n (n_pending n)) (n_members n) = n.
Proof. destruct n; reflexivity. Qed.

Lemma fan_step_alt id req all n0 (m : member) :
  fan_step id req all n0 m =
  if is_target (n_addr n0) all m then
    push_member (n_set_pending n0 (fst (register (n_pending n0) id req (fst m)))) (fst m)
                (snd (register (n_pending n0) id req (fst m)))
  else n0.
Proof.
  destruct m as [name [r q]]. unfold fan_step, is_target. cbn [fst snd].
  destruct (String.eqb name (n_addr n0)); cbn [negb andb]; auto.
  destruct (all || role_eqb r Secondary); auto.
  destruct (register (n_pending n0) id req name); reflexivity.
Qed.

Lemma targets_of_cons addr all (m : member) l :
  targets_of addr all (m :: l) =
  if is_target addr all m then fst m :: targets_of addr all l else targets_of addr all l.
Proof. unfold targets_of. cbn [filter]. destruct (is_target addr all m); reflexivity. Qed.

Lemma fan_fold id req all l : forall P n0,
  n_members n0 = P ++ l -> NoDup (map fst (P ++ l)) ->
  fold_left (fan_step id req all) l n0 =
  n_set_members
    (n_set_pending n0 (reg_all (n_pending n0) id req (targets_of (n_addr n0) all l)))
    (P ++ map (push_line (n_addr n0) all (message_to_replicate id (reg_text (n_pending n0) id req))) l).
Proof.
  induction l as [|[name [r q]] l IH]; intros P n0 Hm Hnd.
  - cbn [fold_left map targets_of filter reg_all]. rewrite <- Hm. symmetry. apply node_eta.
  - assert (Hnin : ~ In name (map fst P)).
    { rewrite map_app in Hnd. apply NoDup_remove_2 in Hnd. intros Hin. apply Hnd.
      apply in_or_app. now left. }
    assert (Hskip : fold_left (fan_step id req all) l n0 =
      n_set_members
        (n_set_pending n0 (reg_all (n_pending n0) id req (targets_of (n_addr n0) all l)))
        ((P ++ [(name, (r, q))]) ++
         map (push_line (n_addr n0) all (message_to_replicate id (reg_text (n_pending n0) id req))) l)).
    { apply IH; rewrite <- app_assoc; assumption. }
    rewrite <- app_assoc in Hskip.
    cbn [fold_left map]. rewrite fan_step_alt, targets_of_cons. unfold push_line at 1.
    destruct (is_target (n_addr n0) all (name, (r, q))) eqn:Et; [|exact Hskip].
    cbn [fst snd reg_all fold_left].
    pose proof (register_text (n_pending n0) id req name) as Htxt.
    pose proof (register_reg_text (n_pending n0) id req name) as Hrt.
    destruct (register (n_pending n0) id req name) as [p' txt]. cbn [fst snd] in *.
    unfold push_member. cbn [n_members n_set_pending]. rewrite Hm, (get_app_skip _ String.eqb_spec) by assumption.
    destruct (is_nosender q) eqn:Ens.
    { rewrite (IH (P ++ [(name, (r, q))])).
      + cbn [n_pending n_addr n_set_members n_set_pending]. rewrite Hrt, <- app_assoc. reflexivity.
      + cbn [n_members n_set_pending]. rewrite Hm. now rewrite <- app_assoc.
      + rewrite <- app_assoc. cbn [app]. exact Hnd. }
    rewrite (set_app_skip _ String.eqb_spec) by assumption.
    rewrite (IH (P ++ [(name, (r, q ++ [txt]))])).
    + cbn [n_pending n_addr n_set_members n_set_pending]. rewrite Hrt, <- app_assoc, Htxt. reflexivity.
    + cbn [n_members n_set_members]. now rewrite <- app_assoc.
    + rewrite <- app_assoc. cbn [app]. rewrite map_app in *. exact Hnd.
Qed.

Theorem fan_out_exact n id req all : NoDup (map fst (n_members n)) ->
  fan_out n id req all =
  n_set_members
    (n_set_pending n (reg_all (n_pending n) id req (targets n all)))
    (map (push_line (n_addr n) all (message_to_replicate id (reg_text (n_pending n) id req))) (n_members n)).
Proof. intros Hnd. rewrite fan_out_fold. apply (fan_fold id req all (n_members n) [] n); auto. Qed.

Lemma in_targets_of addr all ms name : NoDup (map fst ms) ->
  (In name (targets_of addr all ms) <->
   exists r q, assoc_get String.eqb name ms = Some (r, q) /\ name <> addr /\ (all = true \/ r = Secondary)).
Proof.
  intros Hnd. unfold targets_of. rewrite in_map_iff. split.
  - intros ([nm [r q]] & <- & Hin). apply filter_In in Hin as [Hin Ht]. cbn [fst].
    exists r, q. split; [now apply str_in_get|].
    unfold is_target in Ht. cbn [fst snd] in Ht. apply andb_true_iff in Ht as [H1 H2].
    apply negb_true_iff in H1. split; [now apply String.eqb_neq|].
    apply orb_true_iff in H2 as [H2|H2]; auto. right. now destruct r.
  - intros (r & q & Hg & Hne & Hr). exists (name, (r, q)). split; auto.
    apply filter_In. split; [now apply str_get_in|].
    unfold is_target. cbn [fst snd]. apply andb_true_iff. split.
    + apply negb_true_iff. now apply String.eqb_neq.
    + destruct Hr as [->| ->]; auto. apply orb_true_r.
Qed.

(* [fan_out_exact] read member by member *)
Theorem fan_out_spec n id req all : NoDup (map fst (n_members n)) ->
  let n' := fan_out n id req all in
  let line := message_to_replicate id (reg_text (n_pending n) id req) in
  (forall name,
     match assoc_get String.eqb name (n_members n) with
     | Some (r, q) =>
         assoc_get String.eqb name (n_members n') =
         Some (r, if negb (String.eqb name (n_addr n)) && (all || role_eqb r Secondary)
                  then (if is_nosender q then q else q ++ [line]) else q)
     | None => assoc_get String.eqb name (n_members n') = None
     end) /\
  map fst (n_members n') = map fst (n_members n) /\
  n_pending n' = fold_left (fun p m => fst (register p id req m)) (targets n all) (n_pending n) /\
  (forall name, In name (targets n all) <->
     exists r q, assoc_get String.eqb name (n_members n) = Some (r, q) /\
                 name <> n_addr n /\ (all = true \/ r = Secondary)) /\
  n_dbs n' = n_dbs n /\ n_sess n' = n_sess n /\ n_role n' = n_role n /\ n_clock n' = n_clock n /\
  n_addr n' = n_addr n /\ n_repl n' = n_repl n /\ n_sup n' = n_sup n /\ n_snap n' = n_snap n /\
  n_idmap n' = n_idmap n.
Proof.
  intros Hnd. cbv zeta. rewrite (fan_out_exact n id req all Hnd).
  cbn [n_members n_pending n_set_members n_set_pending n_dbs n_sess n_role n_clock n_addr n_repl n_sup n_snap n_idmap].
  split; [|split; [|split; [reflexivity|split; [|repeat split; reflexivity]]]].
  - intros name. rewrite (get_map _ String.eqb_spec).
    2:{ intros m. unfold push_line. destruct (is_target _ _ m); reflexivity. }
    destruct (assoc_get String.eqb name (n_members n)) as [[r q]|]; auto.
    unfold push_line, is_target. cbn [fst snd].
    destruct (negb (String.eqb name (n_addr n)) && (all || role_eqb r Secondary)); reflexivity.
  - rewrite map_map. apply map_ext. intros m. unfold push_line. destruct (is_target _ _ m); reflexivity.
  - intros name. now apply in_targets_of.
Qed.

(* operations on op [id] only look at the entry of [id]: restrict the table to it *)
Definition only (id : N) (s : pstate) : pstate :=
  match assoc_get N.eqb id s with Some m => [(id, m)] | None => [] end.

Lemma only_get id s : assoc_get N.eqb id (only id s) = assoc_get N.eqb id s.
Proof.
  unfold only. destruct (assoc_get N.eqb id s) eqn:E; cbn; auto. now rewrite N.eqb_refl.
Qed.

Lemma only_set id m s : only id (assoc_set N.eqb id m s) = [(id, m)].
Proof. unfold only. now rewrite N_get_set_same. Qed.

Lemma only_del id s : only id (assoc_del N.eqb id s) = [].
Proof. unfold only. now rewrite get_del_same. Qed.

Lemma set_only id m s : assoc_set N.eqb id m (only id s) = [(id, m)].
Proof.
  unfold only. destruct (assoc_get N.eqb id s); cbn; auto. now rewrite N.eqb_refl.
Qed.

Lemma del_only id s : assoc_del N.eqb id (only id s) = [].
Proof.
  unfold only. destruct (assoc_get N.eqb id s); cbn; auto. now rewrite N.eqb_refl.
Qed.

Lemma is_pending_only id s : is_pending (only id s) id = is_pending s id.
Proof. unfold is_pending. now rewrite only_get. Qed.

Lemma only_register id s msg node :
  only id (fst (register s id msg node)) = fst (register (only id s) id msg node).
Proof.
  unfold register. rewrite only_get.
  destruct (assoc_get N.eqb id s); cbn [fst]; now rewrite only_set, set_only.
Qed.

Lemma only_acknowledge id s node :
  only id (fst (acknowledge s id node)) = fst (acknowledge (only id s) id node) /\
  snd (acknowledge s id node) = snd (acknowledge (only id s) id node).
Proof.
  unfold acknowledge. rewrite only_get.
  destruct (assoc_get N.eqb id s) as [m|] eqn:E; cbn [fst snd].
  - destruct (ack_msg m node) as [m' r]. destruct r; [destruct (full_ack m')|]; cbn [fst snd];
      rewrite ?only_set, ?set_only, ?only_del, ?del_only; auto.
  - split; auto.
Qed.

Definition ev_id (e : pev) : N := match e with Reg id _ _ => id | Ack id _ => id end.

Lemma only_run id evs : Forall (fun e => ev_id e = id) evs -> forall s,
  only id (fold_left (fun s e => fst (pstep s e)) evs s) =
  fold_left (fun s e => fst (pstep s e)) evs (only id s).
Proof.
  induction 1 as [|e evs He _ IH]; intros s; cbn [fold_left]; auto.
  rewrite IH. f_equal. destruct e as [i msg node | i node]; cbn [ev_id] in He; subst i; cbn [pstep].
  - pose proof (only_register id s msg node) as H.
    destruct (register s id msg node), (register (only id s) id msg node). exact H.
  - pose proof (only_acknowledge id s node) as [H _].
    destruct (acknowledge s id node), (acknowledge (only id s) id node). exact H.
Qed.

Definition reg_evs (id : N) (req : str) (ts : list str) : list pev := map (fun m => Reg id req m) ts.
Definition ack_evs (id : N) (acks : list str) : list pev := map (fun m => Ack id m) acks.

Lemma reg_all_run id req ts : forall p,
  reg_all p id req ts = fold_left (fun s e => fst (pstep s e)) (reg_evs id req ts) p.
Proof.
  unfold reg_all, reg_evs. induction ts as [|t ts IH]; intros p; cbn [fold_left map]; auto.
  rewrite IH. f_equal. cbn [pstep]. now destruct (register p id req t).
Qed.

Definition ack_all (p : pstate) (id : N) (acks : list str) : pstate :=
  fold_left (fun p m => fst (acknowledge p id m)) acks p.

Lemma ack_all_run id acks : forall p,
  ack_all p id acks = fold_left (fun s e => fst (pstep s e)) (ack_evs id acks) p.
Proof.
  unfold ack_all, ack_evs. induction acks as [|t ts IH]; intros p; cbn [fold_left map]; auto.
  rewrite IH. f_equal. cbn [pstep]. now destruct (acknowledge p id t).
Qed.

Lemma reg_evs_wf id req ts : forall t,
  NoDup (outstanding t id ++ ts) ->
  wf_from t (reg_evs id req ts) = true /\
  outstanding (fold_left sstep (reg_evs id req ts) t) id = outstanding t id ++ ts.
Proof.
  unfold reg_evs. induction ts as [|x ts IH]; intros t Hnd; cbn [map wf_from fold_left].
  - now rewrite app_nil_r.
  - assert (Hx : mem_str x (outstanding t id) = false).
    { destruct (mem_str x (outstanding t id)) eqn:E; auto. apply mem_str_in in E.
      apply NoDup_remove_2 in Hnd. exfalso. apply Hnd. apply in_or_app. now left. }
    assert (Ho : outstanding (sstep t (Reg id req x)) id = outstanding t id ++ [x]).
    { cbn [sstep]. unfold sreg. rewrite Hx, outstanding_set, N.eqb_refl. reflexivity. }
    rewrite Hx. cbn [negb andb].
    destruct (IH (sstep t (Reg id req x))) as [H1 H2].
    { rewrite Ho, <- app_assoc. exact Hnd. }
    split; auto. rewrite H2, Ho, <- app_assoc. reflexivity.
Qed.

Lemma ack_evs_wf id acks : forall t, wf_from t (ack_evs id acks) = true.
Proof.
  unfold ack_evs. induction acks as [|x acks IH]; intros t; cbn [map wf_from andb]; [reflexivity | apply IH].
Qed.

Lemma ack_evs_outstanding id acks x : forall t,
  mem_str x (outstanding (fold_left sstep (ack_evs id acks) t) id) =
  mem_str x (outstanding t id) && negb (mem_str x acks).
Proof.
  unfold ack_evs. induction acks as [|a acks IH]; intros t; cbn [map fold_left].
  - cbn. now rewrite andb_true_r.
  - rewrite IH. cbn [sstep]. rewrite spec_ack, N.eqb_refl. cbn [andb].
    unfold mem_str at 4. cbn [existsb]. fold (mem_str x acks).
    rewrite negb_orb, andb_assoc. reflexivity.
Qed.

Lemma targets_nodup n all : NoDup (map fst (n_members n)) -> NoDup (targets n all).
Proof. intros H. unfold targets, targets_of. now apply nodup_filter_keys. Qed.

(* the event history performed on op [id] by fan_out and later acknowledgements *)
Theorem fan_out_wf n id req all acks :
  NoDup (map fst (n_members n)) -> is_pending (n_pending n) id = false ->
  let evs := reg_evs id req (targets n all) ++ ack_evs id acks in
  wf evs = true /\
  only id (ack_all (n_pending (fan_out n id req all)) id acks) = prun evs /\
  forall x, mem_str x (outstanding (srun evs) id) = mem_str x (targets n all) && negb (mem_str x acks).
Proof.
  intros Hnd Hfresh. cbv zeta.
  pose proof (targets_nodup n all Hnd) as Htn.
  destruct (reg_evs_wf id req (targets n all) []) as [W1 O1]; [exact Htn|].
  split; [|split].
  - unfold wf. rewrite wf_from_app, W1. apply ack_evs_wf.
  - rewrite (fan_out_exact n id req all Hnd). cbn [n_pending n_set_members n_set_pending].
    rewrite ack_all_run, reg_all_run, <- fold_left_app.
    rewrite only_run.
    + unfold prun. f_equal. unfold only. unfold is_pending in Hfresh.
      destruct (assoc_get N.eqb id (n_pending n)); [discriminate|reflexivity].
    + apply Forall_app. unfold reg_evs, ack_evs. split; apply Forall_forall; intros e He;
        apply in_map_iff in He as (m & <- & _); reflexivity.
  - intros x. unfold srun. rewrite fold_left_app, ack_evs_outstanding, O1. reflexivity.
Qed.

(* op [id] stays pending exactly while some targeted member has not acknowledged;
   [acks] is ANY list of acknowledging names (any order, duplicates and strangers allowed) *)
Theorem fan_out_pending_iff n id req all acks :
  NoDup (map fst (n_members n)) -> is_pending (n_pending n) id = false ->
  (is_pending (ack_all (n_pending (fan_out n id req all)) id acks) id = true <->
   exists m, In m (targets n all) /\ ~ In m acks).
Proof.
  intros Hnd Hfresh.
  destruct (fan_out_wf n id req all acks Hnd Hfresh) as (W & Hrun & Hout).
  rewrite <- is_pending_only, Hrun, pending_iff by exact W.
  set (o := outstanding (srun (reg_evs id req (targets n all) ++ ack_evs id acks)) id) in *.
  split.
  - intros H. destruct o as [|m o'] eqn:Eo; [discriminate|].
    exists m. specialize (Hout m). cbn [mem_str existsb] in Hout. rewrite String.eqb_refl in Hout.
    cbn [orb] in Hout. symmetry in Hout. apply andb_true_iff in Hout as [H1 H2].
    apply mem_str_in in H1. split; auto. intros Hin. apply mem_str_in in Hin. now rewrite Hin in H2.
  - intros (m & H1 & H2). specialize (Hout m).
    apply mem_str_in in H1. rewrite H1 in Hout.
    destruct (mem_str m acks) eqn:E; [apply mem_str_in in E; contradiction|].
    cbn in Hout. destruct o; [discriminate Hout | reflexivity].
Qed.

Corollary fan_out_pending n id req all :
  NoDup (map fst (n_members n)) -> is_pending (n_pending n) id = false -> targets n all <> [] ->
  is_pending (n_pending (fan_out n id req all)) id = true.
Proof.
  intros Hnd Hfresh Hne.
  apply (fan_out_pending_iff n id req all [] Hnd Hfresh).
  destruct (targets n all) as [|m ts]; [congruence|]. exists m. split; [now left | auto].
Qed.

Corollary fan_out_no_targets n id req all :
  NoDup (map fst (n_members n)) -> is_pending (n_pending n) id = false -> targets n all = [] ->
  is_pending (n_pending (fan_out n id req all)) id = false.
Proof.
  intros Hnd Hfresh He.
  destruct (is_pending (n_pending (fan_out n id req all)) id) eqn:E; auto.
  apply (fan_out_pending_iff n id req all [] Hnd Hfresh) in E as (m & Hin & _).
  rewrite He in Hin. destruct Hin.
Qed.

Corollary fan_out_all_acked n id req all acks :
  NoDup (map fst (n_members n)) -> is_pending (n_pending n) id = false ->
  Permutation acks (targets n all) ->
  is_pending (fold_left (fun p m => fst (acknowledge p id m)) acks (n_pending (fan_out n id req all))) id = false.
Proof.
  intros Hnd Hfresh Hp. change (fold_left _ acks ?p) with (ack_all p id acks).
  destruct (is_pending (ack_all _ id acks) id) eqn:E; auto.
  apply (fan_out_pending_iff n id req all acks Hnd Hfresh) in E as (m & Hin & Hn).
  exfalso. apply Hn. eapply Permutation_in; [apply Permutation_sym; exact Hp | exact Hin].
Qed.

Corollary fan_out_missing_ack n id req all acks m :
  NoDup (map fst (n_members n)) -> is_pending (n_pending n) id = false ->
  In m (targets n all) -> ~ In m acks ->
  is_pending (ack_all (n_pending (fan_out n id req all)) id acks) id = true.
Proof. intros Hnd Hfresh H1 H2. apply fan_out_pending_iff; eauto. Qed.

(* a re-used (still pending) op id: the line carries the OLD text, not the new request *)
Example fan_out_reused_id_sends_old_text :
  let n0 := init_node "u" "p" "a" 1 Primary 0 in
  let n1 := n_set_members n0 [("a", (Primary, [])); ("b", (Secondary, []))] in
  let n2 := fan_out n1 7 "set k old" false in
  let n3 := fan_out n2 7 "set k new" false in
  assoc_get String.eqb "b" (n_members n3) =
  Some (Secondary, ["rp 7 set k old"; "rp 7 set k old"]).
Proof. vm_compute. reflexivity. Qed.

Lemma get_cn_put_same c nm x : get_cn (put_cn c nm x) nm = Some x.
Proof. unfold get_cn, put_cn. cbn [c_nodes]. apply str_get_set_same. Qed.
Lemma get_cn_put_other c nm x nm' : nm' <> nm -> get_cn (put_cn c nm x) nm' = get_cn c nm'.
Proof. intros H. unfold get_cn, put_cn. cbn [c_nodes]. now apply str_get_set_other. Qed.

Lemma links_set_same c i l : (i < length (c_links c))%nat -> nth_error (c_links (set_link c i l)) i = Some l.
Proof. intros H. unfold set_link. cbn [c_links]. rewrite nth_error_list_update, Nat.eqb_refl. apply Nat.ltb_lt in H. now rewrite H. Qed.
Lemma links_set_other c i l j : j <> i -> nth_error (c_links (set_link c i l)) j = nth_error (c_links c) j.
Proof. intros H. unfold set_link. cbn [c_links]. rewrite nth_error_list_update. apply Nat.eqb_neq in H. now rewrite H. Qed.

Definition fan_all (r : role) : bool := match r with StartingUp => true | _ => false end.

(* a live node that is not a secondary: the queued line "rp <id> <req>" is fanned out under
   [id] with the request text [req] (to the secondaries; to everybody while starting up) *)
Theorem leader_repl_one x id req rq :
  cn_dead x = false -> n_role (cn_node x) <> Secondary ->
  (id < 2 ^ 64)%N -> req <> "" -> no_semi_end req -> parse_request req = POk rq ->
  snd (repl_oplog x rq id) <> None ->
  cn_node (repl_one x ("rp " +++ N_to_str id +++ " " +++ req)) =
    fan_out (cn_node x) id req (fan_all (n_role (cn_node x))) /\
  cn_dead (repl_one x ("rp " +++ N_to_str id +++ " " +++ req)) = false.
Proof.
  intros Hd Hr Hid Hne Hs Hp Ho. unfold repl_one.
  rewrite Hd, rp_roundtrip, Hp by assumption.
  destruct (repl_oplog_frame x rq id) as (Hn & _ & Hdd & Hi).
  destruct (repl_oplog x rq id) as [x1 oid]. cbn [fst snd] in *.
  destruct Hi as [Hi|Hi]; [contradiction|]. subst oid. rewrite Hn.
  destruct (n_role (cn_node x)); cbn [fan_all]; try congruence; cbn [cn_set_node cn_node cn_dead]; rewrite Hdd; auto.
Qed.

(* "Missing DB Id": the line is dropped and the thread goes on: the [fix:] recorded at Model.Cluster.repl_one
   (unrepaired nun-db panics here, which ends the replication thread) *)
Theorem leader_repl_one_missing_db x id req rq :
  cn_dead x = false -> n_role (cn_node x) <> Secondary ->
  (id < 2 ^ 64)%N -> req <> "" -> no_semi_end req -> parse_request req = POk rq ->
  snd (repl_oplog x rq id) = None ->
  cn_dead (repl_one x ("rp " +++ N_to_str id +++ " " +++ req)) = false /\
  cn_node (repl_one x ("rp " +++ N_to_str id +++ " " +++ req)) = cn_node x.
Proof.
  intros Hd Hr Hid Hne Hs Hp Ho. unfold repl_one.
  rewrite Hd, rp_roundtrip, Hp by assumption.
  destruct (repl_oplog_frame x rq id) as (Hn & _ & Hdd & _).
  destruct (repl_oplog x rq id) as [x1 oid]. cbn [fst snd] in *. subst oid. rewrite Hn.
  destruct (n_role (cn_node x)); try congruence; cbn [cn_node cn_dead]; rewrite Hdd; auto.
Qed.

Corollary fanned_line_parses n id req :
  (id < 2 ^ 64)%N -> reg_text (n_pending n) id req <> "" -> no_semi_end (reg_text (n_pending n) id req) ->
  parse_request (message_to_replicate id (reg_text (n_pending n) id req)) =
  POk (RqReplicateRequest (reg_text (n_pending n) id req) id).
Proof. apply rp_roundtrip. Qed.
