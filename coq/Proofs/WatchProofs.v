(* C03: watchers get every committed change, only committed changes,
   and end up current (sequential executions). *)
From NunDB Require Import Model.Base Model.Pending Model.Parse Model.Node Proofs.ListLemmas Proofs.AssocLemmas Proofs.StrLemmas Proofs.NodeLemmas Proofs.DbProofs.
From Coq Require Import Sorting.Sorted.
Local Open Scope Z_scope.

(* number of subscriptions session s holds on key k of database d *)
Definition nsubs (d : db) (k : str) (s : nat) : nat := count_occ Nat.eq_dec (watchers_of d k) s.
Definition change_lines (k v : str) (ver : Z) : list str :=
  ["changed " +++ k +++ " " +++ v +++ nlS; "changed-version " +++ k +++ " " +++ Z_to_str ver +++ " " +++ v +++ nlS].

Definition proj (s : nat) (msgs : list (nat * str)) : list str :=
  map snd (filter (fun p => Nat.eqb (fst p) s) msgs).

Definition removed_line (k : str) : str := "removed " +++ k +++ nlS.

Lemma proj_nil s : proj s [] = [].
Proof. reflexivity. Qed.

Lemma proj_app s a b : proj s (a ++ b) = proj s a ++ proj s b.
Proof. unfold proj. now rewrite filter_app, map_app. Qed.

Lemma proj_cons s p r : proj s (p :: r) = (if Nat.eqb (fst p) s then [snd p] else []) ++ proj s r.
Proof. unfold proj. cbn [filter]. destruct (Nat.eqb (fst p) s); reflexivity. Qed.

Lemma proj_map1 l s a :
  proj s (map (fun x => (x, a)) l) = repeat a (count_occ Nat.eq_dec l s).
Proof.
  induction l as [|x l IH]; [reflexivity|].
  cbn [map]. rewrite proj_cons, IH. cbn [fst snd].
  destruct (Nat.eqb_spec x s) as [->|Hne].
  - rewrite count_occ_cons_eq by reflexivity. reflexivity.
  - rewrite count_occ_cons_neq by assumption. reflexivity.
Qed.

Lemma proj_notify d k v ver s :
  proj s (notify_msgs d k v ver) = concat (repeat (change_lines k v ver) (nsubs d k s)).
Proof. unfold proj, notify_msgs, change_lines, nsubs. apply msgs_for_flat2. Qed.

Lemma nsubs_pos_in d k s : In s (watchers_of d k) <-> (nsubs d k s > 0)%nat.
Proof. unfold nsubs. apply count_occ_In. Qed.

Lemma put_value_watch d k v : d_watch (put_value d k v) = d_watch d.
Proof. reflexivity. Qed.

Lemma nsubs_watch_eq d d' : d_watch d' = d_watch d -> forall k s, nsubs d' k s = nsubs d k s.
Proof. intros H k s. unfold nsubs, watchers_of. now rewrite H. Qed.

(* an accepted write notifies every subscription of the key, twice (plain and versioned
   line), with the value written and the version stored; it leaves d_watch alone *)
Theorem set_value_notifies d ch d' k v msgs :
  set_value d ch = (d', RSet k v, msgs) ->
  d_watch d' = d_watch d /\
  exists nv, get_value d' (c_key ch) = Some nv /\ v_val nv = c_val ch /\
    forall s, proj s msgs =
              concat (repeat (change_lines (c_key ch) (c_val ch) (v_ver nv)) (nsubs d (c_key ch) s)).
Proof.
  intros H. split.
  - pose proof (set_value_frame' _ _ _ _ _ H) as W. now rewrite W.
  - revert H. unfold set_value.
    destruct (get_value d (c_key ch)) as [old|].
    + destruct (_ && _); [discriminate|].
      intros [= <- _ _ <-]. eexists. split; [apply gv_put_same|]. split; [reflexivity|].
      intros s. cbn [v_ver]. apply proj_notify.
    + intros [= <- _ _ <-]. eexists. split; [apply gv_put_same|]. split; [reflexivity|].
      intros s. cbn [v_ver]. apply proj_notify.
Qed.

Theorem set_value_refused_silent d ch d' key ov ver old ch0 st msgs :
  set_value d ch = (d', RVersionError key ov ver old ch0 st, msgs) -> msgs = [] /\ d' = d.
Proof.
  intros H. destruct (set_value_refused _ _ _ _ _ H) as (-> & -> & _); [discriminate|auto].
Qed.

Theorem remove_value_notifies d key d' msgs :
  key <> "$$token" -> remove_value d key = (d', ROk, msgs) ->
  d_watch d' = d_watch d /\
  forall s, proj s msgs = repeat (removed_line key) (nsubs d key s).
Proof.
  intros Hne H. split.
  - pose proof (remove_value_frame' _ _ _ _ _ H) as W. now rewrite W.
  - revert H. unfold remove_value.
    destruct (String.eqb_spec key "$$token"); [contradiction|].
    intros [= _ <-] s. apply proj_map1.
Qed.

Theorem remove_value_refused_silent d key d' m msgs :
  remove_value d key = (d', RError m, msgs) -> msgs = [] /\ d' = d /\ key = "$$token".
Proof.
  unfold remove_value. destruct (String.eqb_spec key "$$token"); [|discriminate].
  intros [= <- _ <-]. auto.
Qed.

Theorem inc_value_notifies d key inc opp d' msgs :
  inc_value d key inc opp = (d', ROk, msgs) ->
  d_watch d' = d_watch d /\
  exists nv, get_value d' key = Some nv /\
    forall s, proj s msgs = concat (repeat (change_lines key (v_val nv) (-1)) (nsubs d key s)).
Proof.
  intros H. split.
  - pose proof (inc_value_frame' _ _ _ _ _ _ _ H) as W. now rewrite W.
  - revert H. unfold inc_value.
    destruct (parse_i32 _); [|discriminate].
    destruct (_ && _); [|discriminate].
    intros [= <- <-]. eexists. split; [apply gv_put_same|].
    intros s. rewrite proj_notify.
    destruct (get_value d key); reflexivity.
Qed.

Theorem inc_value_refused_silent d key inc opp d' m msgs :
  inc_value d key inc opp = (d', RError m, msgs) -> msgs = [] /\ d' = d.
Proof.
  destruct (inc_value_cases d key inc opp) as [(d1 & m1 & E)|E]; rewrite E; now intros [= <- _ <-].
Qed.

Theorem nsubs_watch_key d k c k' s :
  nsubs (watch_key d k c) k' s =
  (nsubs d k' s + (if String.eqb k k' && Nat.eqb s c then 1 else 0))%nat.
Proof.
  unfold nsubs. rewrite watchers_watch_key.
  destruct (String.eqb_spec k k') as [<-|Hne]; cbn [andb]; [|lia].
  rewrite count_occ_app. f_equal.
  destruct (Nat.eqb_spec s c) as [->|Hsc].
  - now rewrite count_occ_cons_eq.
  - rewrite count_occ_cons_neq by congruence. reflexivity.
Qed.

Theorem nsubs_unwatch_key d k c k' s :
  nsubs (unwatch_key d k c) k' s =
  if String.eqb k k' && Nat.eqb s c then 0%nat else nsubs d k' s.
Proof.
  unfold nsubs. rewrite watchers_unwatch_key.
  destruct (String.eqb_spec k k') as [<-|Hne]; cbn [andb]; [|reflexivity].
  apply count_occ_filter_negb_eqb.
Qed.

Lemma nsubs_unwatch_fold_other c k s : s <> c -> forall ks d,
  nsubs (fold_left (fun d k => unwatch_key d k c) ks d) k s = nsubs d k s.
Proof.
  intros Hne. induction ks as [|k0 r IH]; intros d; cbn [fold_left]; [reflexivity|].
  rewrite IH, nsubs_unwatch_key.
  destruct (Nat.eqb_spec s c); [contradiction|]. now rewrite andb_false_r.
Qed.

Lemma nsubs_unwatch_fold_self c k : forall ks d,
  In k ks \/ nsubs d k c = 0%nat ->
  nsubs (fold_left (fun d k => unwatch_key d k c) ks d) k c = 0%nat.
Proof.
  induction ks as [|k0 r IH]; intros d H; cbn [fold_left].
  - destruct H as [[]|H]; exact H.
  - apply IH. rewrite nsubs_unwatch_key, Nat.eqb_refl, andb_true_r.
    destruct (String.eqb_spec k0 k) as [->|Hne]; [now right|].
    destruct H as [[E|Hin]|H0]; [contradiction | now left | now right].
Qed.

Lemma nsubs_key_or_zero d k c : In k (map fst (d_watch d)) \/ nsubs d k c = 0%nat.
Proof.
  unfold nsubs, watchers_of.
  destruct (assoc_get String.eqb k (d_watch d)) as [l|] eqn:E.
  - left. apply str_get_in in E.
    apply (in_map fst) in E. exact E.
  - right. reflexivity.
Qed.

(* the fold runs over the keys of d_watch only; a key outside it has no subscriber
   ([nsubs_key_or_zero]), so every subscription of c is reached *)
Theorem nsubs_unwatch_all d c k s :
  nsubs (unwatch_all d c) k s = if Nat.eqb s c then 0%nat else nsubs d k s.
Proof.
  unfold unwatch_all. destruct (Nat.eqb_spec s c) as [->|Hne].
  - apply nsubs_unwatch_fold_self, nsubs_key_or_zero.
  - now apply nsubs_unwatch_fold_other.
Qed.

Lemma watch_key_map d k c : d_map (watch_key d k c) = d_map d.
Proof. reflexivity. Qed.
Lemma unwatch_key_map d k c : d_map (unwatch_key d k c) = d_map d.
Proof. reflexivity. Qed.
Lemma unwatch_all_map d c : d_map (unwatch_all d c) = d_map d.
Proof. now rewrite unwatch_all_frame. Qed.

(* all of a session but its inbox; NodeLemmas.same_attrs is the same relation *)
Definition sess_static (a b : sess) : Prop :=
  s_auth a = s_auth b /\ s_db a = s_db b /\ s_user a = s_user b /\ s_member a = s_member b.

Lemma sess_static_refl a : sess_static a a.
Proof. exact (same_attrs_refl a). Qed.

Lemma sess_static_trans a b c : sess_static a b -> sess_static b c -> sess_static a c.
Proof. exact (same_attrs_trans a b c). Qed.

Lemma sess_static_send n c m s : sess_static (get_sess (send n c m) s) (get_sess n s).
Proof. exact (same_attrs_send n c m s). Qed.

Theorem inbox_sends msgs : forall n s, (s < length (n_sess n))%nat ->
  s_inbox (get_sess (sends n msgs) s) = s_inbox (get_sess n s) ++ proj s msgs.
Proof. exact (NodeLemmas.inbox_sends msgs). Qed.

(* lines addressed to a session that does not exist are dropped *)
Theorem inbox_sends_absent msgs n s : (length (n_sess n) <= s)%nat ->
  get_sess (sends n msgs) s = empty_sess.
Proof.
  intros H. unfold get_sess. apply nth_overflow. now rewrite sess_len_sends.
Qed.

Theorem sess_static_sends msgs : forall n s, sess_static (get_sess (sends n msgs) s) (get_sess n s).
Proof. exact (same_attrs_sends msgs). Qed.

Lemma n_repl_sends n msgs : n_repl (sends n msgs) = n_repl n.
Proof. exact (NodeLemmas.n_repl_sends n msgs). Qed.
Lemma n_clock_sends n msgs : n_clock (sends n msgs) = n_clock n.
Proof. exact (NodeLemmas.n_clock_sends n msgs). Qed.
Lemma n_members_sends n msgs : n_members (sends n msgs) = n_members n.
Proof. exact (NodeLemmas.n_members_sends n msgs). Qed.

(* [n'] is [n] with [f s] appended to the inbox of every existing session [s];
   nothing else of any session changes and no session appears or disappears *)
Definition delivered (n n' : node) (f : nat -> list str) : Prop :=
  length (n_sess n') = length (n_sess n) /\
  forall s, sess_static (get_sess n' s) (get_sess n s) /\
            ((s < length (n_sess n))%nat -> s_inbox (get_sess n' s) = s_inbox (get_sess n s) ++ f s).

Lemma delivered_sends n0 n msgs f : n_sess n0 = n_sess n -> (forall s, proj s msgs = f s) ->
  delivered n (sends n0 msgs) f.
Proof.
  intros E Hf. assert (G : forall s, get_sess n0 s = get_sess n s) by (intros s; unfold get_sess; now rewrite E).
  split.
  - now rewrite sess_len_sends, E.
  - intros s. rewrite <- G. split; [apply sess_static_sends|].
    rewrite <- E, <- Hf. apply inbox_sends.
Qed.

Lemma delivered_ext n n' f g : (forall s, f s = g s) -> delivered n n' f -> delivered n n' g.
Proof.
  intros E [H1 H2]. split; auto. intros s. destruct (H2 s) as [A B]. split; auto.
  intros Hs. rewrite <- E. auto.
Qed.

Lemma delivered_refl n : delivered n n (fun _ => []).
Proof.
  split; [reflexivity|]. intros s. split; [apply sess_static_refl|]. intros _. now rewrite app_nil_r.
Qed.

Lemma delivered_sess n n1 n' f : delivered n n1 f -> n_sess n' = n_sess n1 -> delivered n n' f.
Proof.
  intros [L H] E.
  assert (G : forall s, get_sess n' s = get_sess n1 s) by (intros s; unfold get_sess; now rewrite E).
  split; [now rewrite E|]. intros s. rewrite G. apply H.
Qed.

Lemma delivered_send n n1 f c m : delivered n n1 f ->
  delivered n (send n1 c m) (fun s => f s ++ (if Nat.eqb s c then [m] else [])).
Proof.
  intros [L H]. split; [now rewrite sess_len_send|].
  intros s. destruct (H s) as [St Inb]. split.
  - eapply sess_static_trans; [apply sess_static_send|exact St].
  - intros Hs. rewrite inbox_send, (Inb Hs), <- app_assoc. f_equal. f_equal.
    destruct (Nat.eqb_spec s c) as [->|]; cbn [andb]; [|reflexivity].
    rewrite L. destruct (Nat.ltb_spec c (List.length (n_sess n))); [reflexivity|lia].
Qed.

Lemma delivered_nil_eq n n' f s : delivered n n' f -> f s = [] -> get_sess n' s = get_sess n s.
Proof.
  intros [L H] E. destruct (H s) as [(A & B & C & D) Inb].
  destruct (Nat.lt_ge_cases s (List.length (n_sess n))) as [Hs|Hs].
  - specialize (Inb Hs). rewrite E, app_nil_r in Inb.
    destruct (get_sess n' s), (get_sess n s). cbn in *. congruence.
  - unfold get_sess. rewrite !nth_overflow; [reflexivity|exact Hs|now rewrite L].
Qed.

Definition is_verr (r : resp) : Prop := match r with RVersionError _ _ _ _ _ _ => True | _ => False end.
Definition is_rset (r : resp) : Prop := match r with RSet _ _ => True | _ => False end.

Lemma set_key_value_none n dbn d key value ver n' r :
  get_db n dbn = Some d -> d_strat d = SNone ->
  set_key_value n dbn key value ver = (n', r) ->
  let ch := mkCh key value ver (n_clock n) false in
  (exists d1 msgs, set_value d ch = (d1, RSet key value, msgs) /\ r = RSet key value /\
                   n' = sends (put_db (fst (tick n)) dbn d1) msgs) \/
  (exists old, r = RVersionError key (v_ver old) ver old ch (upd_state old) /\ n' = fst (tick n)).
Proof.
  intros Hdb Hs. unfold set_key_value, tick. cbv beta iota zeta. unfold apply_change.
  rewrite get_db_set_clock, Hdb. cbn [fst].
  destruct (set_value_cases d (mkCh key value ver (n_clock n) false)) as [(d1 & msgs & E)|(old & _ & E)];
    rewrite E; cbv beta iota zeta; cbn [c_key c_val c_ver].
  - intros [= <- <-]. left. eauto.
  - rewrite Hs. intros [= <- <-]. right. eauto.
Qed.

(* outcome of a client/replicated set on database [dbn] (state [d] before) *)
Definition set_outcome (n n' : node) (dbn : str) (d : db) (key value : str) (r : resp) : Prop :=
  (r = RSet key value /\
   exists d' nv, get_db n' dbn = Some d' /\ d_watch d' = d_watch d /\
                 get_value d' key = Some nv /\ v_val nv = value /\
                 delivered n n' (fun s => concat (repeat (change_lines key value (v_ver nv)) (nsubs d key s))))
  \/ (is_verr r /\ n' = fst (tick n)).

Lemma set_key_value_outcome n dbn d key value ver n' r :
  get_db n dbn = Some d -> d_strat d = SNone ->
  set_key_value n dbn key value ver = (n', r) ->
  set_outcome n n' dbn d key value r /\ is_primary n' = is_primary n.
Proof.
  intros Hdb Hs H.
  destruct (set_key_value_none _ _ _ _ _ _ _ _ Hdb Hs H) as [(d1 & msgs & E & -> & ->)|(old & -> & ->)].
  - split; [|now rewrite is_primary_sends].
    left. split; auto.
    destruct (set_value_notifies _ _ _ _ _ _ E) as (W & nv & Hnv & Hval & Hmsgs).
    cbn [c_key c_val] in *.
    exists d1, nv. split; [rewrite get_db_sends; apply get_db_put_same|].
    split; [exact W|]. split; [exact Hnv|]. split; [exact Hval|].
    apply delivered_sends; [reflexivity|exact Hmsgs].
  - split; [|reflexivity]. right. split; [exact I|reflexivity].
Qed.

Theorem handle_set_notifies n c key value ver dbn d n' r :
  guard_safe n c key PWrite = GGo dbn d -> d_strat d = SNone -> is_primary n = true ->
  handle n c (RqSet key value ver) = (n', r) ->
  set_outcome n n' dbn d key value r.
Proof.
  intros Hg Hs Hp. unfold handle. cbv zeta. rewrite Hg.
  destruct (guard_safe_go _ _ _ _ _ _ Hg) as [_ Hdb].
  destruct (set_key_value n dbn key value ver) as [n1 r1] eqn:E.
  destruct (set_key_value_outcome _ _ _ _ _ _ _ _ Hdb Hs E) as [Ho Hp1].
  rewrite Hp1, Hp. intros [= <- <-]. exact Ho.
Qed.

Theorem handle_replicate_set_notifies n c dbn key value ver d n' r :
  s_auth (get_sess n c) = true -> get_db n dbn = Some d -> d_strat d = SNone ->
  handle n c (RqReplicateSet dbn key value ver) = (n', r) ->
  set_outcome n n' dbn d key value r.
Proof.
  intros Ha Hdb Hs. unfold handle. cbv zeta. rewrite Ha, Hdb. cbn [negb].
  intros E. now destruct (set_key_value_outcome _ _ _ _ _ _ _ _ Hdb Hs E).
Qed.

Corollary set_outcome_refused n n' dbn d key value r :
  set_outcome n n' dbn d key value r -> is_verr r -> n_dbs n' = n_dbs n /\ n_sess n' = n_sess n.
Proof.
  intros [[-> _]|[_ ->]] Hv; [destruct Hv | split; reflexivity].
Qed.

Corollary set_outcome_accepted n n' dbn d key value r k v :
  set_outcome n n' dbn d key value r -> r = RSet k v ->
  exists nv d', get_db n' dbn = Some d' /\ get_value d' key = Some nv /\
    forall s, (s < length (n_sess n))%nat ->
      s_inbox (get_sess n' s) =
      s_inbox (get_sess n s) ++ concat (repeat (change_lines key value (v_ver nv)) (nsubs d key s)).
Proof.
  intros [[_ (d' & nv & H1 & _ & H2 & _ & _ & H3)]|[Hv _]] ->; [|destruct Hv].
  exists nv, d'. repeat split; auto. intros s. now apply H3.
Qed.

Definition remove_outcome (n n' : node) (dbn : str) (d : db) (key : str) (r : resp) : Prop :=
  (key <> "$$token" /\ r = ROk /\
   exists d', get_db n' dbn = Some d' /\ d_watch d' = d_watch d /\
              delivered n n' (fun s => repeat (removed_line key) (nsubs d key s)))
  \/ (key = "$$token" /\ r = RError "$$token key cannot be removed" /\ n' = n).

Lemma remove_apply_outcome n dbn d key d' r msgs :
  get_db n dbn = Some d -> remove_value d key = (d', r, msgs) ->
  remove_outcome n (sends (put_db n dbn d') msgs) dbn d key r.
Proof.
  intros Hdb E. destruct (String.eqb_spec key "$$token") as [->|Hne].
  - rewrite remove_token_refused in E. injection E as <- <- <-.
    right. repeat split. cbn. now apply put_db_same.
  - destruct (remove_value_spec _ _ _ _ _ Hne E) as (-> & _).
    destruct (remove_value_notifies _ _ _ _ Hne E) as (W & Hm).
    left. split; [exact Hne|]. split; [reflexivity|].
    exists d'. split; [rewrite get_db_sends; apply get_db_put_same|].
    split; [exact W|]. apply delivered_sends; [reflexivity|exact Hm].
Qed.

Theorem handle_remove_notifies n c key dbn d n' r :
  guard_safe n c key PRemove = GGo dbn d -> is_primary n = true ->
  handle n c (RqRemove key) = (n', r) ->
  remove_outcome n n' dbn d key r.
Proof.
  intros Hg Hp. unfold handle. cbv zeta. rewrite Hg.
  destruct (guard_safe_go _ _ _ _ _ _ Hg) as [_ Hdb].
  destruct (remove_value d key) as [[d' r1] msgs] eqn:E.
  pose proof (remove_apply_outcome n dbn d key d' r1 msgs Hdb E) as Ho.
  assert (Hp1 : is_primary (sends (put_db n dbn d') msgs) = true) by (now rewrite is_primary_sends).
  rewrite Hp1. intros [= <- <-].
  destruct r1; exact Ho.
Qed.

Theorem handle_replicate_remove_notifies n c dbn key d n' r :
  s_auth (get_sess n c) = true -> get_db n dbn = Some d ->
  handle n c (RqReplicateRemove dbn key) = (n', r) ->
  remove_outcome n n' dbn d key r.
Proof.
  intros Ha Hdb. unfold handle. cbv zeta. rewrite Ha, Hdb. cbn [negb].
  destruct (remove_value d key) as [[d' r1] msgs] eqn:E.
  intros [= <- <-]. now apply remove_apply_outcome.
Qed.

(* [r0] is the answer of inc_value; the client request replies it, the replicated
   request always replies ROk *)
Definition inc_outcome (n n' : node) (dbn : str) (d : db) (key : str) (r0 : resp) : Prop :=
  (r0 = ROk /\
   exists d' nv, get_db n' dbn = Some d' /\ d_watch d' = d_watch d /\ get_value d' key = Some nv /\
                 delivered n n' (fun s => concat (repeat (change_lines key (v_val nv) (-1)) (nsubs d key s))))
  \/ (r0 = RError "Key is not numeric" /\ n' = fst (tick n)).

Lemma inc_apply_outcome n dbn d key inc d' r msgs :
  get_db n dbn = Some d -> inc_value d key inc (n_clock n) = (d', r, msgs) ->
  inc_outcome n (sends (put_db (fst (tick n)) dbn d') msgs) dbn d key r.
Proof.
  intros Hdb E. destruct (inc_value_cases d key inc (n_clock n)) as [(d2 & m2 & E2)|E2];
    rewrite E2 in E; injection E as <- <- <-.
  - destruct (inc_value_notifies _ _ _ _ _ _ E2) as (W & nv & Hnv & Hm).
    left. split; auto. exists d2, nv. split; [rewrite get_db_sends; apply get_db_put_same|].
    split; [exact W|]. split; [exact Hnv|].
    apply delivered_sends; [reflexivity|exact Hm].
  - right. split; auto. cbn [sends fold_left]. apply put_db_same. exact Hdb.
Qed.

Theorem handle_increment_notifies n c key inc dbn d n' r :
  guard_safe n c key PIncrement = GGo dbn d -> is_primary n = true ->
  handle n c (RqIncrement key inc) = (n', r) ->
  inc_outcome n n' dbn d key r.
Proof.
  intros Hg Hp. unfold handle. cbv zeta. rewrite Hg, Hp.
  destruct (guard_safe_go _ _ _ _ _ _ Hg) as [_ Hdb].
  unfold tick. cbv beta iota.
  destruct (inc_value d key inc (n_clock n)) as [[d' r1] msgs] eqn:E.
  intros [= <- <-]. now apply (inc_apply_outcome n dbn d key inc).
Qed.

Theorem handle_replicate_increment_notifies n c dbn key inc d n' r :
  s_auth (get_sess n c) = true -> get_db n dbn = Some d ->
  handle n c (RqReplicateIncrement dbn key inc) = (n', r) ->
  r = ROk /\ exists r0, r0 = snd (fst (inc_value d key inc (n_clock n))) /\ inc_outcome n n' dbn d key r0.
Proof.
  intros Ha Hdb. unfold handle. cbv zeta. rewrite Ha, Hdb. cbn [negb].
  unfold tick. cbv beta iota.
  destruct (inc_value d key inc (n_clock n)) as [[d' r1] msgs] eqn:E.
  intros [= <- <-]. split; auto. exists r1. split; auto.
  now apply (inc_apply_outcome n dbn d key inc).
Qed.

Corollary inc_outcome_refused n n' dbn d key r0 m :
  inc_outcome n n' dbn d key r0 -> r0 = RError m -> n_dbs n' = n_dbs n /\ n_sess n' = n_sess n.
Proof.
  intros [[-> _]|[_ ->]] E; [discriminate | split; reflexivity].
Qed.

Definition nsubs_n (n : node) (x k : str) (s : nat) : nat :=
  match get_db n x with Some d => nsubs d k s | None => 0%nat end.

(* nothing of any session but c moves, subscriptions or record *)
Definition isolated_to (c : nat) (n n' : node) : Prop :=
  (forall x k s, s <> c -> nsubs_n n' x k s = nsubs_n n x k s) /\
  (forall s, s <> c -> get_sess n' s = get_sess n s).

Lemma isolated_refl c n : isolated_to c n n.
Proof. split; auto. Qed.

Lemma isolated_send c n m : isolated_to c n (send n c m).
Proof.
  split; [reflexivity|]. intros s Hs. now apply get_sess_send_other.
Qed.

Lemma nsubs_n_put n x d' y k s :
  nsubs_n (put_db n x d') y k s = if String.eqb y x then nsubs d' k s else nsubs_n n y k s.
Proof. unfold nsubs_n. rewrite get_db_put. now destruct (String.eqb y x). Qed.

Lemma isolated_put c n x d d' :
  get_db n x = Some d -> (forall k s, s <> c -> nsubs d' k s = nsubs d k s) ->
  isolated_to c n (put_db n x d').
Proof.
  intros Hdb H. split; [|reflexivity].
  intros y k s Hs. rewrite nsubs_n_put.
  destruct (String.eqb_spec y x) as [->|]; [|reflexivity].
  unfold nsubs_n. rewrite Hdb. auto.
Qed.

Theorem handle_watch_isolated n c k n' r :
  handle n c (RqWatch k) = (n', r) ->
  isolated_to c n n' /\
  (r = ROk -> exists dbn, s_db (get_sess n c) = Some dbn /\ n_sess n' = n_sess n /\
     forall x k', nsubs_n n' x k' c =
       (nsubs_n n x k' c + (if String.eqb x dbn && String.eqb k k' then 1 else 0))%nat).
Proof.
  unfold handle. cbv zeta.
  destruct (guard_safe n c k PRead) as [dbn d|n1 r1] eqn:G.
  - destruct (guard_safe_go _ _ _ _ _ _ G) as [Hsel Hdb].
    intros [= <- <-]. split.
    + apply (isolated_put c n dbn d); auto.
      intros k' s Hs. rewrite nsubs_watch_key.
      destruct (Nat.eqb_spec s c); [contradiction|]. rewrite andb_false_r. lia.
    + intros _. exists dbn. repeat split; auto.
      intros x k'. rewrite nsubs_n_put.
      destruct (String.eqb_spec x dbn) as [->|]; cbn [andb]; [|lia].
      rewrite nsubs_watch_key, Nat.eqb_refl, andb_true_r.
      unfold nsubs_n. now rewrite Hdb.
  - destruct (guard_safe_stop _ _ _ _ _ _ G) as [[-> ->]|[[-> ->]|[-> ->]]]; intros [= <- <-];
      (split; [|discriminate]); auto using isolated_refl, isolated_send.
Qed.

Theorem handle_unwatch_isolated n c k n' r :
  handle n c (RqUnWatch k) = (n', r) ->
  isolated_to c n n' /\
  (forall dbn, s_db (get_sess n c) = Some dbn -> nsubs_n n' dbn k c = 0%nat) /\
  (r = ROk -> exists dbn, s_db (get_sess n c) = Some dbn /\ n_sess n' = n_sess n /\
     forall x k', nsubs_n n' x k' c =
       if String.eqb x dbn && String.eqb k k' then 0%nat else nsubs_n n x k' c).
Proof.
  unfold handle. cbv zeta.
  destruct (guard_db n c) as [dbn d|n1 r1] eqn:G.
  - destruct (proj1 (guard_db_go _ _ _ _) G) as [Hsel Hdb].
    intros [= <- <-].
    assert (Hc : forall x k', nsubs_n (put_db n dbn (unwatch_key d k c)) x k' c =
                   if String.eqb x dbn && String.eqb k k' then 0%nat else nsubs_n n x k' c).
    { intros x k'. rewrite nsubs_n_put.
      destruct (String.eqb_spec x dbn) as [->|]; cbn [andb]; [|reflexivity].
      rewrite nsubs_unwatch_key, Nat.eqb_refl, andb_true_r.
      unfold nsubs_n. now rewrite Hdb. }
    split; [|split].
    + apply (isolated_put c n dbn d); auto.
      intros k' s Hs. rewrite nsubs_unwatch_key.
      destruct (Nat.eqb_spec s c); [contradiction|]. now rewrite andb_false_r.
    + intros dbn' E. rewrite Hsel in E. injection E as <-.
      rewrite Hc. now rewrite !String.eqb_refl.
    + intros _. exists dbn. repeat split; auto.
  - destruct (guard_db_stop _ _ _ _ G) as (-> & -> & Hno).
    intros [= <- <-]. split; [apply isolated_send|]. split; [|discriminate].
    intros dbn E. unfold nsubs_n. rewrite get_db_send, (Hno _ E). reflexivity.
Qed.

Theorem handle_unwatch_all_isolated n c n' r :
  handle n c RqUnWatchAll = (n', r) ->
  isolated_to c n n' /\
  (forall dbn, s_db (get_sess n c) = Some dbn -> forall k, nsubs_n n' dbn k c = 0%nat) /\
  (r = ROk -> exists dbn, s_db (get_sess n c) = Some dbn /\ n_sess n' = n_sess n /\
     forall x k, nsubs_n n' x k c = if String.eqb x dbn then 0%nat else nsubs_n n x k c).
Proof.
  unfold handle. cbv zeta.
  destruct (guard_db n c) as [dbn d|n1 r1] eqn:G.
  - destruct (proj1 (guard_db_go _ _ _ _) G) as [Hsel Hdb].
    intros [= <- <-].
    assert (Hc : forall x k, nsubs_n (put_db n dbn (unwatch_all d c)) x k c =
                   if String.eqb x dbn then 0%nat else nsubs_n n x k c).
    { intros x k. rewrite nsubs_n_put.
      destruct (String.eqb_spec x dbn) as [->|]; [|reflexivity].
      now rewrite nsubs_unwatch_all, Nat.eqb_refl. }
    split; [|split].
    + apply (isolated_put c n dbn d); auto.
      intros k s Hs. rewrite nsubs_unwatch_all.
      destruct (Nat.eqb_spec s c); [contradiction|reflexivity].
    + intros dbn' E k. rewrite Hsel in E. injection E as <-.
      rewrite Hc. now rewrite String.eqb_refl.
    + intros _. exists dbn. repeat split; auto.
  - destruct (guard_db_stop _ _ _ _ G) as (-> & -> & Hno).
    intros [= <- <-]. split; [apply isolated_send|]. split; [|discriminate].
    intros dbn E k. unfold nsubs_n. rewrite get_db_send, (Hno _ E). reflexivity.
Qed.

Definition quiet (d : db) (s : nat) : Prop := forall k, nsubs d k s = 0%nat.

Lemma quiet_not_in d s k : quiet d s -> ~ In s (watchers_of d k).
Proof. intros Q Hin. apply nsubs_pos_in in Hin. rewrite (Q k) in Hin. lia. Qed.

(* every database has the watch table it had *)
Definition same_watch (n n' : node) : Prop :=
  forall x, option_map d_watch (get_db n' x) = option_map d_watch (get_db n x).

Lemma same_watch_nsubs n n' : same_watch n n' -> forall x k s, nsubs_n n' x k s = nsubs_n n x k s.
Proof.
  intros H x k s. specialize (H x). unfold nsubs_n.
  destruct (get_db n' x) as [d'|], (get_db n x) as [d|]; cbn in H; try discriminate; auto.
  injection H as H. now apply nsubs_watch_eq.
Qed.

(* database [x] (before: [d]) was edited outside its watch table into [d0] and then went through
   a write path: no subscription table changes *)
Lemma effect_same_watch n n' x d d0 d' K msgs :
  effect n n' x d' msgs -> writes K d0 d' msgs -> get_db n x = Some d -> d_watch d0 = d_watch d ->
  same_watch n n'.
Proof.
  intros [D _] (E & _) Hdb Hw y. rewrite D.
  destruct (String.eqb_spec y x) as [->|]; [|reflexivity].
  rewrite Hdb. cbn [option_map]. f_equal. rewrite E. exact Hw.
Qed.

Lemma effect_quiet n n' x d d0 d' K msgs s :
  effect n n' x d' msgs -> writes K d0 d' msgs -> d_watch d0 = d_watch d -> quiet d s ->
  get_sess n' s = get_sess n s.
Proof.
  intros [_ S] (_ & _ & M) Hw Q.
  transitivity (get_sess (sends n msgs) s); [unfold get_sess; now rewrite S|].
  apply get_sess_sends_other. intros [a m] Hin <-. destruct (M _ _ Hin) as [k Hk].
  apply (quiet_not_in d a k Q). unfold watchers_of in *. now rewrite <- Hw.
Qed.

Lemma set_connection_counter_same_watch n dbn : same_watch n (set_connection_counter n dbn).
Proof.
  destruct (get_db n dbn) as [d|] eqn:Hdb; [|unfold set_connection_counter; rewrite Hdb; intros x; reflexivity].
  destruct (set_connection_counter_effect n dbn d Hdb) as (d' & msgs & E & W).
  now apply (effect_same_watch _ _ _ _ _ _ _ _ E W Hdb).
Qed.

Lemma disconnect_nsubs n c x k s :
  nsubs_n (disconnect n c) x k s =
  if match s_db (get_sess n c) with Some dbn => String.eqb x dbn | None => false end && Nat.eqb s c
  then 0%nat else nsubs_n n x k s.
Proof.
  destruct (s_db (get_sess n c)) as [dbn|] eqn:Hsel; [destruct (get_db n dbn) as [d|] eqn:Hdb|].
  - rewrite (disconnect_sel _ _ _ _ Hsel Hdb), (same_watch_nsubs _ _ (set_connection_counter_same_watch _ dbn)), nsubs_n_put.
    destruct (String.eqb_spec x dbn) as [->|]; cbn [andb]; [|reflexivity].
    change (nsubs (db_set_conn (unwatch_all d c) (d_conn d - 1)) k s) with (nsubs (unwatch_all d c) k s).
    rewrite nsubs_unwatch_all. unfold nsubs_n. now rewrite Hdb.
  - rewrite disconnect_no_db by eauto. change (nsubs_n (send n c no_db_msg) x k s) with (nsubs_n n x k s).
    destruct (String.eqb_spec x dbn) as [->|]; [|reflexivity]. unfold nsubs_n. rewrite Hdb. now destruct (Nat.eqb s c).
  - now rewrite disconnect_no_db by auto.
Qed.

Theorem disconnect_subs n c :
  (forall x k s, s <> c -> nsubs_n (disconnect n c) x k s = nsubs_n n x k s) /\
  (forall dbn, s_db (get_sess n c) = Some dbn -> forall k, nsubs_n (disconnect n c) dbn k c = 0%nat) /\
  (forall x k, nsubs_n (disconnect n c) x k c =
               if match s_db (get_sess n c) with Some dbn => String.eqb x dbn | None => false end
               then 0%nat else nsubs_n n x k c).
Proof.
  split; [|split].
  - intros x k s Hs. rewrite disconnect_nsubs. destruct (Nat.eqb_spec s c); [contradiction|]. now rewrite andb_false_r.
  - intros dbn Hsel k. now rewrite disconnect_nsubs, Hsel, String.eqb_refl, Nat.eqb_refl.
  - intros x k. now rewrite disconnect_nsubs, Nat.eqb_refl, andb_true_r.
Qed.

(* any strategy: once c's subscriptions in its database are dropped, Client::left sends nothing
   to a session that holds none there *)
Lemma disconnect_bystander n c dbn d s :
  s_db (get_sess n c) = Some dbn -> get_db n dbn = Some d -> quiet (unwatch_all d c) s ->
  get_sess (disconnect n c) s = get_sess n s.
Proof.
  intros Hsel Hdb Q. rewrite (disconnect_sel _ _ _ _ Hsel Hdb).
  set (d2 := db_set_conn (unwatch_all d c) (d_conn d - 1)).
  destruct (set_connection_counter_effect _ dbn d2 (get_db_put_same n dbn d2)) as (d' & msgs & E & W).
  exact (effect_quiet _ _ _ d2 _ _ _ _ s E W eq_refl Q).
Qed.

Theorem disconnect_quiet n c dbn d s :
  s <> c -> s_db (get_sess n c) = Some dbn -> get_db n dbn = Some d -> quiet d s ->
  get_sess (disconnect n c) s = get_sess n s.
Proof.
  intros Hs Hsel Hdb Q. apply (disconnect_bystander n c dbn d); auto.
  intros k. rewrite nsubs_unwatch_all. destruct (Nat.eqb s c); [reflexivity | apply Q].
Qed.

(* the leaving session itself receives nothing (it has just dropped all its
   subscriptions in that database) when its database exists *)
Theorem disconnect_self n c dbn d :
  s_db (get_sess n c) = Some dbn -> get_db n dbn = Some d ->
  get_sess (disconnect n c) c = get_sess n c.
Proof.
  intros Hsel Hdb. apply (disconnect_bystander n c dbn d); auto.
  intros k. now rewrite nsubs_unwatch_all, Nat.eqb_refl.
Qed.

(* database without conflict strategy: after dropping c's subscriptions, exactly one
   "$connections" write is delivered to the remaining watchers of "$connections" *)
Theorem disconnect_none n c dbn d :
  s_db (get_sess n c) = Some dbn -> get_db n dbn = Some d -> d_strat d = SNone ->
  let d1 := unwatch_all d c in
  let d2 := db_set_conn d1 (d_conn d - 1) in
  exists r, set_outcome (put_db n dbn d2) (disconnect n c) dbn d2
                        "$connections" (Z_to_str (d_conn d - 1)) r.
Proof.
  intros Hsel Hdb Hs d1 d2. rewrite (disconnect_sel _ _ _ _ Hsel Hdb). fold d1 d2.
  pose proof (get_db_put_same n dbn d2) as H2. unfold set_connection_counter. rewrite H2.
  destruct (set_key_value (put_db n dbn d2) dbn "$connections" (Z_to_str (d_conn d2)) (-1)) as [n' r] eqn:E.
  exists r. refine (proj1 (set_key_value_outcome _ _ _ _ _ _ _ _ H2 _ E)).
  unfold d2, d1. now rewrite unwatch_all_frame.
Qed.

Corollary disconnect_none_inbox n c dbn d :
  s_db (get_sess n c) = Some dbn -> get_db n dbn = Some d -> d_strat d = SNone ->
  (exists ver, forall s, (s < length (n_sess n))%nat ->
     s_inbox (get_sess (disconnect n c) s) =
     s_inbox (get_sess n s) ++
     concat (repeat (change_lines "$connections" (Z_to_str (d_conn d - 1)) ver)
                    (if Nat.eqb s c then 0%nat else nsubs d "$connections" s)))
  \/ n_sess (disconnect n c) = n_sess n.
Proof.
  intros Hsel Hdb Hs.
  destruct (disconnect_none n c dbn d Hsel Hdb Hs) as [r [[_ (d' & nv & _ & _ & _ & _ & _ & H)]|[_ ->]]];
    [left | right; reflexivity].
  exists (v_ver nv). intros s Hlt. destruct (H s) as [_ Hi].
  rewrite (Hi Hlt).
  change (nsubs (db_set_conn (unwatch_all d c) (d_conn d - 1)) "$connections" s)
    with (nsubs (unwatch_all d c) "$connections" s).
  now rewrite nsubs_unwatch_all.
Qed.

Definition set_db (d : db) (ch : change) : db := fst (fst (set_value d ch)).
Definition accepted (d : db) (ch : change) : Prop := is_rset (snd (fst (set_value d ch))).

(* every change is a plain write of k, client version >= -1, accepted in the state it meets *)
Fixpoint hist_ok (k : str) (d : db) (chs : list change) : Prop :=
  match chs with
  | [] => True
  | ch :: r => c_key ch = k /\ c_resolve ch = false /\ -1 <= c_ver ch /\ accepted d ch /\
               hist_ok k (set_db d ch) r
  end.

(* one write and what it queues for session s *)
Definition view_step (s : nat) (acc : db * list str) (ch : change) : db * list str :=
  let '(d1, _, msgs) := set_value (fst acc) ch in (d1, snd acc ++ proj s msgs).

Definition stored_ver (d : db) (k : str) : Z :=
  match get_value d k with Some v => v_ver v | None => 0 end.

(* (value, version stored) of every write of the history, in order *)
Fixpoint notes_of (k : str) (d : db) (chs : list change) : list (str * Z) :=
  match chs with
  | [] => []
  | ch :: r => (c_val ch, stored_ver (set_db d ch) k) :: notes_of k (set_db d ch) r
  end.

(* the lines m subscriptions receive for these notes *)
Definition render (k : str) (m : nat) (notes : list (str * Z)) : list str :=
  concat (map (fun p => concat (repeat (change_lines k (fst p) (snd p)) m)) notes).

Lemma render_app k m a b : render k m (a ++ b) = render k m a ++ render k m b.
Proof. unfold render. now rewrite map_app, concat_app. Qed.

Lemma accepted_inv d ch : accepted d ch ->
  exists d1 msgs, set_value d ch = (d1, RSet (c_key ch) (c_val ch), msgs).
Proof.
  unfold accepted. destruct (set_value_cases d ch) as [(d1 & msgs & E)|(old & _ & E)]; rewrite E; cbn.
  - eauto.
  - intros [].
Qed.

Lemma accepted_pre d ch old :
  c_resolve ch = false -> -1 <= c_ver ch -> accepted d ch ->
  get_value d (c_key ch) = Some old -> v_ver old <> -2 /\ v_ver old < i32_max.
Proof.
  intros Hr Hv Ha Hg. destruct (accepted_inv _ _ Ha) as (d1 & msgs & E).
  destruct (set_value_inv_present _ _ _ _ _ _ _ Hg E) as [C _].
  revert C. unfold next_version, in_conflict. rewrite Hr.
  destruct (Z.eqb_spec (c_ver ch) (-2)); [lia|]. cbn [negb]. rewrite andb_true_r.
  destruct (Z.eqb_spec (v_ver old) (-2)) as [E2|E2].
  - rewrite Z.leb_refl. discriminate.
  - intros C. apply Z.leb_gt in C. split; auto.
    destruct (Z.eqb (c_ver ch) (-1));
      match type of C with _ < sat_succ ?z => pose proof (sat_succ_le_max z) end; lia.
Qed.

Lemma accepted_step d ch :
  c_resolve ch = false -> -1 <= c_ver ch -> accepted d ch ->
  exists nv, get_value (set_db d ch) (c_key ch) = Some nv /\ v_val nv = c_val ch /\
             live (set_db d ch) (c_key ch) = Some (c_val ch) /\
             (forall old, get_value d (c_key ch) = Some old -> v_ver old < v_ver nv).
Proof.
  intros Hr Hv Ha. destruct (accepted_inv _ _ Ha) as (d1 & msgs & E).
  destruct (set_value_notifies _ _ _ _ _ _ E) as (_ & nv & Hnv & Hval & _).
  destruct (set_value_ok _ _ _ _ _ _ E) as (_ & _ & Hlive & _).
  unfold set_db. rewrite E. cbn [fst]. exists nv. repeat split; auto.
  intros old Hg. destruct (accepted_pre _ _ _ Hr Hv Ha Hg) as [H2 Hm].
  destruct (cas_version _ _ _ _ _ _ _ Hg H2 Hm eq_refl Hr Hv E) as (nv' & Hnv' & _ & Hlt).
  rewrite Hnv in Hnv'. injection Hnv' as <-. exact Hlt.
Qed.

Lemma set_db_nsubs d ch k s : nsubs (set_db d ch) k s = nsubs d k s.
Proof. apply nsubs_watch_eq. unfold set_db. now rewrite set_value_frame. Qed.

Lemma view_run k s : forall chs d acc, hist_ok k d chs ->
  fold_left (view_step s) chs (d, acc) =
  (fold_left set_db chs d, acc ++ render k (nsubs d k s) (notes_of k d chs)).
Proof.
  induction chs as [|ch r IH]; intros d acc H; cbn [fold_left notes_of].
  - unfold render. cbn. now rewrite app_nil_r.
  - destruct H as (Hk & Hr & Hv & Ha & Hrest).
    destruct (accepted_inv _ _ Ha) as (d1 & msgs & E).
    destruct (set_value_notifies _ _ _ _ _ _ E) as (_ & nv & Hnv & _ & Hm).
    assert (Ed : set_db d ch = d1) by (unfold set_db; now rewrite E).
    unfold view_step at 2. cbn [fst snd]. rewrite E. rewrite Ed in *.
    rewrite IH by exact Hrest.
    rewrite <- Ed at 2. rewrite set_db_nsubs.
    f_equal. rewrite <- app_assoc. f_equal.
    unfold render at 2. cbn [map concat fst snd]. fold (render k (nsubs d k s) (notes_of k d1 r)).
    f_equal. rewrite Hm. unfold stored_ver. rewrite Hk in *. now rewrite Hnv.
Qed.

Lemma notes_vals k : forall chs d, map fst (notes_of k d chs) = map c_val chs.
Proof. induction chs as [|ch r IH]; intros d; cbn [notes_of map fst]; [reflexivity | now rewrite IH]. Qed.

Lemma notes_above k : forall chs d old, hist_ok k d chs -> get_value d k = Some old ->
  Forall (fun p => v_ver old < snd p) (notes_of k d chs).
Proof.
  induction chs as [|ch r IH]; intros d old H Hg; cbn [notes_of]; [constructor|].
  destruct H as (Hk & Hr & Hv & Ha & Hrest).
  destruct (accepted_step _ _ Hr Hv Ha) as (nv & Hnv & _ & _ & Hlt). rewrite Hk in *.
  specialize (Hlt _ Hg).
  constructor.
  - cbn [snd]. unfold stored_ver. now rewrite Hnv.
  - eapply Forall_impl; [|apply (IH _ nv Hrest Hnv)]. cbn beta. intros p Hp. lia.
Qed.

Lemma notes_sorted k : forall chs d, hist_ok k d chs ->
  StronglySorted (fun a b => snd a < snd b) (notes_of k d chs).
Proof.
  induction chs as [|ch r IH]; intros d H; cbn [notes_of]; [constructor|].
  destruct H as (Hk & Hr & Hv & Ha & Hrest).
  destruct (accepted_step _ _ Hr Hv Ha) as (nv & Hnv & _ & _ & _). rewrite Hk in *.
  constructor; [now apply IH|].
  cbn [snd]. unfold stored_ver at 1. rewrite Hnv. now apply notes_above.
Qed.

Lemma last_cons_ne {A} (a : A) l dflt : l <> [] -> last (a :: l) dflt = last l dflt.
Proof. exact (ListLemmas.last_cons_ne a l dflt). Qed.

Definition dflt_ch : change := mkCh "" "" 0 0 false.

Lemma notes_last k : forall chs d, hist_ok k d chs -> chs <> [] ->
  exists nv, get_value (fold_left set_db chs d) k = Some nv /\
             live (fold_left set_db chs d) k = Some (v_val nv) /\
             v_val nv = c_val (last chs dflt_ch) /\
             last (notes_of k d chs) ("", 0) = (v_val nv, v_ver nv).
Proof.
  induction chs as [|ch r IH]; intros d H Hne; [congruence|].
  destruct H as (Hk & Hr & Hv & Ha & Hrest).
  destruct r as [|ch2 r'].
  - destruct (accepted_step _ _ Hr Hv Ha) as (nv & Hnv & Hval & Hlive & _). rewrite Hk in *.
    exists nv. cbn [fold_left notes_of last]. repeat split; auto.
    + now rewrite Hval.
    + unfold stored_ver. now rewrite Hnv, Hval.
  - destruct (IH (set_db d ch) Hrest) as (nv & H1 & H2 & H3 & H4); [discriminate|].
    exists nv. cbn [fold_left]. repeat split; auto.
Qed.

(* The final view.  For a history of accepted plain writes of k (client versions >= -1):
   session s is sent, for each write in order, the change lines with the value written
   and the version stored, once per subscription it holds; the stored versions strictly
   increase, so the last note is the unique highest-versioned one, and it carries the
   value and version that the database holds at the end.  (That the pre-state versions
   are never -2 and below i32::MAX is not an assumption: it follows from acceptance,
   see [accepted_pre].) *)
Theorem final_view k s d chs acc :
  hist_ok k d chs -> chs <> [] ->
  let d' := fold_left set_db chs d in
  exists nv earlier,
    fold_left (view_step s) chs (d, acc) =
      (d', acc ++ render k (nsubs d k s) (earlier ++ [(v_val nv, v_ver nv)])) /\
    get_value d' k = Some nv /\ live d' k = Some (v_val nv) /\
    v_val nv = c_val (last chs dflt_ch) /\
    map fst earlier ++ [v_val nv] = map c_val chs /\
    StronglySorted (fun a b => snd a < snd b) (earlier ++ [(v_val nv, v_ver nv)]) /\
    Forall (fun p => snd p < v_ver nv) earlier /\
    (forall k0 s0, nsubs d' k0 s0 = nsubs d k0 s0).
Proof.
  intros H Hne d'.
  destruct (notes_last k chs d H Hne) as (nv & Hg & Hlive & Hval & Hlast).
  assert (Hnn : notes_of k d chs <> []).
  { intros E. apply (f_equal (map fst)) in E. rewrite notes_vals in E.
    destruct chs; [congruence|discriminate]. }
  destruct (exists_last Hnn) as (earlier & a & Ea).
  rewrite Ea, last_last in Hlast. subst a.
  pose proof (notes_sorted k chs d H) as Hs. rewrite Ea in Hs.
  exists nv, earlier. rewrite <- Ea. split; [now apply view_run|].
  repeat split; auto.
  - pose proof (notes_vals k chs d) as Hv. rewrite Ea, map_app in Hv. exact Hv.
  - rewrite Ea. exact Hs.
  - apply ssorted_snoc in Hs. exact Hs.
  - intros k0 s0. subst d'. clear. revert d.
    induction chs as [|ch r IH]; intros d; cbn [fold_left]; [reflexivity|].
    now rewrite IH, set_db_nsubs.
Qed.

(* with at least one subscription, the inbox ends with the change lines of the current
   value and version; in particular its very last line is the "changed-version" line of
   the current state *)
Corollary final_view_last k s d chs acc :
  hist_ok k d chs -> chs <> [] -> (1 <= nsubs d k s)%nat ->
  let d' := fold_left set_db chs d in
  exists nv pre,
    get_value d' k = Some nv /\ live d' k = Some (v_val nv) /\
    snd (fold_left (view_step s) chs (d, acc)) = acc ++ pre ++ change_lines k (v_val nv) (v_ver nv) /\
    last (snd (fold_left (view_step s) chs (d, acc))) "" =
      "changed-version " +++ k +++ " " +++ Z_to_str (v_ver nv) +++ " " +++ v_val nv +++ nlS.
Proof.
  intros H Hne Hm d'.
  destruct (final_view k s d chs acc H Hne) as (nv & earlier & E & Hg & Hl & _).
  fold d' in E, Hg, Hl.
  destruct (nsubs d k s) as [|m] eqn:Em; [lia|].
  assert (Esnd : snd (fold_left (view_step s) chs (d, acc)) =
                 acc ++ (render k (S m) earlier ++ concat (repeat (change_lines k (v_val nv) (v_ver nv)) m))
                     ++ change_lines k (v_val nv) (v_ver nv)).
  { rewrite E. cbn [snd]. f_equal. rewrite render_app, <- app_assoc. f_equal.
    unfold render. cbn [map concat fst snd repeat]. rewrite app_nil_r.
    apply concat_repeat_comm. }
  exists nv, (render k (S m) earlier ++ concat (repeat (change_lines k (v_val nv) (v_ver nv)) m)).
  repeat split; auto.
  rewrite Esnd, !app_assoc. unfold change_lines.
  match goal with |- last (?x ++ [?a; ?b]) _ = _ => change (x ++ [a; b]) with (x ++ [a] ++ [b]) end.
  now rewrite !app_assoc, last_last.
Qed.

(* every "changed-version" notification received during the history carries a version
   not above the current one, and only notifications of the last write reach it *)
Corollary final_view_highest k s d chs acc :
  hist_ok k d chs -> chs <> [] ->
  exists nv notes,
    snd (fold_left (view_step s) chs (d, acc)) = acc ++ render k (nsubs d k s) notes /\
    get_value (fold_left set_db chs d) k = Some nv /\
    Forall (fun p => snd p <= v_ver nv) notes /\
    exists earlier, notes = earlier ++ [(v_val nv, v_ver nv)] /\
                    Forall (fun p => snd p < v_ver nv) earlier.
Proof.
  intros H Hne.
  destruct (final_view k s d chs acc H Hne) as (nv & earlier & E & Hg & _ & _ & _ & _ & Hlt & _).
  exists nv, (earlier ++ [(v_val nv, v_ver nv)]). rewrite E. repeat split; auto.
  - apply Forall_app. split.
    + eapply Forall_impl; [|exact Hlt]. cbn beta. intros p Hp. lia.
    + constructor; [cbn [snd]; lia | constructor].
  - exists earlier. auto.
Qed.

Definition ex_run (n : node) (l : list (nat * str)) : node :=
  fold_left (fun n p => fst (step n (fst p) (snd p))) l n.

(* two sessions on database "a" of a primary; session 1 watches k twice *)
Definition ex_n0 : node :=
  let n := init_node "u" "p" "a" 1 Primary 0 in
  let '(n, _) := connect n in
  let '(n, _) := connect n in
  ex_run n [(0%nat, "auth u p"); (0%nat, "create-db a ta"); (0%nat, "create-db b tb");
            (0%nat, "use-db a ta"); (1%nat, "use-db a ta");
            (1%nat, "watch k"); (1%nat, "watch k")].

(* accepted writes are delivered once per subscription; the refused one (version 0 < 1)
   delivers nothing; the last line carries the current value and version *)
Example ex_deliveries :
  let n := ex_run ex_n0 [(0%nat, "set k v1"); (0%nat, "set-safe k 0 v2"); (0%nat, "set-safe k 0 v0");
                         (0%nat, "set-safe k 7 v3")] in
  s_inbox (get_sess n 1) =
    concat (repeat (change_lines "k" "v1" 0) 2) ++ concat (repeat (change_lines "k" "v2" 1) 2) ++
    concat (repeat (change_lines "k" "v3" 8) 2) /\
  option_map (fun v => (v_val v, v_ver v)) (match get_db n "a" with Some d => get_value d "k" | None => None end)
    = Some ("v3", 8).
Proof. vm_compute. split; reflexivity. Qed.

(* What the third clause of [disconnect_subs] leaves open: unwatch-all on disconnect
   only covers the database selected at that moment.  A session that watched keys of
   "a", switched to "b" and then disconnected keeps its subscriptions on "a"; later
   writes of a/k are still queued for the departed session. *)
Example stale_subscription_after_db_switch :
  let n := disconnect (ex_run ex_n0 [(1%nat, "use-db b tb")]) 1 in
  nsubs_n n "a" "k" 1 = 2%nat /\
  s_inbox (get_sess n 1) = [] /\
  s_inbox (get_sess (ex_run n [(0%nat, "set k v9")]) 1) = concat (repeat (change_lines "k" "v9" 0) 2).
Proof. vm_compute. repeat split; reflexivity. Qed.
