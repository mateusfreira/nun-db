(* C10: no input makes a service thread panic (the parser is total, [step] answers every
   line on a node that has its "$admin" database, the HTTP worker survives); C09: every command acts
   only with the credential it requires (admin commands, "$$" keys, no database selected, permission lists). *)
From NunDB Require Import Model.Base Model.Pending Model.Parse Model.Node Proofs.AssocLemmas Proofs.StrLemmas
  Proofs.NodeLemmas Proofs.Footprint.
Local Open Scope Z_scope.

(* What [parse_cmd] can return, read off in one pass over its chain of command words: never a
   panic, and a nested request only as the piece that follows the request id. *)
Definition cmd_shape (a2 : option str) (r : option presult) : Prop :=
  match r with
  | Some PPanic => False
  | Some (POk (RqReplicateRequest inner _)) => a2 = Some inner
  | _ => True
  end.

Lemma shape_if a2 (b : bool) x rest :
  cmd_shape a2 (Some x) -> cmd_shape a2 rest -> cmd_shape a2 (if b then Some x else rest).
Proof. destruct b; auto. Qed.

(* The sub-words of [election] are matched as string literals, which compiles to a tree of
   several hundred tests on single bits: it is walked here, over three variables, and not
   inside the large term below. *)
Lemma shape_word a2 (o : option str) A B C :
  cmd_shape a2 (Some A) -> cmd_shape a2 (Some B) -> cmd_shape a2 (Some C) ->
  cmd_shape a2 (Some (match o with Some "win" => A | Some "candidate" => B | _ => C end)).
Proof.
  intros HA HB HC.
  repeat match goal with |- cmd_shape _ (Some (match ?x with _ => _ end)) => destruct x end;
    assumption.
Qed.

Lemma parse_cmd_shape cmd args : cmd_shape (hd_opt (tl args)) (parse_cmd cmd args).
Proof.
  unfold parse_cmd, parse_name. cbv zeta.
  generalize (hd_opt (tl args)) (hd_opt args). intros a2 a1.
  repeat (apply shape_if;
    [ try apply shape_word;
      repeat match goal with
             | |- cmd_shape _ (Some (match ?x with _ => _ end)) => destruct x eqn:?
             end; cbn [cmd_shape]; try exact I
    | ]); [|exact I].
  (* the [rp] word: the request text is the non-empty third piece *)
  destruct a2; [reflexivity|discriminate].
Qed.

Theorem parse_total : forall s, parse_request s <> PPanic.
Proof.
  intros s. unfold parse_request.
  destruct (splitn 3 sp (trim_end_char ";" s)) as [|cmd args]; [discriminate|].
  destruct (String.eqb cmd ""); [discriminate|].
  pose proof (parse_cmd_shape cmd args) as H.
  destruct (parse_cmd cmd args) as [r|]; [|discriminate].
  intros ->. exact H.
Qed.

Lemma parse_request_rp_shorter l inner id :
  parse_request l = POk (RqReplicateRequest inner id) ->
  (String.length inner < String.length l)%nat.
Proof.
  unfold parse_request. intros H.
  destruct (splitn 3 sp (trim_end_char ";" l)) as [|cmd args] eqn:E; [discriminate|].
  destruct (String.eqb cmd ""); [discriminate|].
  pose proof (parse_cmd_shape cmd args) as E2.
  destruct (parse_cmd cmd args) as [r|]; [|discriminate]. subst r. cbn [cmd_shape] in E2.
  destruct args as [|a1 [|a2 rest]]; try discriminate. cbn in E2. injection E2 as ->.
  assert (Hlt : (String.length inner < String.length (trim_end_char ";" l))%nat)
    by (apply (splitn_piece_shorter 3 sp); rewrite ?E; cbn; [congruence|lia|auto]).
  pose proof (length_trim_end_char ";" l). lia.
Qed.

Lemma dbs_put_sess n c s : n_dbs (put_sess n c s) = n_dbs n. Proof. reflexivity. Qed.
Lemma dbs_send n c m : n_dbs (send n c m) = n_dbs n. Proof. reflexivity. Qed.
Lemma dbs_send_to_primary n m : n_dbs (send_to_primary n m) = n_dbs n. Proof. reflexivity. Qed.
Lemma dbs_push_sup n m : n_dbs (push_sup n m) = n_dbs n. Proof. reflexivity. Qed.
Lemma dbs_election_win n : n_dbs (election_win n) = n_dbs n. Proof. reflexivity. Qed.

Lemma has_db_put n x y d : has_db (put_db n y d) x = String.eqb x y || has_db n x.
Proof. unfold has_db. rewrite get_db_put. now destruct (String.eqb x y). Qed.

Lemma has_db_sends n l x : has_db (sends n l) x = has_db n x.
Proof. apply has_db_dbs, n_dbs_sends. Qed.
Lemma has_db_send n c m x : has_db (send n c m) x = has_db n x. Proof. reflexivity. Qed.
Lemma has_db_put_sess n c s x : has_db (put_sess n c s) x = has_db n x. Proof. reflexivity. Qed.
Lemma has_db_replicate_change n dbn ch x : has_db (replicate_change n dbn ch) x = has_db n x.
Proof. apply has_db_dbs, replicate_change_same. Qed.
Lemma has_db_set_clock n k x : has_db (n_set_clock n k) x = has_db n x. Proof. reflexivity. Qed.
Lemma has_db_set_idmap n k x : has_db (n_set_idmap n k) x = has_db n x. Proof. reflexivity. Qed.
Lemma has_db_set_snap n k x : has_db (n_set_snap n k) x = has_db n x. Proof. reflexivity. Qed.
Lemma has_db_set_pending n k x : has_db (n_set_pending n k) x = has_db n x. Proof. reflexivity. Qed.
Lemma has_db_set_role n k x : has_db (n_set_role n k) x = has_db n x. Proof. reflexivity. Qed.
Lemma has_db_send_to_primary n m x : has_db (send_to_primary n m) x = has_db n x. Proof. reflexivity. Qed.
Lemma has_db_replicate_web n m x : has_db (replicate_web n m) x = has_db n x. Proof. reflexivity. Qed.
Lemma has_db_push_sup n m x : has_db (push_sup n m) x = has_db n x. Proof. reflexivity. Qed.
Lemma has_db_start_new_election n x : has_db (start_new_election n) x = has_db n x.
Proof. apply has_db_dbs, start_new_election_same. Qed.
Lemma has_db_election_eval n i x : has_db (election_eval n i) x = has_db n x.
Proof. apply has_db_dbs, election_eval_same. Qed.
Lemma has_db_election_win n x : has_db (election_win n) x = has_db n x. Proof. reflexivity. Qed.

(* every database of n is still one of n' *)
Definition keeps (n n' : node) : Prop := forall x, has_db n x = true -> has_db n' x = true.

Lemma keeps_refl n : keeps n n. Proof. intros x H; exact H. Qed.
Lemma keeps_eq n n' : n_dbs n' = n_dbs n -> keeps n n'.
Proof. intros E x H. now rewrite (has_db_dbs _ _ _ E). Qed.

(* [dm] destructs, with an equation, the innermost scrutinee of the first [match] of the goal;
   [repeat dm] thus walks every branch of a function that has been unfolded *)
Ltac innermost x :=
  lazymatch x with
  | context [match ?y with _ => _ end] => innermost y
  | _ => destruct x eqn:?
  end.
Ltac dm := match goal with |- context [match ?x with _ => _ end] => innermost x end.

Lemma edits_keeps p c n n' : edits p c n n' -> keeps n n'.
Proof.
  assert (Hput : forall m k d, keeps n m -> keeps n (put_db m k d)).
  { intros m k d K x Hx. rewrite has_db_put, (K x Hx). apply orb_true_r. }
  induction 1 as [|m m' _ IH E _|m i msg _ IH|m s _ IH _ _| | |]; auto.
  - apply keeps_refl.
  - intros x Hx. unfold has_db. rewrite E. exact (IH x Hx).
Qed.

Lemma set_value_np d ch d' r m : set_value d ch = (d', r, m) -> r <> RPanic.
Proof. unfold set_value. repeat dm; intros [= <- <- <-]; discriminate. Qed.
Lemma inc_value_np d k i o d' r m : inc_value d k i o = (d', r, m) -> r <> RPanic.
Proof.
  unfold inc_value.
  destruct (parse_i32 _); [destruct (_ && _)|]; intros [= <- <- <-]; discriminate.
Qed.
Lemma remove_value_np d k d' r m : remove_value d k = (d', r, m) -> r <> RPanic.
Proof. unfold remove_value. destruct (String.eqb k _); intros [= <- <- <-]; discriminate. Qed.

Lemma apply_change_np n dbn ch : snd (apply_change n dbn ch) <> RPanic.
Proof.
  unfold apply_change, tick. cbv zeta.
  repeat dm; cbn [snd]; try discriminate;
  repeat match goal with H : set_value _ _ = _ |- _ => apply set_value_np in H end; try congruence.
Qed.

Lemma set_key_value_np n dbn k v ver : snd (set_key_value n dbn k v ver) <> RPanic.
Proof. unfold set_key_value, tick. cbv zeta beta iota. apply apply_change_np. Qed.

Definition AdminInv (n : node) : Prop := exists adm, get_db n "$admin" = Some adm.

Lemma AdminInv_has n : AdminInv n <-> has_db n "$admin" = true.
Proof.
  unfold AdminInv, has_db. destruct (get_db n "$admin"); split; intros H; eauto; try discriminate.
  now destruct H.
Qed.

Lemma keeps_inv n n' : keeps n n' -> AdminInv n -> AdminInv n'.
Proof. rewrite !AdminInv_has. auto. Qed.

Lemma add_database_np n name d : AdminInv n -> snd (add_database n name d) <> RPanic.
Proof.
  intros [adm Ha]. unfold add_database, tick. cbv zeta.
  destruct (get_db n name) eqn:Hn; [discriminate|].
  (* the new database is not "$admin", which is therefore still found *)
  rewrite get_db_set_clock, get_db_put.
  destruct (String.eqb_spec "$admin" name) as [<-|_]; [congruence|].
  change (get_db (n_set_idmap n _) "$admin") with (get_db n "$admin"). rewrite Ha.
  destruct (set_value adm _) as [[adm' r] msgs]. discriminate.
Qed.

Lemma guard_db_name_go n c dbn key req dbn' d :
  guard_db_name n c dbn key req = GGo dbn' d -> dbn' = dbn /\ get_db n dbn = Some d.
Proof. exact (NodeLemmas.guard_db_name_go n c dbn key req dbn' d). Qed.

Lemma guard_safe_stop_np n c key req n' r : guard_safe n c key req = GStop n' r -> r <> RPanic.
Proof. intros H. apply guard_safe_stop in H. destruct H as [[_ ->]|[[_ ->]|[_ ->]]]; discriminate. Qed.
Lemma guard_db_stop_np n c n' r : guard_db n c = GStop n' r -> r <> RPanic.
Proof. intros H. apply guard_db_stop in H. destruct H as (_ & -> & _). discriminate. Qed.
Lemma guard_db_name_stop_np n c dbn key req n' r : guard_db_name n c dbn key req = GStop n' r -> r <> RPanic.
Proof. intros H. apply guard_db_name_stop in H. destruct H as [[_ ->]|[_ ->]]; discriminate. Qed.

Lemma snap_fold_np reclaim names : forall acc, snd acc <> RPanic ->
  snd (fold_left (snap_step reclaim) names acc) <> RPanic.
Proof.
  induction names as [|nm names IH]; intros [n0 r0] H; cbn [fold_left]; [exact H|].
  apply IH. unfold snap_step. destruct (get_db n0 nm); [exact H|discriminate].
Qed.

(* turns what the case analysis of [handle] left in the context into "the answer is no panic" (the
   suffix _np of the lemmas around it) *)
Ltac np_facts :=
  repeat match goal with
  | E : guard_safe _ _ _ _ = GStop _ _ |- _ => apply guard_safe_stop_np in E
  | E : guard_db _ _ = GStop _ _ |- _ => apply guard_db_stop_np in E
  | E : guard_db_name _ _ _ _ _ = GStop _ _ |- _ => apply guard_db_name_stop_np in E
  | E : set_key_value ?n ?d ?k ?v ?ver = (_, _) |- _ =>
      let P := fresh "P" in
      pose proof (set_key_value_np n d k v ver) as P; rewrite E in P; cbn [snd] in P; clear E
  | E : add_database ?n ?d ?k = (_, _) |- _ =>
      let P := fresh "P" in
      pose proof (add_database_np n d k) as P; rewrite E in P; cbn [snd] in P; clear E
  | E : inc_value _ _ _ _ = _ |- _ => apply inc_value_np in E
  | E : remove_value _ _ = _ |- _ => apply remove_value_np in E
  | E : set_value _ _ = _ |- _ => apply set_value_np in E
  end.

Lemma handle_np n c rq : AdminInv n -> snd (handle n c rq) <> RPanic.
Proof.
  intros Hinv.
  assert (Hsnap : forall reclaim names, snd (handle n c (RqReplicateSnapshot reclaim names)) <> RPanic).
  { intros reclaim names. unfold handle. destruct (negb _); [discriminate|].
    apply (snap_fold_np reclaim names (n, ROk)). discriminate. }
  destruct rq; try apply Hsnap; unfold handle, release_previous, tick; cbv zeta beta iota.
  all: repeat dm; np_facts; cbn [snd]; try discriminate; try assumption.
  all: try apply set_key_value_np.
  (* create-db: [add_database] answers no panic on a node that has "$admin" *)
  match goal with H : AdminInv _ -> ?r <> RPanic |- ?r <> RPanic => apply H; exact Hinv end.
Qed.

Lemma handle_keeps n c rq : keeps n (fst (handle n c rq)).
Proof. exact (edits_keeps _ _ _ _ (handle_edits c n rq)). Qed.

Lemma client_left_keeps n c : keeps n (client_left n c).
Proof. exact (edits_keeps _ _ _ _ (client_left_edits all_caps c n n c eq_refl (ed_refl _ _ _))). Qed.

Lemma step_keeps n c line : keeps n (fst (step n c line)).
Proof. exact (edits_keeps _ _ _ _ (step_edits c n line)). Qed.

Lemma replicate_request_np n rq seldb r : r <> RPanic -> snd (replicate_request n rq seldb r) <> RPanic.
Proof.
  intros H. destruct (replicate_request_resp n rq seldb r) as [->|[[m ->]| ->]];
    [assumption|discriminate..].
Qed.

(* the fuel of [step] is enough: a nested request is strictly shorter than its line *)
Lemma process_np fuel : forall n c line, (String.length line < fuel)%nat -> AdminInv n ->
  snd (process fuel n c line) <> RPanic.
Proof.
  assert (Hr : forall (X : node * resp) rq seldb,
            snd X <> RPanic -> snd (let '(n1, r) := X in replicate_request n1 rq seldb r) <> RPanic).
  { intros [n1 r] rq seldb H. now apply replicate_request_np. }
  induction fuel as [|k IH]; intros n c line Hlen Hinv; [lia|].
  cbn [process]. cbv zeta.
  destruct (parse_request (trim_char nl line)) as [rq| |] eqn:Ep;
    [|discriminate|exfalso; now apply (parse_total (trim_char nl line))].
  apply Hr. destruct rq; try now apply handle_np.
  destruct (negb (s_auth (get_sess n c))); [discriminate|].
  apply parse_request_rp_shorter in Ep. pose proof (length_trim_char nl line) as Hl.
  apply IH; [lia|exact Hinv].
Qed.

Theorem step_inv n c line : AdminInv n -> AdminInv (fst (step n c line)).
Proof. apply keeps_inv, step_keeps. Qed.

Theorem step_no_panic n c line : AdminInv n -> snd (step n c line) <> RPanic.
Proof. intros H. unfold step. apply process_np; auto. Qed.

Theorem connect_inv n : AdminInv n -> AdminInv (fst (connect n)).
Proof. intros H. exact H. Qed.

Theorem disconnect_inv n c : AdminInv n -> AdminInv (disconnect n c).
Proof.
  intros H. unfold disconnect. eapply keeps_inv; [apply client_left_keeps|]. now apply step_inv.
Qed.

Theorem init_inv : forall u p a pid r c0, AdminInv (init_node u p a pid r c0).
Proof.
  intros. unfold init_node, tick. cbv zeta beta iota.
  repeat dm. eexists. apply get_db_put_same.
Qed.

Theorem handle_inv n c rq : AdminInv n -> AdminInv (fst (handle n c rq)).
Proof. apply keeps_inv, handle_keeps. Qed.
Theorem client_left_inv n c : AdminInv n -> AdminInv (client_left n c).
Proof. apply keeps_inv, client_left_keeps. Qed.
Theorem replicate_request_inv n rq s r : AdminInv n -> AdminInv (fst (replicate_request n rq s r)).
Proof. apply keeps_inv, keeps_eq, replicate_request_dbs. Qed.

Inductive nev := EConnect | ECmd (c : nat) (line : str) | EDisconnect (c : nat).
Definition nstep (n : node) (e : nev) : node :=
  match e with
  | EConnect => fst (connect n)
  | ECmd c l => fst (step n c l)
  | EDisconnect c => disconnect n c
  end.

Theorem run_inv n evs : AdminInv n -> AdminInv (fold_left nstep evs n).
Proof.
  revert n. induction evs as [|e evs IH]; intros n H; cbn [fold_left]; auto.
  apply IH. destruct e; cbn [nstep]; auto using connect_inv, step_inv, disconnect_inv.
Qed.

Theorem run_no_panic n : AdminInv n -> forall evs c line,
  snd (step (fold_left nstep evs n) c line) <> RPanic.
Proof. intros H evs c line. apply step_no_panic. now apply run_inv. Qed.

Lemma has_permission_sess n n' c k d req :
  s_auth (get_sess n' c) = s_auth (get_sess n c) -> s_user (get_sess n' c) = s_user (get_sess n c) ->
  has_permission n' c k d req = has_permission n c k d req.
Proof. unfold has_permission. now intros -> ->. Qed.

Lemma starts_with_refl s : starts_with s s = true.
Proof. exact (StrLemmas.starts_with_refl s). Qed.

Lemma starts_with_app s p : starts_with (p +++ s) p = true.
Proof. exact (StrLemmas.starts_with_app s p). Qed.

Lemma apply_change_absent n dbn d ch :
  get_db n dbn = Some d -> get_value d (c_key ch) = None ->
  apply_change n dbn ch =
    (sends (put_db n dbn (put_value d (c_key ch) (mkV (c_val ch) (sat_succ (c_ver ch)) (c_opp ch) VNew 0 0)))
           (notify_msgs d (c_key ch) (c_val ch) (sat_succ (c_ver ch))),
     RSet (c_key ch) (c_val ch)).
Proof.
  intros Hd Hv. unfold apply_change. rewrite Hd, (set_value_absent d ch Hv). reflexivity.
Qed.

Lemma guard_safe_granted n c k kind dbn d :
  s_db (get_sess n c) = Some dbn -> get_db n dbn = Some d ->
  starts_with k "$$" = false -> has_permission n c k d kind = true ->
  guard_safe n c k kind = GGo dbn d.
Proof.
  intros Hs Hd Hk Hp. apply guard_safe_intro; auto. intros E. congruence.
Qed.

Lemma guard_safe_denied n c k kind dbn d :
  s_db (get_sess n c) = Some dbn -> get_db n dbn = Some d ->
  starts_with k "$$" = false -> has_permission n c k d kind = false ->
  guard_safe n c k kind = GStop (send n c denied_msg) (RError denied_msg).
Proof.
  intros Hs Hd Hk Hp. unfold guard_safe, guard_db_name. rewrite Hk, Hs, Hd, Hp. reflexivity.
Qed.

Lemma has_permission_anon n c k d req :
  starts_with k "$$" = false -> s_user (get_sess n c) = None ->
  get_value d "$$permission_$all" = None -> has_permission n c k d req = true.
Proof.
  intros Hk Hu Hp. unfold has_permission. rewrite Hk, Hu.
  change ("$$permission_$" +++ "all") with "$$permission_$all". rewrite Hp. reflexivity.
Qed.

Theorem get_served n c dbn d k :
  s_db (get_sess n c) = Some dbn -> get_db n dbn = Some d ->
  starts_with k "$$" = false -> has_permission n c k d PRead = true ->
  handle n c (RqGet k) =
    (send n c ("value " +++ fst (get_key_value_new d k) +++ nlS),
     RValue k (fst (get_key_value_new d k)) (snd (get_key_value_new d k))).
Proof.
  intros Hs Hd Hk Hp. unfold handle. cbv zeta.
  rewrite (guard_safe_granted n c k PRead dbn d Hs Hd Hk Hp).
  destruct (get_key_value_new d k). reflexivity.
Qed.

(* on any node that holds the hypotheses (after any run, by [run_inv]) a key that is not stored can
   be set and read back *)
Theorem probe_served n c dbn d k v :
  AdminInv n -> is_primary n = true ->
  s_db (get_sess n c) = Some dbn -> s_user (get_sess n c) = None ->
  get_db n dbn = Some d -> d_strat d = SNone ->
  get_value d "$$permission_$all" = None ->
  starts_with k "$$" = false -> get_value d k = None ->
  exists n1, handle n c (RqSet k v (-1)) = (n1, RSet k v) /\
  exists n2, handle n1 c (RqGet k) = (n2, RValue k v 0).
Proof.
  intros _ Hprim Hs Hu Hd _ Hperm Hk Hv.
  unfold handle at 1. cbv zeta.
  rewrite (guard_safe_granted n c k PWrite dbn d Hs Hd Hk (has_permission_anon _ _ _ _ _ Hk Hu Hperm)).
  unfold set_key_value, tick. cbv zeta beta iota.
  rewrite (apply_change_absent _ dbn d) by (try exact Hd; exact Hv).
  cbn [c_key c_val c_ver c_opp].
  set (d1 := put_value d k _). set (msgs := notify_msgs _ _ _ _).
  set (n1 := sends _ msgs).
  assert (Hp1 : is_primary n1 = true).
  { unfold is_primary, n1. rewrite n_role_sends. exact Hprim. }
  rewrite Hp1. eexists; split; [reflexivity|].
  destruct (same_attrs_sends msgs (put_db (n_set_clock n (n_clock n + 1)) dbn d1) c) as (Ha & Hb & Hc & _).
  fold n1 in Ha, Hb, Hc.
  change (get_sess (put_db (n_set_clock n (n_clock n + 1)) dbn d1) c) with (get_sess n c) in Ha, Hb, Hc.
  assert (Hd1 : get_db n1 dbn = Some d1).
  { unfold n1. rewrite get_db_sends. apply get_db_put_same. }
  assert (Hne : "$$permission_$all" <> k).
  { intros <-. discriminate Hk. }
  assert (Hperm1 : get_value d1 "$$permission_$all" = None).
  { unfold d1. rewrite gv_put_other; auto. }
  rewrite (get_served n1 c dbn d1 k); auto; try congruence.
  - unfold get_key_value_new, d1. rewrite gv_put_same. cbn [v_val v_ver fst snd]. eexists. reflexivity.
  - apply has_permission_anon; auto. congruence.
Qed.

(* the requests whose branch of [handle] opens with [if negb auth] *)
Definition is_admin_rq (rq : request) : bool :=
  match rq with
  | RqCreateDb _ _ _ | RqSnapshot _ _ | RqReplicateSnapshot _ _ | RqJoin _ | RqLeave _ | RqReplicateLeave _
  | RqReplicateJoin _ | RqSetPrimary _ | RqSetSecondary _ | RqElection _ _ | RqElectionWin | RqElectionActive _
  | RqReplicateSet _ _ _ _ | RqReplicateRemove _ _ | RqReplicateIncrement _ _ _ | RqReplicateSince _ _
  | RqAcknowledge _ _ | RqClusterState | RqMetricsState | RqDebug _ | RqListCommands => true
  | _ => false
  end.

Theorem admin_rq_inert n c rq :
  s_auth (get_sess n c) = false -> is_admin_rq rq = true -> handle n c rq = (n, RError "Not auth").
Proof.
  intros Ha Hq. destruct rq; try discriminate Hq; unfold handle; cbv zeta; rewrite Ha; reflexivity.
Qed.

Theorem admin_line_inert n c line rq :
  s_auth (get_sess n c) = false -> parse_request (trim_char nl line) = POk rq ->
  (is_admin_rq rq = true \/ exists s i, rq = RqReplicateRequest s i) ->
  step n c line = (n, RError "Not auth").
Proof.
  intros Ha Hp [Hq|(s & i & ->)].
  - apply (step_refused n c line rq n _ Hp); [|now apply admin_rq_inert|exact I].
    intros i o ->. discriminate Hq.
  - unfold step. cbn [process]. cbv zeta. rewrite Hp, Ha. reflexivity.
Qed.

Theorem secure_user_cmds_inert n c rq :
  s_auth (get_sess n c) = false ->
  (exists t u, rq = RqCreateUser t u) \/ (exists u ps, rq = RqSetPermissions u ps) ->
  handle n c rq = (n, RError "To read security keys you must auth as an admin!").
Proof.
  intros Ha [(t & u & ->)|(u & ps & ->)]; unfold handle, guard_safe; cbv zeta; rewrite Ha; reflexivity.
Qed.

(* the same at the protocol level: nothing is queued for replication either *)
Theorem secure_user_line_inert n c line rq :
  s_auth (get_sess n c) = false -> parse_request (trim_char nl line) = POk rq ->
  (exists t u, rq = RqCreateUser t u) \/ (exists u ps, rq = RqSetPermissions u ps) ->
  step n c line = (n, RError "To read security keys you must auth as an admin!").
Proof.
  intros Ha Hp Hq.
  apply (step_refused n c line rq n _ Hp); [|now apply secure_user_cmds_inert|exact I].
  destruct Hq as [(t & u & ->)|(u & ps & ->)]; discriminate.
Qed.

(* the requests whose branch of [handle] opens with one of the guards *)
Definition is_data_rq (rq : request) : bool :=
  match rq with
  | RqGet _ | RqGetSafe _ | RqSet _ _ _ | RqRemove _ | RqIncrement _ _ | RqWatch _ | RqUnWatch _
  | RqUnWatchAll | RqKeys _ | RqArbiter | RqResolve _ _ _ _ _ => true
  | _ => false
  end.

Lemma guard_safe_no_db n c k kind :
  s_db (get_sess n c) = None -> s_auth (get_sess n c) = false ->
  guard_safe n c k kind = GStop n (RError secure_msg) \/
  guard_safe n c k kind = GStop (send n c no_db_msg) (RError no_db_msg).
Proof.
  intros Hs Ha. unfold guard_safe, reject_no_db. rewrite Hs, Ha.
  destruct (starts_with k "$$"); cbn [andb negb]; auto.
Qed.

Lemma guard_db_no_db n c :
  s_db (get_sess n c) = None -> guard_db n c = GStop (send n c no_db_msg) (RError no_db_msg).
Proof. intros Hs. unfold guard_db, reject_no_db. now rewrite Hs. Qed.

Theorem data_needs_db n c rq :
  s_db (get_sess n c) = None -> s_auth (get_sess n c) = false -> is_data_rq rq = true ->
  exists n' r, handle n c rq = (n', r) /\
    n_dbs n' = n_dbs n /\ n_repl n' = n_repl n /\ n_sup n' = n_sup n /\
    ((n' = n /\ r = RError "To read security keys you must auth as an admin!") \/
     (n' = send n c no_db_msg /\ r = RError no_db_msg)).
Proof.
  intros Hs Ha Hq.
  destruct rq; try discriminate Hq; unfold handle; cbv zeta; rewrite ?Ha;
  try match goal with |- context [guard_safe n c ?k ?kd] =>
        destruct (guard_safe_no_db n c k kd Hs Ha) as [-> | ->] end;
  rewrite ?(guard_db_no_db n c Hs);
  do 2 eexists; (split; [reflexivity|]); repeat split; auto.
Qed.

Theorem data_line_needs_db n c line rq :
  s_db (get_sess n c) = None -> s_auth (get_sess n c) = false ->
  parse_request (trim_char nl line) = POk rq -> is_data_rq rq = true ->
  step n c line = handle n c rq.
Proof.
  intros Hs Ha Hp Hq.
  destruct (data_needs_db n c rq Hs Ha Hq) as (n' & r & Hh & _ & _ & _ & Hr). rewrite Hh.
  apply (step_refused n c line rq n' r Hp); [|exact Hh|destruct Hr as [[_ ->]|[_ ->]]; exact I].
  intros i o ->. discriminate Hq.
Qed.

Theorem failed_usedb_keeps_selection n c token name user n' msg :
  handle n c (RqUseDb token name user) = (n', RError msg) -> n' = n.
Proof.
  unfold handle. cbv zeta. repeat dm; intros [= <- ?]; try reflexivity; discriminate.
Qed.

Definition eff_user (n : node) (c : nat) : str :=
  match s_user (get_sess n c) with Some u => u | None => "all" end.

Definition grants (d : db) (user k : str) (req : perm_kind) : Prop :=
  exists pv p pat, get_value d ("$$permission_$" +++ user) = Some pv /\
    In p (permissions_from_str (v_val pv)) /\
    (exists kd, In kd (pm_kinds p) /\ perm_kind_eqb req kd = true) /\
    In pat (pm_keys p) /\ pattern_match k pat = true.

Lemma has_permission_spec_gen n c k d req :
  starts_with k "$$" = false ->
  (has_permission n c k d req = true <->
   grants d (eff_user n c) k req \/
   (get_value d ("$$permission_$" +++ eff_user n c) = None /\ eff_user n c = "all")).
Proof.
  intros Hk. unfold has_permission, grants. rewrite Hk. fold (eff_user n c).
  destruct (get_value d ("$$permission_$" +++ eff_user n c)) as [pv|].
  - rewrite existsb_exists. split.
    + intros (p & Hin & Hb). apply andb_true_iff in Hb. destruct Hb as [H1 H2].
      apply existsb_exists in H1. apply existsb_exists in H2.
      destruct H1 as (kd & Hkd & Ekd). destruct H2 as (pat & Hpat & Epat).
      left. exists pv, p, pat. repeat split; eauto.
    + intros [(pv' & p & pat & [= <-] & Hin & (kd & Hkd & Ekd) & Hpat & Epat)|[H _]]; [|discriminate].
      exists p. split; auto. apply andb_true_iff. split; apply existsb_exists; eauto.
  - split.
    + intros H. right. split; auto. now apply String.eqb_eq.
    + intros [(pv' & p & pat & H & _)|[_ ->]]; [discriminate|reflexivity].
Qed.

Theorem has_permission_spec n c k d req u :
  starts_with k "$$" = false -> s_user (get_sess n c) = Some u ->
  (has_permission n c k d req = true <->
   (exists pv p pat, get_value d ("$$permission_$" +++ u) = Some pv /\
      In p (permissions_from_str (v_val pv)) /\
      (exists kd, In kd (pm_kinds p) /\ perm_kind_eqb req kd = true) /\
      In pat (pm_keys p) /\ pattern_match k pat = true) \/
   (get_value d ("$$permission_$" +++ u) = None /\ u = "all")).
Proof.
  intros Hk Hu. pose proof (has_permission_spec_gen n c k d req Hk) as H.
  unfold eff_user, grants in H. rewrite Hu in H. exact H.
Qed.

Theorem has_permission_spec_anon n c k d req :
  starts_with k "$$" = false -> s_user (get_sess n c) = None ->
  (has_permission n c k d req = true <->
   grants d "all" k req \/ get_value d "$$permission_$all" = None).
Proof.
  intros Hk Hu. pose proof (has_permission_spec_gen n c k d req Hk) as H.
  unfold eff_user in H. rewrite Hu in H. rewrite H.
  change ("$$permission_$" +++ "all") with "$$permission_$all". intuition.
Qed.

Theorem has_permission_secure n c k d req :
  starts_with k "$$" = true -> has_permission n c k d req = s_auth (get_sess n c).
Proof. intros Hk. unfold has_permission. now rewrite Hk. Qed.

(* the key and the permission that [guard_safe] is asked for: Sched.key_of, with arbiter and resolve *)
Definition rq_key_kind (rq : request) : option (str * perm_kind) :=
  match rq with
  | RqGet k | RqGetSafe k | RqWatch k => Some (k, PRead)
  | RqSet k _ _ => Some (k, PWrite)
  | RqIncrement k _ => Some (k, PIncrement)
  | RqRemove k => Some (k, PRemove)
  | RqArbiter => Some ("$conflicts", PRead)
  | RqResolve _ _ k _ _ => Some (k, PWrite)
  | _ => None
  end.

Theorem user_denied n c dbn d rq k kind :
  s_auth (get_sess n c) = false -> s_db (get_sess n c) = Some dbn -> get_db n dbn = Some d ->
  rq_key_kind rq = Some (k, kind) -> starts_with k "$$" = false ->
  has_permission n c k d kind = false ->
  handle n c rq = (send n c denied_msg, RError denied_msg).
Proof.
  intros Ha Hs Hd Hq Hk Hp.
  pose proof (guard_safe_denied n c k kind dbn d Hs Hd Hk Hp) as Hg.
  destruct rq; try discriminate Hq; injection Hq as <- <-;
    unfold handle; cbv zeta; rewrite ?Ha; rewrite Hg; reflexivity.
Qed.

Theorem user_denied_line n c dbn d line rq k kind :
  s_auth (get_sess n c) = false -> s_db (get_sess n c) = Some dbn -> get_db n dbn = Some d ->
  parse_request (trim_char nl line) = POk rq ->
  rq_key_kind rq = Some (k, kind) -> starts_with k "$$" = false ->
  has_permission n c k d kind = false ->
  step n c line = (send n c denied_msg, RError denied_msg).
Proof.
  intros Ha Hs Hd Hpr Hq Hk Hp.
  apply (step_refused n c line rq _ _ Hpr); [|exact (user_denied n c dbn d rq k kind Ha Hs Hd Hq Hk Hp)|exact I].
  intros i o ->. discriminate Hq.
Qed.

Theorem no_list_no_value n c u dbn d :
  s_auth (get_sess n c) = false -> s_user (get_sess n c) = Some u -> u <> "all" ->
  s_db (get_sess n c) = Some dbn -> get_db n dbn = Some d ->
  get_value d ("$$permission_$" +++ u) = None ->
  (forall k, handle n c (RqGet k) = (n, RError "To read security keys you must auth as an admin!") \/
             handle n c (RqGet k) = (send n c denied_msg, RError denied_msg)) /\
  (forall p, handle n c (RqKeys p) =
             (send n c ("keys " +++ keys_fold (list_keys d p false) +++ nlS),
              RValue "keys" (keys_fold (list_keys d p false)) (-1))).
Proof.
  intros Ha Hu Hne Hs Hd Hnone. split.
  - intros k. destruct (starts_with k "$$") eqn:Hk.
    + left. unfold handle, guard_safe. cbv zeta. rewrite Hk, Ha. reflexivity.
    + right. apply (user_denied n c dbn d (RqGet k) k PRead); auto.
      destruct (has_permission n c k d PRead) eqn:Hp; auto.
      apply (has_permission_spec n c k d PRead u Hk Hu) in Hp.
      destruct Hp as [(pv & p & pat & H & _)|[_ ->]]; congruence.
  - intros p. unfold handle, guard_db, guard_db_name. cbv zeta. rewrite Hs, Hd, Ha. reflexivity.
Qed.

Lemma http_commands_safe cmds : forall n c acc, AdminInv n ->
  AdminInv (fst (http_commands n c cmds acc)) /\ snd (http_commands n c cmds acc) <> None.
Proof.
  induction cmds as [|cmd rest IH]; intros n c acc Hinv; cbn [http_commands].
  - split; [exact Hinv|discriminate].
  - cbv zeta. destruct (String.eqb (trim cmd) ""); [now apply IH|].
    pose proof (step_inv n c (trim cmd) Hinv) as Hi.
    pose proof (step_no_panic n c (trim cmd) Hinv) as Hp.
    destruct (step n c (trim cmd)) as [n1 r]. cbn [fst snd] in Hi, Hp.
    destruct r; try congruence; try (apply IH; exact Hi).
    all: destruct (s_inbox (get_sess n1 c)); apply IH; exact Hi.
Qed.

Lemma http_request_safe n body : AdminInv n ->
  AdminInv (fst (http_request n body)) /\ snd (http_request n body) <> None.
Proof.
  intros Hinv. unfold http_request, connect. cbv zeta beta iota.
  destruct (http_commands_safe (split_char ";" body) (n_set_sess n (n_sess n ++ [empty_sess]))
              (List.length (n_sess n)) [] Hinv) as [Hi Hp].
  destruct (http_commands _ _ _ _) as [n1 out].
  split; [now apply disconnect_inv|exact Hp].
Qed.

Theorem http_request_inv n body : AdminInv n -> AdminInv (fst (http_request n body)).
Proof. apply http_request_safe. Qed.

Theorem http_request_worker_survives n body : AdminInv n -> snd (http_request n body) <> None.
Proof. apply http_request_safe. Qed.

(* AdminInv is necessary for step_no_panic: on a (never reachable) node without
   the "$admin" database an authenticated create-db panics. *)
Definition no_admin_node : node :=
  mkNode [] [mkSess true None None None []] Primary 0 "u" "p" "a" 1 [] [] [] [] [] [].
Example no_admin_panics : snd (step no_admin_node 0 "create-db x t") = RPanic.
Proof. vm_compute. reflexivity. Qed.

Definition demo0 : node := fst (connect (init_node "u" "p" "addr" 1 Primary 0)).
Example demo_unauth_admin : step demo0 0 "create-db x t" = (demo0, RError "Not auth").
Proof. vm_compute. reflexivity. Qed.
Example demo_unauth_rp : step demo0 0 "rp 1 set a b" = (demo0, RError "Not auth").
Proof. vm_compute. reflexivity. Qed.
Example demo_no_db : snd (step demo0 0 "get a") = RError no_db_msg.
Proof. vm_compute. reflexivity. Qed.
Example demo_resolve_no_db : snd (step demo0 0 "resolve 1 db k 1 v") = RError no_db_msg.
Proof. vm_compute. reflexivity. Qed.

(* deeply nested rp lines terminate within the fuel of [step] *)
Definition demo1 : node := fst (step demo0 0 "auth u p").
Example demo_nested_rp :
  snd (step demo1 0 "rp 1 rp 2 rp 3 rp 4 create-db x t") = ROk.
Proof. vm_compute. reflexivity. Qed.

Check parse_total. Check init_inv. Check step_inv. Check connect_inv. Check disconnect_inv.
Check step_no_panic. Check run_inv. Check run_no_panic. Check probe_served.
Check http_request_inv. Check http_request_worker_survives.
Check admin_rq_inert. Check admin_line_inert. Check secure_user_cmds_inert. Check secure_user_line_inert.
Check data_needs_db. Check data_line_needs_db. Check failed_usedb_keeps_selection.
Check has_permission_spec. Check has_permission_spec_anon. Check has_permission_secure.
Check user_denied. Check user_denied_line. Check get_served. Check no_list_no_value.
Print Assumptions run_no_panic.
Print Assumptions probe_served.
Print Assumptions http_request_worker_survives.
Print Assumptions admin_line_inert.
Print Assumptions data_line_needs_db.
Print Assumptions user_denied_line.
Print Assumptions no_list_no_value.
Print Assumptions has_permission_spec.
