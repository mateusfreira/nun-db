(* C05: what the parser makes of the version-less catch-up line "replicate <db> <key> <value>": three
   examples and one line that does not come back. *)
From NunDB Require Import Model.Base Model.Parse.
Local Open Scope Z_scope.

(* the text up to the first space of the value is taken for the version *)
Example sync_line_one_word :
  parse_request "replicate d1 k value3" = POk (RqReplicateSet "d1" "k" "" (-1)).
Proof. vm_compute. reflexivity. Qed.
Example sync_line_multi_word :
  parse_request "replicate d1 k a b c" = POk (RqReplicateSet "d1" "k" "b c" (-1)).
Proof. vm_compute. reflexivity. Qed.
Example sync_line_numeric_first :
  parse_request "replicate d1 k 12 abc" = POk (RqReplicateSet "d1" "k" "abc" 12).
Proof. vm_compute. reflexivity. Qed.

(* a witness that the catch-up line does not round-trip; every one-word value is lost in this way
   (FullSyncProofs.sync_line_one_word_value_lost).  [sync_line] is FullSyncProofs.sync_line. *)
Definition sync_line (db key value : str) : str := "replicate " +++ db +++ " " +++ key +++ " " +++ value.
Theorem sync_line_roundtrip_refuted :
  exists db key value, forall ver, parse_request (sync_line db key value) <> POk (RqReplicateSet db key value ver).
Proof. exists "d1", "k", "value3". intros ver. vm_compute. discriminate. Qed.
