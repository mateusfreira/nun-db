(* Property C01 -- reads return the latest successful write (single-node key-value semantics) *)
(* Statements only: each theorem restates the proved lemma's statement and is closed by [exact]. *)
From NunDB Require Import Model.Base Model.Pending Model.Parse Model.Node Proofs.StrLemmas Proofs.DbProofs Proofs.PatternProofs.
Local Open Scope Z_scope.

(* an accepted write stores exactly that value under that key and touches no other key *)
Theorem C01_set_value_ok :
  forall (d : db) (ch : change) (d' : db) (k v : str) (msgs : list (nat * str)),
         set_value d ch = (d', RSet k v, msgs) ->
         k = c_key ch /\
         v = c_val ch /\
         live d' (c_key ch) = Some (c_val ch) /\
         (forall k' : str, k' <> c_key ch -> get_value d' k' = get_value d k').
Proof. exact set_value_ok. Qed.
Print Assumptions C01_set_value_ok.

(* a refused write changes nothing *)
Theorem C01_set_value_refused :
  forall (d : db) (ch : change) (d' : db) (r : resp) (msgs : list (nat * str)),
         set_value d ch = (d', r, msgs) ->
         (forall k v : str, r <> RSet k v) ->
         d' = d /\
         msgs = [] /\
         (exists old : value,
            get_value d (c_key ch) = Some old /\
            r = RVersionError (c_key ch) (v_ver old) (c_ver ch) old ch (upd_state old)).
Proof. exact set_value_refused. Qed.
Print Assumptions C01_set_value_refused.

Theorem C01_remove_value_spec :
  forall (d : db) (key : string) (d' : db) (r : resp) (msgs : list (nat * str)),
         key <> "$$token" ->
         remove_value d key = (d', r, msgs) ->
         r = ROk /\ live d' key = None /\ (forall k' : string, k' <> key -> get_value d' k' = get_value d k').
Proof. exact remove_value_spec. Qed.
Print Assumptions C01_remove_value_spec.

Theorem C01_remove_token_refused :
  forall d : db, remove_value d "$$token" = (d, RError "$$token key cannot be removed", []).
Proof. exact remove_token_refused. Qed.
Print Assumptions C01_remove_token_refused.

(* increment adds exactly its argument to an integer (absent or removed = 0) value and refuses anything else without changing it *)
Theorem C01_inc_value_spec :
  forall (d : db) (k : str) (inc : Z) (opp : N),
         let cur := match live d k with
                    | Some s => s
                    | None => "0"
                    end in
         (forall c : Z,
          parse_i32 cur = Some c ->
          -2147483648 <= c + inc <= 2147483647 ->
          exists (d' : db) (msgs : list (nat * str)),
            inc_value d k inc opp = (d', ROk, msgs) /\
            live d' k = Some (Z_to_str (c + inc)) /\
            (forall k' : str, k' <> k -> get_value d' k' = get_value d k')) /\
         (parse_i32 cur = None \/
          (exists c : Z, parse_i32 cur = Some c /\ ~ -2147483648 <= c + inc <= 2147483647) ->
          inc_value d k inc opp = (d, RError "Key is not numeric", [])).
Proof. exact inc_value_spec. Qed.
Print Assumptions C01_inc_value_spec.

(* get returns the live value or <Empty> *)
Theorem C01_get_spec :
  forall (d : db) (k : str),
         wf_db d -> fst (get_key_value_new d k) = match live d k with
                                                  | Some s => s
                                                  | None => "<Empty>"
                                                  end.
Proof. exact get_spec. Qed.
Print Assumptions C01_get_spec.

(* keys lists exactly the live keys matching the pattern, hiding $$ keys unless system *)
Theorem C01_list_keys_spec :
  forall (d : db) (p : str) (sys : bool) (k : str),
         wf_db d ->
         In k (list_keys d p sys) <->
         live d k <> None /\ pattern_match k p = true /\ (sys = true \/ starts_with k "$$" = false).
Proof. exact list_keys_spec. Qed.
Print Assumptions C01_list_keys_spec.

Theorem C01_list_keys_sorted :
  forall (d : db) (p : str) (sys : bool),
         wf_db d ->
         Sorted.StronglySorted (fun a b : str => str_leb a b = true) (list_keys d p sys) /\
         NoDup (list_keys d p sys).
Proof. exact list_keys_sorted. Qed.
Print Assumptions C01_list_keys_sorted.

(* HEADLINE: for every history of mutations, gets and key listings (any length) the outputs are those of a plain map and the live content equals the plain map's *)
Theorem C01_refines :
  forall (ops : list qop) (d : db),
         wf_db d ->
         spec_run (live d) ops (snd (impl_run d ops)) /\
         (forall k : str, live (fst (impl_run d ops)) k = spec_final (live d) ops (snd (impl_run d ops)) k).
Proof. exact C01_refines. Qed.
Print Assumptions C01_refines.

Theorem C01_refines_empty :
  forall (ops : list qop) (id : N) (s : strat),
         spec_run (fun _ : str => None) ops (snd (impl_run (empty_db id s) ops)) /\
         (forall k : str,
          live (fst (impl_run (empty_db id s) ops)) k =
          spec_final (fun _ : str => None) ops (snd (impl_run (empty_db id s) ops)) k).
Proof. exact C01_refines_empty. Qed.
Print Assumptions C01_refines_empty.

Theorem C01_refused_changes_nothing :
  forall (d : db) (o : dop), resp_ok (dop_resp d o) = false -> db_apply d o = d.
Proof. exact refused_changes_nothing. Qed.
Print Assumptions C01_refused_changes_nothing.

(* the well-formedness hypothesis holds initially and is preserved *)
Theorem C01_wf_db_empty :
  forall (id : N) (s : strat), wf_db (empty_db id s).
Proof. exact wf_db_empty. Qed.
Print Assumptions C01_wf_db_empty.

Theorem C01_set_value_wf :
  forall (d : db) (ch : change), wf_db d -> wf_db (fst (fst (set_value d ch))).
Proof. exact set_value_wf. Qed.
Print Assumptions C01_set_value_wf.

Theorem C01_remove_value_wf :
  forall (d : db) (key : str), wf_db d -> wf_db (fst (fst (remove_value d key))).
Proof. exact remove_value_wf. Qed.
Print Assumptions C01_remove_value_wf.

Theorem C01_inc_value_wf :
  forall (d : db) (key : str) (inc : Z) (opp : N),
         wf_db d -> wf_db (fst (fst (inc_value d key inc opp))).
Proof. exact inc_value_wf. Qed.
Print Assumptions C01_inc_value_wf.

(* the three matchers mean what their names say *)
Theorem C01_starts_with_spec :
  forall k p : str, starts_with k p = true <-> (exists r : string, k = p +++ r).
Proof. exact starts_with_spec. Qed.
Print Assumptions C01_starts_with_spec.

Theorem C01_ends_with_spec :
  forall k p : str, ends_with k p = true <-> (exists l : string, k = l +++ p).
Proof. exact ends_with_spec. Qed.
Print Assumptions C01_ends_with_spec.

Theorem C01_contains_spec :
  forall k p : str, contains k p = true <-> (exists l r : string, k = l +++ p +++ r).
Proof. exact contains_spec. Qed.
Print Assumptions C01_contains_spec.

(* `p*` matches exactly the keys that start with p *)
Theorem C01_pattern_prefix_spec :
  forall k p : str,
         S3Proofs.nochar "*" p = true ->
         pattern_match k (p +++ "*") = true <-> (exists r : string, k = p +++ r).
Proof. exact pattern_prefix_spec. Qed.
Print Assumptions C01_pattern_prefix_spec.

(* `*p` matches exactly the keys that end with p *)
Theorem C01_pattern_suffix_spec :
  forall k p : str,
         S3Proofs.nochar "*" p = true ->
         pattern_match k ("*" +++ p) = true <-> (exists l : string, k = l +++ p).
Proof. exact pattern_suffix_spec_gen. Qed.
Print Assumptions C01_pattern_suffix_spec.

(* a pattern without star matches exactly the keys that contain it *)
Theorem C01_pattern_contains_spec :
  forall k p : str,
         S3Proofs.nochar "*" p = true -> pattern_match k p = true <-> (exists l r : string, k = l +++ p +++ r).
Proof. exact pattern_contains_spec. Qed.
Print Assumptions C01_pattern_contains_spec.

(* every pattern is one of the three, with ALL its stars removed (`*a*` is a prefix pattern, `a*b` a literal substring) *)
Theorem C01_pattern_match_classify :
  forall (k : str) (pat : string),
         (exists q : string,
            pat = q +++ "*" /\
            (pattern_match k pat = true <-> (exists r : string, k = remove_char "*" q +++ r))) \/
         ends_with pat "*" = false /\
         (exists q : string,
            pat = "*" +++ q /\
            (pattern_match k pat = true <-> (exists l : string, k = l +++ remove_char "*" q))) \/
         ends_with pat "*" = false /\
         starts_with pat "*" = false /\
         (pattern_match k pat = true <-> (exists l r : string, k = l +++ pat +++ r)).
Proof. exact pattern_match_classify. Qed.
Print Assumptions C01_pattern_match_classify.

(* kept visible: `*p*` is a prefix pattern, not a substring pattern *)
Theorem C01_pattern_star_both_prefix :
  forall k p : str,
         S3Proofs.nochar "*" p = true ->
         pattern_match k ("*" +++ p +++ "*") = true <-> (exists r : string, k = p +++ r).
Proof. exact pattern_star_both_prefix. Qed.
Print Assumptions C01_pattern_star_both_prefix.

(* keys p* lists exactly the live visible keys that start with p *)
Theorem C01_list_keys_prefix_spec :
  forall (d : db) (p : str) (sys : bool) (k : str),
         wf_db d ->
         S3Proofs.nochar "*" p = true ->
         In k (list_keys d (p +++ "*") sys) <->
         live d k <> None /\ (exists r : string, k = p +++ r) /\ (sys = true \/ starts_with k "$$" = false).
Proof. exact list_keys_prefix_spec. Qed.
Print Assumptions C01_list_keys_prefix_spec.

Theorem C01_list_keys_suffix_spec :
  forall (d : db) (p : str) (sys : bool) (k : str),
         wf_db d ->
         S3Proofs.nochar "*" p = true ->
         In k (list_keys d ("*" +++ p) sys) <->
         live d k <> None /\ (exists l : string, k = l +++ p) /\ (sys = true \/ starts_with k "$$" = false).
Proof. exact list_keys_suffix_spec. Qed.
Print Assumptions C01_list_keys_suffix_spec.

Theorem C01_list_keys_contains_spec :
  forall (d : db) (p : str) (sys : bool) (k : str),
         wf_db d ->
         S3Proofs.nochar "*" p = true ->
         In k (list_keys d p sys) <->
         live d k <> None /\
         (exists l r : string, k = l +++ p +++ r) /\ (sys = true \/ starts_with k "$$" = false).
Proof. exact list_keys_contains_spec. Qed.
Print Assumptions C01_list_keys_contains_spec.

(* `*` and the empty pattern list every live visible key *)
Theorem C01_list_keys_all_spec :
  forall (d : db) (sys : bool) (k : str),
         wf_db d ->
         (In k (list_keys d "*" sys) <-> live d k <> None /\ (sys = true \/ starts_with k "$$" = false)) /\
         (In k (list_keys d "" sys) <-> live d k <> None /\ (sys = true \/ starts_with k "$$" = false)).
Proof. exact list_keys_all_spec. Qed.
Print Assumptions C01_list_keys_all_spec.

(* non-vacuity: ab, aba, bab under ab*, *ab, ab *)
Theorem C01_pattern_examples :
  filter (fun k : str => pattern_match k "ab*") ["ab"; "aba"; "bab"] = ["ab"; "aba"] /\
         filter (fun k : str => pattern_match k "*ab") ["ab"; "aba"; "bab"] = ["ab"; "bab"] /\
         filter (fun k : str => pattern_match k "ab") ["ab"; "aba"; "bab"] = ["ab"; "aba"; "bab"] /\
         list_keys pp_db "ab*" false = ["ab"; "aba"] /\
         list_keys pp_db "*ab" false = ["ab"; "bab"] /\
         list_keys pp_db "ab" false = ["ab"; "aba"; "bab"] /\
         list_keys pp_db "*" false = ["ab"; "aba"; "bab"] /\
         list_keys pp_db "" true = ["$$token"; "ab"; "aba"; "bab"] /\ list_keys pp_db "gone" true = [].
Proof. exact pattern_examples. Qed.
Print Assumptions C01_pattern_examples.
